(* GoTables.v — facts about the model of the Go renderer (GoRt.go_cls_of / go_proc_of /
   go_type_of): which Go types it declares, which field each accessor table entry addresses
   (array depth, conversion type, sign extension), and that its processor tree and table
   addressing coincide with the Python renderer model (PyRt.proc_of / cls_of).
   T1 (tools/t1_go.py) ties the model to the emitted text on every run. *)
From Coq Require Import ZArith List Lia.
From BP Require Import Schema PyRt PyEncProofs GoRt GoHelpers.
From BPGen Require GenGo.
Import ListNotations.
Open Scope Z_scope.

Fixpoint arr_layers (t : ty) : nat :=
  match t with
  | TAlias t' => arr_layers t'
  | TArr _ _ e => S (arr_layers e)
  | _ => O
  end.

Fixpoint innermost (t : ty) : ty :=
  match t with
  | TAlias t' => innermost t'
  | TArr _ _ e => innermost e
  | _ => t
  end.

Definition is_msgb (t : ty) : bool := match t with TMsg _ _ => true | _ => false end.
Definition is_boolb (t : ty) : bool := match t with TBool => true | _ => false end.

Lemma innermost_kind t : is_single (innermost t) = true \/ is_msgb (innermost t) = true.
Proof.
  induction t as [| | n | n | n ms | t IH | x c e IH | x fs IH] using ty_ind'; cbn; auto.
Qed.

Lemma go_type_uint n : 1 <= n <= 64 -> go_type_of (TUint n) = GUint (smallest_cover n).
Proof. intros H. cbn [go_type_of]. now rewrite get_nbits_of_integer_eq. Qed.

Lemma go_type_int n : 1 <= n <= 64 -> go_type_of (TInt n) = GInt (smallest_cover n).
Proof. intros H. cbn [go_type_of]. now rewrite get_nbits_of_integer_eq. Qed.

Lemma go_type_enum n ms : 1 <= n <= 64 -> go_type_of (TEnum n ms) = GNamed (GUint (smallest_cover n)).
Proof. intros H. cbn [go_type_of]. now rewrite get_nbits_of_integer_eq. Qed.

(* GoRt.elem_gty, under the name the C19 statements use *)
Fixpoint strip_arrays (g : gty) (d : nat) {struct d} : option gty :=
  match d with
  | O => Some g
  | S d' => match under g with GArr _ e => strip_arrays e d' | _ => None end
  end.

Lemma elem_gty_strip g d : elem_gty g d = strip_arrays g d.
Proof. revert g; induction d as [|d IH]; intros g; [reflexivity|]. cbn. destruct (under g); auto. Qed.

(* the declared type of a field: arr_layers array layers (with their capacities, through named
   alias types) around the type of the innermost type *)
Lemma go_type_layers t :
  shape_ok t = true ->
  exists g, strip_arrays (go_type_of t) (arr_layers t) = Some g /\
            under g = under (go_type_of (innermost t)).
Proof.
  induction t as [| | n | n | n ms | t IH | x c e IH | x fs IH] using ty_ind'; intros Hs;
    try (eexists; split; [reflexivity|reflexivity]).
  - cbn [shape_ok] in Hs.
    assert (Hs' : shape_ok t = true) by (destruct t; try discriminate; exact Hs).
    destruct (IH Hs') as (g & E & U). cbn [arr_layers innermost go_type_of].
    revert E. destruct (arr_layers t) as [|d]; intros E.
    + cbn [strip_arrays] in *. injection E as <-.
      eexists; split; [reflexivity|]. exact U.
    + cbn [strip_arrays] in *. cbn [under]. exists g. split; [exact E|exact U].
  - cbn [shape_ok] in Hs.
    assert (Hs' : shape_ok e = true) by (destruct e; try discriminate; exact Hs).
    destruct (IH Hs') as (g & E & U). cbn [arr_layers innermost go_type_of strip_arrays under].
    exists g. split; assumption.
Qed.

(* the Python renderer's address of a field: its array layers and its innermost type *)
Lemma leaf_of_spec t : forall d,
  leaf_of t d = if is_single (innermost t) then Some ((d + arr_layers t)%nat, innermost t) else None.
Proof.
  induction t as [| | n | n | n ms | t IH | x c e IH | x fs IH] using ty_ind'; intros d;
    cbn [leaf_of innermost arr_layers is_single]; rewrite ?Nat.add_0_r; try reflexivity.
  - apply IH.
  - rewrite IH. replace (S d + arr_layers e)%nat with (d + S (arr_layers e))%nat by lia. reflexivity.
Qed.

Lemma msg_depth_of_spec t : forall d,
  msg_depth_of t d = if is_msgb (innermost t) then Some (d + arr_layers t)%nat else None.
Proof.
  induction t as [| | n | n | n ms | t IH | x c e IH | x fs IH] using ty_ind'; intros d;
    cbn [msg_depth_of innermost arr_layers is_msgb]; rewrite ?Nat.add_0_r; try reflexivity.
  - apply IH.
  - rewrite IH. replace (S d + arr_layers e)%nat with (d + S (arr_layers e))%nat by lia. reflexivity.
Qed.

(* on the shapes the front end accepts the Go renderer computes the same address; the type it
   converts through is the leaf or a named alias of it *)
Lemma gaddr_py t : shape_ok t = true -> forall d,
  match leaf_of t d with
  | Some (d', lt) => exists ct, gleaf_of t d = Some (d', ct, lt) /\
                                under (go_type_of ct) = under (go_type_of lt) /\
                                (ct = lt \/ ct = TAlias lt)
  | None => gleaf_of t d = None
  end /\ gmsg_depth_of t d = msg_depth_of t d.
Proof.
  induction t as [| | n | n | n ms | t IH | x c e IH | x fs IH] using ty_ind'; intros Hs d;
    try (split; [eexists; repeat split; auto|reflexivity]).
  - (* alias: of a single type, or of an array (shape_ok allows nothing else) *)
    cbn [shape_ok] in Hs.
    destruct t as [| | n | n | n ms | t' | x c e | x fs]; try discriminate Hs;
      try (split; [eexists; repeat split; auto|reflexivity]).
    exact (IH Hs d).
  - cbn [shape_ok] in Hs.
    assert (Hs' : shape_ok e = true) by (destruct e; try discriminate; exact Hs).
    specialize (IH Hs' (S d)). destruct e; try discriminate; exact IH.
Qed.

Lemma gleaf_single t :
  shape_ok t = true -> is_single (innermost t) = true -> forall d,
  (exists ct, gleaf_of t d = Some ((d + arr_layers t)%nat, ct, innermost t) /\
              under (go_type_of ct) = under (go_type_of (innermost t)) /\
              (ct = innermost t \/ ct = TAlias (innermost t))) /\
  gmsg_depth_of t d = None.
Proof.
  intros Hs Hi d. destruct (gaddr_py t Hs d) as [H1 ->].
  rewrite leaf_of_spec, Hi in H1. rewrite msg_depth_of_spec.
  split; [exact H1|]. destruct (innermost t); try discriminate; reflexivity.
Qed.

Lemma gleaf_msg t :
  shape_ok t = true -> is_msgb (innermost t) = true -> forall d,
  gleaf_of t d = None /\ gmsg_depth_of t d = Some (d + arr_layers t)%nat.
Proof.
  intros Hs Hi d. destruct (gaddr_py t Hs d) as [H1 ->].
  rewrite leaf_of_spec in H1. rewrite msg_depth_of_spec, Hi.
  split; [|reflexivity]. destruct (innermost t); try discriminate; exact H1.
Qed.

Definition sign_entry (d : nat) (n : Z) : option gient :=
  let dd := GenGo.get_nbits_of_integer n - n in
  if dd <=? 0 then None else Some {| gi_depth := d; gi_d := dd |}.

(* what go_cls_of holds at the number of a field: each table as a function of the field's type *)
Lemma go_cls_lookup x fs k ft :
  keys_distinct (map fst fs) = true -> In (k, ft) fs ->
  let c := go_cls_of x fs in
  lookup k (gc_set c) =
    option_map (fun a => {| gs_depth := fst (fst a); gs_conv := go_type_of (snd (fst a));
                            gs_kind := if is_boolb (snd a) then GSBool else GSOr |}) (gleaf_of ft 0) /\
  lookup k (gc_get c) =
    option_map (fun a => {| gg_depth := fst (fst a);
                            gg_kind := match snd a with TBool => GGBool (is_alias (snd (fst a))) | _ => GGInt end |})
               (gleaf_of ft 0) /\
  lookup k (gc_int c) = match gleaf_of ft 0 with Some (d, _, TInt n) => sign_entry d n | _ => None end /\
  lookup k (gc_acc c) = gmsg_depth_of ft 0 /\
  lookup k (gc_struct c) = Some (go_type_of ft).
Proof.
  intros Hd Hin c. unfold c, go_cls_of. cbn [gc_set gc_get gc_int gc_acc gc_struct].
  rewrite !(lookup_filter_map _ fs k ft Hd Hin); cbn [fst snd].
  - repeat split.
    + destruct (gleaf_of ft 0) as [[[d ct] [| | | | | | |]]|]; reflexivity.
    + destruct (gleaf_of ft 0) as [[[d ct] st]|]; reflexivity.
    + destruct (gleaf_of ft 0) as [[[d ct] [| | |n| | | |]]|]; try reflexivity.
      unfold sign_entry. cbv zeta. destruct (_ <=? 0); reflexivity.
    + destruct (gmsg_depth_of ft 0); reflexivity.
    + apply (lookup_map_fields (fun _ => go_type_of)); assumption.
  - intros kf b Hb. destruct (gmsg_depth_of (snd kf) 0); inversion Hb; reflexivity.
  - intros kf b Hb. destruct (gleaf_of (snd kf) 0) as [[[? ?] [| | |n| | | |]]|]; try discriminate.
    revert Hb. cbv zeta. destruct (_ <=? 0); intros Hb; inversion Hb; reflexivity.
  - intros kf b Hb. destruct (gleaf_of (snd kf) 0) as [[[? ?] ?]|]; inversion Hb; reflexivity.
  - intros kf b Hb. destruct (gleaf_of (snd kf) 0) as [[[? ?] ?]|]; inversion Hb; reflexivity.
Qed.

Theorem tables_single x fs k ft :
  keys_distinct (map fst fs) = true -> In (k, ft) fs ->
  shape_ok ft = true -> is_single (innermost ft) = true ->
  let c := go_cls_of x fs in
  let s := innermost ft in
  let d := arr_layers ft in
  (exists e, lookup k (gc_set c) = Some e /\ gs_depth e = d /\
             under (gs_conv e) = under (go_type_of s) /\
             gs_kind e = (if is_boolb s then GSBool else GSOr)) /\
  (exists e, lookup k (gc_get c) = Some e /\ gg_depth e = d /\
             (if is_boolb s then exists cv, gg_kind e = GGBool cv else gg_kind e = GGInt)) /\
  lookup k (gc_int c) = (match s with TInt n => sign_entry d n | _ => None end) /\
  lookup k (gc_acc c) = None /\
  lookup k (gc_struct c) = Some (go_type_of ft).
Proof.
  intros Hd Hin Hs Hi c s d. unfold c.
  destruct (go_cls_lookup x fs k ft Hd Hin) as (-> & -> & -> & -> & ->).
  destruct (gleaf_single ft Hs Hi 0%nat) as ((ct & -> & Eu & _) & ->). cbn [Nat.add option_map fst snd].
  fold d s. fold s in Eu. repeat split.
  - eexists. repeat split. exact Eu.
  - eexists. repeat split. destruct s; cbn [is_boolb]; try reflexivity. eexists; reflexivity.
Qed.

Theorem tables_msg x fs k ft :
  keys_distinct (map fst fs) = true -> In (k, ft) fs ->
  shape_ok ft = true -> is_msgb (innermost ft) = true ->
  let c := go_cls_of x fs in
  lookup k (gc_acc c) = Some (arr_layers ft) /\
  lookup k (gc_set c) = None /\ lookup k (gc_get c) = None /\ lookup k (gc_int c) = None /\
  lookup k (gc_struct c) = Some (go_type_of ft).
Proof.
  intros Hd Hin Hs Hi c. unfold c.
  destruct (go_cls_lookup x fs k ft Hd Hin) as (-> & -> & -> & -> & ->).
  destruct (gleaf_msg ft Hs Hi 0%nat) as (-> & ->). repeat split.
Qed.

(* sign extension exactly for the signed widths that are not 8/16/32/64, by the distance to
   the storage width *)
Lemma cover_std n : 1 <= n <= 64 -> (smallest_cover n - n <=? 0) = is_std_width n.
Proof.
  intros H. unfold smallest_cover, is_std_width.
  destruct (n <=? 8) eqn:E8; [|destruct (n <=? 16) eqn:E16; [|destruct (n <=? 32) eqn:E32]];
    destruct (n =? 8) eqn:F8; destruct (n =? 16) eqn:F16; destruct (n =? 32) eqn:F32;
    destruct (n =? 64) eqn:F64; cbn [orb]; lia.
Qed.

Lemma sign_entry_spec d n :
  1 <= n <= 64 ->
  sign_entry d n = if is_std_width n then None
                   else Some {| gi_depth := d; gi_d := smallest_cover n - n |}.
Proof.
  intros H. unfold sign_entry. cbv zeta. rewrite get_nbits_of_integer_eq, cover_std by assumption.
  reflexivity.
Qed.

Definition gskel_fields :=
  fix go (l : list (Z * gproc)) : list (Z * sk) :=
    match l with [] => [] | kf :: r => (fst kf, gskel (snd kf)) :: go r end.
Definition pskel_fields :=
  fix go (l : list (Z * proc)) : list (Z * sk) :=
    match l with [] => [] | kf :: r => (fst kf, pskel (snd kf)) :: go r end.
Definition go_proc_fields :=
  fix go (l : list (Z * ty)) : list (Z * gproc) :=
    match l with [] => [] | kf :: r => (fst kf, go_proc_of (snd kf)) :: go r end.

Theorem tree_eq_py t : gskel (go_proc_of t) = pskel (proc_of t).
Proof.
  induction t as [| | n | n | n ms | t IH | x c e IH | x fs IH] using ty_ind'; try reflexivity.
  - cbn [go_proc_of proc_of gskel pskel]. now rewrite IH.
  - cbn [go_proc_of proc_of gskel pskel]. now rewrite IH.
  - change (gskel (go_proc_of (TMsg x fs)))
      with (KMsg x (nbits (TMsg x fs)) (gskel_fields (go_proc_fields fs))).
    change (pskel (proc_of (TMsg x fs)))
      with (KMsg x (nbits (TMsg x fs)) (pskel_fields (map_proc fs))).
    f_equal. induction fs as [|kf r IHr]; [reflexivity|].
    inversion IH as [|? ? Hk Hr]; subst.
    cbn [go_proc_fields map_proc gskel_fields pskel_fields fst snd]. rewrite Hk. f_equal. apply IHr, Hr.
Qed.

Definition widths_ok (t : ty) : bool :=
  match innermost t with TInt n => (1 <=? n) && (n <=? 64) | _ => true end.

Definition fields_ok (fs : list (Z * ty)) : Prop :=
  forall k ft, In (k, ft) fs -> shape_ok ft = true /\ widths_ok ft = true.

Lemma filter_map_agree {A B C D} (f : A -> option B) (g : A -> option C) (pb : B -> D) (pc : C -> D) l :
  (forall a, In a l -> option_map pb (f a) = option_map pc (g a)) ->
  map pb (filter_map f l) = map pc (filter_map g l).
Proof.
  induction l as [|a r IH]; intros H; [reflexivity|]. cbn [filter_map].
  pose proof (H a (or_introl eq_refl)) as Ha.
  assert (Hr : map pb (filter_map f r) = map pc (filter_map g r)) by (apply IH; intros; apply H; now right).
  destruct (f a), (g a); try discriminate; [injection Ha as Ha; cbn [map]; now rewrite Ha, Hr|exact Hr].
Qed.

Lemma addr_eq_py ft :
  shape_ok ft = true ->
  option_map (fun x => (fst (fst x), snd x)) (gleaf_of ft 0) = leaf_of ft 0 /\
  (forall d ct st, gleaf_of ft 0 = Some (d, ct, st) -> st = innermost ft) /\
  gmsg_depth_of ft 0 = msg_depth_of ft 0.
Proof.
  intros Hs. destruct (gaddr_py ft Hs 0%nat) as [H1 H2]. repeat split; [| |exact H2].
  - destruct (leaf_of ft 0) as [[d lt]|]; [destruct H1 as (ct & -> & _)|rewrite H1]; reflexivity.
  - rewrite leaf_of_spec in H1.
    destruct (is_single (innermost ft)); [destruct H1 as (ct' & -> & _)|rewrite H1]; congruence.
Qed.

Lemma agree_get x fs : fields_ok fs -> depths_get (cls_of fs) = gdepths_get (go_cls_of x fs).
Proof.
  intros Hok. unfold depths_get, gdepths_get, cls_of, go_cls_of. cbn [c_get gc_get].
  apply filter_map_agree. intros [k ft] Hin. destruct (Hok k ft Hin) as [Hs _].
  destruct (addr_eq_py ft Hs) as (E & _). cbn [fst snd]. rewrite <- E.
  destruct (gleaf_of ft 0) as [[[d ct] st]|]; [|reflexivity]. destruct st; reflexivity.
Qed.

Lemma agree_set x fs : fields_ok fs -> depths_set (cls_of fs) = gdepths_set (go_cls_of x fs).
Proof.
  intros Hok. unfold depths_set, gdepths_set, cls_of, go_cls_of. cbn [c_set gc_set].
  apply filter_map_agree. intros [k ft] Hin. destruct (Hok k ft Hin) as [Hs _].
  destruct (addr_eq_py ft Hs) as (E & _). cbn [fst snd]. rewrite <- E.
  destruct (gleaf_of ft 0) as [[[d ct] st]|]; [|reflexivity]. destruct st; try reflexivity.
  destruct d; reflexivity.
Qed.

Lemma agree_acc x fs : fields_ok fs -> c_acc (cls_of fs) = gc_acc (go_cls_of x fs).
Proof.
  intros Hok. rewrite <- (map_id (c_acc _)), <- (map_id (gc_acc _)).
  unfold cls_of, go_cls_of. cbn [c_acc gc_acc]. apply filter_map_agree. intros [k ft] Hin. destruct (Hok k ft Hin) as [Hs _].
  destruct (addr_eq_py ft Hs) as (_ & _ & E). cbn [fst snd]. now rewrite E.
Qed.

(* sign handling: the same fields, the same depth, and Python's tested bit n-1 and Go's
   shift distance d = W - n describe the same width n *)
Lemma agree_int x fs :
  keys_distinct (map fst fs) = true -> fields_ok fs ->
  depths_int (cls_of fs) = gdepths_int (go_cls_of x fs).
Proof.
  intros Hd Hok. unfold depths_int, gdepths_int. unfold cls_of at 1, go_cls_of at 2. cbn [c_int gc_int].
  apply filter_map_agree. intros [k ft] Hin. destruct (Hok k ft Hin) as [Hs Hw].
  destruct (addr_eq_py ft Hs) as (E & Hst & _). cbn [fst snd]. rewrite <- E.
  destruct (gleaf_of ft 0) as [[[d ct] st]|] eqn:El; [|reflexivity].
  pose proof (Hst _ _ _ eq_refl) as ->. cbn [option_map fst snd].
  destruct (innermost ft) as [| | n | n | n ms | t' | x' c' e' | x' fs'] eqn:Ei; try reflexivity.
  unfold widths_ok in Hw. rewrite Ei in Hw. assert (Hn : 1 <= n <= 64) by lia.
  cbv zeta. rewrite get_nbits_of_integer_eq, cover_std by assumption.
  destruct (is_std_width n); [reflexivity|]. cbn [option_map fst snd i_depth i_shift gi_depth gi_d].
  destruct (tables_single x fs k ft Hd Hin Hs ltac:(now rewrite Ei)) as ((e & -> & _ & -> & _) & _).
  rewrite Ei. cbn [go_type_of under]. rewrite get_nbits_of_integer_eq by assumption.
  do 2 f_equal. lia.
Qed.
