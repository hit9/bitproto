(* SchemaFacts.v — what follows from the schema and the specification alone (no runtime):
   the inner fixpoints of the Schema/Spec definitions under names, well-formedness and
   typing of a message as facts about its field list, sizes, and the layout of [wire]. *)
From Coq Require Import ZArith List Bool Lia Permutation.
From BP Require Import ListFacts Bits Schema Spec.
Import ListNotations.
Open Scope Z_scope.

Definition fields_bits (v : val) :=
  fix go (l : list (Z * ty)) : list bool :=
    match l with
    | [] => []
    | kf :: r => enc_bits (snd kf) (vfield (fst kf) v) ++ go r
    end.

Definition fields_has_ty (vs : list (Z * val)) :=
  fix go (l : list (Z * ty)) : bool :=
    match l with
    | [] => true
    | kf :: r =>
        match lookup (fst kf) vs with
        | Some fv => has_ty (snd kf) fv
        | None => false
        end && go r
    end.

Definition fields_shape_ty (vs : list (Z * val)) :=
  fix go (l : list (Z * ty)) : bool :=
    match l with
    | [] => true
    | kf :: r =>
        match lookup (fst kf) vs with
        | Some fv => shape_ty (snd kf) fv
        | None => false
        end && go r
    end.

Definition norm_fields :=
  fix go (l : list (Z * ty)) : list (Z * ty) :=
    match l with
    | [] => []
    | kf :: r => (fst kf, norm (snd kf)) :: go r
    end.

Lemma enc_bits_msg x fs v :
  enc_bits (TMsg x fs) v =
  (if x then bits_of 16 (nbits (TMsg x fs)) else []) ++ fields_bits v fs.
Proof. reflexivity. Qed.

Lemma has_ty_msg x fs vs : has_ty (TMsg x fs) (VM vs) = fields_has_ty vs fs.
Proof. reflexivity. Qed.

Lemma shape_ty_msg x fs vs : shape_ty (TMsg x fs) (VM vs) = fields_shape_ty vs fs.
Proof. reflexivity. Qed.

Lemma norm_msg x fs : norm (TMsg x fs) = TMsg x (sort_fields (norm_fields fs)).
Proof. reflexivity. Qed.

Lemma keys_distinct_NoDup l : keys_distinct l = true <-> NoDup l.
Proof.
  induction l as [|k r IH]; cbn [keys_distinct]; [split; [constructor|reflexivity]|].
  rewrite andb_true_iff, negb_true_iff, IH, (existsb_eqb_false Z.eqb Z.eqb_eq).
  split; [intros [H1 H2]; now constructor|intros H; inversion H; now split].
Qed.

Lemma keys_distinct_app_notin (l1 : list Z) k l2 :
  keys_distinct (l1 ++ k :: l2) = true -> ~ In k l1.
Proof.
  induction l1 as [|h r IH]; intros Hd Hin; [destruct Hin|].
  cbn [app keys_distinct] in Hd. rewrite andb_true_iff in Hd. destruct Hd as [Hn Hd].
  destruct Hin as [->|Hin]; [|now apply (IH Hd)].
  rewrite negb_true_iff in Hn.
  assert (existsb (Z.eqb k) (r ++ k :: l2) = true).
  { apply existsb_exists. exists k. split; [apply in_or_app; right; now left|apply Z.eqb_refl]. }
  congruence.
Qed.

Lemma lookup_app_notin {A} k (l1 l2 : list (Z * A)) :
  ~ In k (map fst l1) -> lookup k (l1 ++ l2) = lookup k l2.
Proof.
  induction l1 as [|h r IH]; intros H; [reflexivity|].
  cbn [app lookup]. cbn [map In] in H.
  destruct (fst h =? k) eqn:Ek; [apply Z.eqb_eq in Ek; tauto|]. apply IH. tauto.
Qed.

Lemma lookup_map_keyed {A B} (key : B -> Z) (F : B -> A) (fs : list B) h :
  keys_distinct (map key fs) = true -> In h fs ->
  lookup (key h) (map (fun x => (key x, F x)) fs) = Some (F h).
Proof.
  intros Hd. apply keys_distinct_NoDup in Hd.
  induction fs as [|x r IH]; intros Hin; [destruct Hin|].
  cbn [map] in Hd. inversion Hd as [|? ? Hn Hr]; subst. cbn [map lookup fst snd].
  destruct Hin as [->|Hin].
  - now rewrite Z.eqb_refl.
  - destruct (Z.eqb_spec (key x) (key h)) as [E|_]; [|now apply IH].
    exfalso. apply Hn. rewrite E. exact (in_map key _ _ Hin).
Qed.

Lemma lookup_map_fields {A B} (F : Z -> B -> A) (fs : list (Z * B)) k ft :
  keys_distinct (map fst fs) = true -> In (k, ft) fs ->
  lookup k (map (fun kf => (fst kf, F (fst kf) (snd kf))) fs) = Some (F k ft).
Proof. exact (lookup_map_keyed fst (fun kf => F (fst kf) (snd kf)) fs (k, ft)). Qed.

(* the field-wise companions of the nested fixpoints are [map]s of this shape, by conversion *)
Lemma map_fields_ext {A B} (F G : Z -> A -> B) (fs : list (Z * A)) :
  (forall k ft, In (k, ft) fs -> F k ft = G k ft) ->
  map (fun kf => (fst kf, F (fst kf) (snd kf))) fs = map (fun kf => (fst kf, G (fst kf) (snd kf))) fs.
Proof. intros H. apply map_ext_in. intros [k ft] Hin. cbn [fst snd]. f_equal. now apply H. Qed.

Lemma wf_msg_fields x fs :
  wf (TMsg x fs) = true -> Forall (fun kf => 1 <= fst kf <= 255 /\ wf (snd kf) = true) fs.
Proof.
  cbn [wf]. intros H. apply andb_true_iff in H as [_ H].
  induction fs as [|kf r IH]; constructor.
  - rewrite !andb_true_iff, !Z.leb_le in H. tauto.
  - apply IH. rewrite !andb_true_iff in H. tauto.
Qed.

Lemma fields_shape_ty_forall vs fs :
  fields_shape_ty vs fs = true ->
  Forall (fun kf => exists fv, lookup (fst kf) vs = Some fv /\ shape_ty (snd kf) fv = true) fs.
Proof.
  induction fs as [|kf r IH]; cbn [fields_shape_ty]; intros H; constructor;
    apply andb_true_iff in H as [H1 H2]; [|auto].
  destruct (lookup (fst kf) vs) as [fv|]; [eauto|discriminate].
Qed.

Lemma fields_has_ty_In vs fs :
  fields_has_ty vs fs = true <->
  forall k ft, In (k, ft) fs -> exists fv, lookup k vs = Some fv /\ has_ty ft fv = true.
Proof.
  change (fields_has_ty vs fs) with
    (forallb (fun kf => match lookup (fst kf) vs with Some fv => has_ty (snd kf) fv | None => false end) fs).
  rewrite forallb_forall. split.
  - intros H k ft Hin. specialize (H _ Hin). cbn [fst snd] in H. destruct (lookup k vs); [eauto|discriminate].
  - intros H [k ft] Hin. cbn [fst snd]. destruct (H k ft Hin) as (fv & -> & Hty). exact Hty.
Qed.

Lemma wf_msg_In x fs k ft : wf (TMsg x fs) = true -> In (k, ft) fs -> 1 <= k <= 255 /\ wf ft = true.
Proof. intros Hw Hin. exact (proj1 (Forall_forall _ _) (wf_msg_fields x fs Hw) _ Hin). Qed.

Lemma fields_bits_ext v1 v2 fs :
  (forall k ft, In (k, ft) fs -> enc_bits ft (vfield k v1) = enc_bits ft (vfield k v2)) ->
  fields_bits v1 fs = fields_bits v2 fs.
Proof.
  intros H. change (flat_map (fun kf => enc_bits (snd kf) (vfield (fst kf) v1)) fs =
                    flat_map (fun kf => enc_bits (snd kf) (vfield (fst kf) v2)) fs).
  apply flat_map_ext_in. intros [k ft]. apply H.
Qed.

Lemma has_ty_shape t : forall v, has_ty t v = true -> shape_ty t v = true.
Proof.
  induction t as [| | n | n | n ms | t IH | x c e IH | x fs IH] using ty_ind'; intros v H;
    try (destruct v; cbn in *; congruence).
  - apply IH, H.
  - destruct v as [| |l|]; cbn [has_ty shape_ty] in *; try discriminate.
    apply andb_true_iff in H as [Hl H]. rewrite Hl. cbn [andb].
    rewrite forallb_forall in *. auto.
  - destruct v as [| | |vs]; try discriminate. rewrite has_ty_msg in H. rewrite shape_ty_msg.
    induction IH as [|kf r Hk _ IHr]; [reflexivity|]. cbn [fields_has_ty fields_shape_ty] in *.
    apply andb_true_iff in H as [H1 H2]. rewrite (IHr H2), andb_true_r.
    destruct (lookup (fst kf) vs); [auto|discriminate].
Qed.

Lemma nbits_nonneg t : wf t = true -> 0 <= nbits t.
Proof.
  induction t as [| | n | n | n ms | t IH | x c e IH | x fs IH] using ty_ind'; intros H.
  - cbn; lia.
  - cbn; lia.
  - cbn [nbits wf] in *; lia.
  - cbn [nbits wf] in *; lia.
  - cbn [nbits wf] in *; lia.
  - apply IH, H.
  - cbn [nbits wf] in *; rewrite !andb_true_iff in H. destruct H as [_ He]. specialize (IH He).
    unfold ext_bits. destruct x; nia.
  - apply wf_msg_fields in H. rewrite nbits_msg.
    assert (0 <= fields_nbits fs).
    { induction H as [|kf r [_ Hw] _ IHr]; [cbn; lia|].
      inversion IH as [|? ? Hk Hr]; subst. specialize (Hk Hw). specialize (IHr Hr).
      unfold fields_nbits in *. cbn [fold_right]. lia. }
    unfold ext_bits. destruct x; lia.
Qed.

Lemma fields_nbits_cons kf r : fields_nbits (kf :: r) = nbits (snd kf) + fields_nbits r.
Proof. reflexivity. Qed.

Lemma enc_bits_length_shape t : forall v,
  wf t = true -> shape_ty t v = true -> Z.of_nat (length (enc_bits t v)) = nbits t.
Proof.
  induction t as [| | n | n | n ms | t IH | x c e IH | x fs IH] using ty_ind'; intros v Hw Ht.
  - reflexivity.
  - cbn [enc_bits nbits]. rewrite bits_of_length. reflexivity.
  - cbn [enc_bits nbits wf] in *. rewrite bits_of_length. lia.
  - cbn [enc_bits nbits wf] in *. rewrite bits_of_length. lia.
  - cbn [enc_bits nbits wf] in *. rewrite bits_of_length. rewrite !andb_true_iff in Hw. lia.
  - cbn [enc_bits nbits wf shape_ty] in *. apply IH; assumption.
  - cbn [enc_bits nbits wf] in *.
    rewrite !andb_true_iff in Hw. destruct Hw as [_ He].
    cbn [shape_ty] in Ht. destruct v as [?|?|l|?]; try discriminate.
    rewrite andb_true_iff in Ht. destruct Ht as [Hlen Hall]. apply Nat.eqb_eq in Hlen.
    rewrite forallb_forall in Hall. cbn [vlist].
    rewrite app_length, (flat_map_length_const _ _ (Z.to_nat (nbits e))).
    2:{ intros a Ha. specialize (IH a He (Hall a Ha)). lia. }
    pose proof (nbits_nonneg e He). unfold ext_bits.
    destruct x; cbn [length]; rewrite ?bits_of_length; subst c; nia.
  - apply wf_msg_fields in Hw.
    destruct v as [?|?|?|vs]; try discriminate.
    rewrite shape_ty_msg in Ht. apply fields_shape_ty_forall in Ht.
    rewrite enc_bits_msg, nbits_msg, app_length, Nat2Z.inj_add.
    assert (Z.of_nat (length (fields_bits (VM vs) fs)) = fields_nbits fs) as ->.
    { induction IH as [|kf r Hk _ IHr]; [reflexivity|].
      inversion Hw as [|? ? [_ Hwk] Hwr]; inversion Ht as [|? ? (fv & Hl & Htk) Htr]; subst.
      cbn [fields_bits]. rewrite fields_nbits_cons, app_length, Nat2Z.inj_add, (IHr Hwr Htr).
      f_equal. unfold vfield. rewrite Hl. now apply Hk. }
    unfold ext_bits. destruct x; cbn [length]; rewrite ?bits_of_length; lia.
Qed.

Lemma enc_bits_length t v :
  wf t = true -> has_ty t v = true -> Z.of_nat (length (enc_bits t v)) = nbits t.
Proof. intros Hw Ht. apply enc_bits_length_shape; [assumption|now apply has_ty_shape]. Qed.

(* the optional 16-bit prefix of an extensible node, and the bits left for its body *)
Lemma chunk_ext (x : bool) u i V n bits :
  0 <= i -> 0 <= n -> 0 <= V < 65536 ->
  chunk u i (ext_bits x + n) = Z_of_bits ((if x then bits_of 16 V else []) ++ bits) ->
  (x = true -> chunk u i 16 = V) /\ chunk u (i + ext_bits x) n = Z_of_bits bits.
Proof.
  intros Hi Hn HV H. destruct x; cbn [ext_bits] in *.
  - destruct (chunk_app u i 16 n _ _ Hi Hn (f_equal Z.of_nat (bits_of_length 16 V)) H) as [H1 H2].
    split; [|exact H2]. intros _. rewrite H1, Z_of_bits_of. apply Z.mod_small. exact HV.
  - rewrite Z.add_0_l in H. rewrite Z.add_0_r. split; [discriminate|exact H].
Qed.

Lemma fields_nbits_perm l l' : Permutation l l' -> fields_nbits l = fields_nbits l'.
Proof. unfold fields_nbits. induction 1; cbn [fold_right]; lia. Qed.

(* insertion sort permutes: sizes and membership follow *)
Lemma insert_field_perm {A} (kf : Z * A) l : Permutation (insert_field kf l) (kf :: l).
Proof.
  induction l as [|a l IH]; cbn [insert_field]; [apply Permutation_refl|].
  destruct (fst kf <? fst a); [apply Permutation_refl|].
  eapply perm_trans; [apply perm_skip, IH|apply perm_swap].
Qed.

Lemma sort_fields_perm_self {A} (l : list (Z * A)) : Permutation (sort_fields l) l.
Proof.
  induction l as [|h r IH]; [constructor|]. cbn [sort_fields].
  eapply perm_trans; [apply insert_field_perm|]. now apply perm_skip.
Qed.

Lemma insert_field_in {A} (kf : Z * A) l x : In x (insert_field kf l) <-> x = kf \/ In x l.
Proof.
  transitivity (In x (kf :: l)); [|cbn [In]; intuition congruence].
  split; apply Permutation_in; [|symmetry]; apply insert_field_perm.
Qed.

Lemma sort_fields_in {A} (l : list (Z * A)) x : In x (sort_fields l) <-> In x l.
Proof. split; apply Permutation_in; [|symmetry]; apply sort_fields_perm_self. Qed.

Lemma fields_nbits_sort l : fields_nbits (sort_fields l) = fields_nbits l.
Proof. apply fields_nbits_perm, sort_fields_perm_self. Qed.

Lemma nbits_norm t : nbits (norm t) = nbits t.
Proof.
  induction t as [| | n | n | n ms | t IH | x c e IH | x fs IH] using ty_ind'; try reflexivity.
  - cbn [norm nbits]. exact IH.
  - cbn [norm nbits]. now rewrite IH.
  - rewrite norm_msg, !nbits_msg, fields_nbits_sort. f_equal.
    induction IH as [|kf r Hk _ IHr]; [reflexivity|].
    cbn [norm_fields]. rewrite !fields_nbits_cons. cbn [snd]. now rewrite Hk, IHr.
Qed.

Lemma nbytes_norm t : nbytes (norm t) = nbytes t.
Proof. unfold nbytes. now rewrite nbits_norm. Qed.

(* stream bit k is stored in byte k/8 at bit position k mod 8; everything past the last
   stream bit is zero *)
Theorem pack_bit l k :
  0 <= k ->
  Z.testbit (nth (Z.to_nat (k / 8)) (pack l) 0) (k mod 8) = nth (Z.to_nat k) l false.
Proof.
  intros Hk.
  pose proof (Z.mod_pos_bound k 8 ltac:(lia)) as Hm.
  pose proof (Z.div_mod k 8 ltac:(lia)) as Hdm.
  assert (Hq : 0 <= k / 8) by (apply Z.div_pos; lia).
  rewrite bufZ_byte by apply pack_bytes_ok. unfold chunk.
  rewrite bufZ_pack, Z2Nat.id, Z.mod_pow2_bits_low by (assumption || lia).
  rewrite <- Z.shiftr_div_pow2, Z.shiftr_spec by lia.
  replace (k mod 8 + 8 * (k / 8)) with (Z.of_nat (Z.to_nat k)) by lia.
  apply Z_of_bits_testbit.
Qed.

Theorem wire_bit t v k :
  0 <= k ->
  Z.testbit (nth (Z.to_nat (k / 8)) (wire t v) 0) (k mod 8) =
  nth (Z.to_nat k) (enc_bits (norm t) v) false.
Proof. intros. unfold wire. now apply pack_bit. Qed.

Lemma wire_at_0 t v :
  wf (norm t) = true -> shape_ty (norm t) v = true ->
  nbits (norm t) <= 8 * Z.of_nat (length (wire t v)) /\
  chunk (bufZ (wire t v)) 0 (nbits (norm t)) = Z_of_bits (enc_bits (norm t) v).
Proof.
  intros Hw Ht. pose proof (nbits_nonneg _ Hw) as Hnn.
  pose proof (enc_bits_length_shape _ v Hw Ht) as Hl. split.
  - unfold wire. rewrite pack_length, Hl. Z.div_mod_to_equations; lia.
  - unfold wire. rewrite chunk_0, bufZ_pack. apply Z.mod_small.
    pose proof (Z_of_bits_range (enc_bits (norm t) v)) as Hr. now rewrite Hl in Hr.
Qed.
