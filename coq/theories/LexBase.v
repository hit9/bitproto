(* LexBase.v — text level of the compiler front end: the data the generated file
   coq/gen/GenLexer.v is written in (regular expressions over CODE POINTS with the constructs
   bitproto's token rules use, rule-action descriptors, token values) and the Python
   primitives of the rule actions over code points.

   DOMAIN.  A Python `str` is a sequence of Unicode code points; a code point is modelled as
   an [N] (no upper bound is assumed anywhere).  For `str` patterns `\b` / `\w` are Unicode
   aware: a word character is `_` or a character with str.isalnum().  The ASCII part of that
   predicate is written out below ([ascii_word]); the non-ASCII part is a PARAMETER [uw] of
   the model (a Section variable in Lex.v / LexProofs.v and the files after it: every theorem holds for EVERY such
   predicate), instantiated in the case files by the table [uni_word] that the translator
   reads off the interpreter that runs the implementation. *)
From Coq Require Import NArith ZArith List Bool String Ascii Lia.
From BP Require Import TotalBase.
Import ListNotations.

(* ---------- regular expressions (what re._parser.parse yields for the token rules) ------ *)
Inductive rx : Type :=
| XEps
| XChar (c : N)                           (* LITERAL c *)
| XNotChar (c : N)                        (* NOT_LITERAL c *)
| XAny                                    (* `.` without DOTALL: anything but "\n" *)
| XIn (neg : bool) (items : list (N * N)) (* [...] / [^...]: inclusive ranges; a literal c is (c,c) *)
| XBound                                  (* \b *)
| XSeq (a b : rx)
| XAlt (a b : rx)                         (* ordered alternation *)
| XStar (greedy : bool) (a : rx).         (* a* (greedy) / a*? (lazy) *)

(* a+ / a+? : MAX_REPEAT / MIN_REPEAT with lower bound 1 *)
Definition XPlus (greedy : bool) (a : rx) : rx := XSeq a (XStar greedy a).

Definition NL : N := 10%N.

Definition in_ranges (items : list (N * N)) (c : N) : bool :=
  existsb (fun r => N.leb (fst r) c && N.leb c (snd r)) items.

Definition is_atom (r : rx) : bool :=
  match r with XChar _ | XNotChar _ | XAny | XIn _ _ => true | _ => false end.

Definition atom_ok (r : rx) (c : N) : bool :=
  match r with
  | XChar k => N.eqb c k
  | XNotChar k => negb (N.eqb c k)
  | XAny => negb (N.eqb c NL)
  | XIn neg items => xorb neg (in_ranges items c)
  | _ => false
  end.

(* the ASCII part of \w *)
Definition ascii_word (c : N) : bool :=
  (N.leb 48 c && N.leb c 57) || (N.leb 65 c && N.leb c 90) || (N.leb 97 c && N.leb c 122) || N.eqb c 95.

(* ---------- rule actions ---------------------------------------------------------------- *)
(* what a rule function does to t.value *)
Inductive conv : Type :=
| CvKeep                                   (* t.value stays the lexeme *)
| CvNode (cls : string)                    (* t.value = Cls(token=t.value, lineno=t.lineno, filepath=..) *)
| CvCapNode (cls : string) (skip : nat)    (* cap = int(t.value[skip:]); t.value = Cls(cap=cap, token=.., lineno=..) *)
| CvInt (base : Z)                         (* t.value = int(t.value[, base]) *)
| CvBoolIn (l : list (list N))             (* t.value = t.value in (..) *)
| CvUnescape.                              (* the escape loop of t_STRING_LITERAL *)

Record action : Type := mkAct {
  a_lineinc : Z;                 (* t.lexer.lineno += k   (0 when the rule does not touch it) *)
  a_settype : option (list N);   (* t.type = "..." *)
  a_conv : conv;
  a_kw : bool }.                 (* if t.value in self.keywords: t.type = t.value.upper() *)

(* a rule of the master regular expression: token name, regex, action (None: a string rule) *)
Record rule : Type := mkRule {
  r_name : list N;
  r_rx : rx;
  r_act : option action }.

(* token values *)
Inductive tvalue : Type :=
| VText (s : list N)
| VInt (z : Z)
| VBool (b : bool)
| VNode (cls : string) (cap : option Z) (tok : list N) (line : Z).

(* ---------- helpers over code points ---------------------------------------------------- *)
Fixpoint cps_eqb (a b : list N) : bool :=
  match a, b with
  | [], [] => true
  | x :: r, y :: s => N.eqb x y && cps_eqb r s
  | _, _ => false
  end.

Lemma cps_eqb_eq a : forall b, cps_eqb a b = true <-> a = b.
Proof.
  induction a as [|x a IH]; intros [|y b]; cbn [cps_eqb]; try (split; [discriminate|discriminate]);
    try (split; reflexivity).
  rewrite andb_true_iff, N.eqb_eq, IH. split.
  - intros [-> ->]. reflexivity.
  - intro H. inversion H. auto.
Qed.

Definition cp_mem (c : N) (l : list N) : bool := existsb (N.eqb c) l.
Definition cps_mem (w : list N) (l : list (list N)) : bool := existsb (cps_eqb w) l.

(* str.upper() on the ASCII letters (the translator checks that the keywords are ASCII) *)
Definition cp_upper (c : N) : N := if N.leb 97 c && N.leb c 122 then (c - 32)%N else c.

(* dict with single-character keys over code points *)
Fixpoint ntable_get {V} (d : list (N * V)) (k : N) : option V :=
  match d with
  | [] => None
  | (k', v) :: r => if N.eqb k k' then Some v else ntable_get r k
  end.
Definition ntable_mem {V} (d : list (N * V)) (k : N) : bool :=
  match ntable_get d k with Some _ => true | None => false end.
Definition npy_dict_get {V} (d : list (N * V)) (k : N) : outcome V :=
  match ntable_get d k with Some v => Ok v | None => Crash KeyError end.

(* int(s, base) on code points: exactly TotalBase.py_int, for the digits a token rule can
   hand over (ASCII digits / letters; anything else is the ValueError CPython raises — the
   theorems show that branch is never taken on a lexeme of the rule's regex) *)
Definition ndigit_of (base : Z) (c : N) : option Z :=
  let n := Z.of_N c in
  let d := if (48 <=? n)%Z && (n <=? 57)%Z then (n - 48)%Z
           else if (97 <=? n)%Z && (n <=? 122)%Z then (n - 87)%Z
           else if (65 <=? n)%Z && (n <=? 90)%Z then (n - 55)%Z
           else 99%Z in
  if (d <? base)%Z then Some d else None.

Fixpoint ndigits_value (base : Z) (acc : Z) (s : list N) : option Z :=
  match s with
  | [] => Some acc
  | c :: r => match ndigit_of base c with
              | Some d => ndigits_value base (acc * base + d)%Z r
              | None => None
              end
  end.

Definition nstrip_0x (base : Z) (s : list N) : list N :=
  match s with
  | z :: x :: r =>
      if (base =? 16)%Z && N.eqb z 48 && (N.eqb x 120 || N.eqb x 88) then r else s
  | _ => s
  end.

Definition npy_int (base maxd : Z) (s0 : list N) : outcome Z :=
  let s := nstrip_0x base s0 in
  match s with
  | [] => Crash ValueError
  | _ =>
      if negb (is_pow2_base base) && (maxd <? zlen s)%Z then Crash ValueError
      else match ndigits_value base 0 s with
           | Some z => Ok z
           | None => Crash ValueError
           end
  end.

(* range table lookup (the non-ASCII word characters) *)
Definition in_table (t : list (N * N)) (c : N) : bool := in_ranges t c.

(* Coq string -> code points (names in generated tables) *)
Fixpoint cps_of_string (s : string) : list N :=
  match s with
  | EmptyString => []
  | String a r => N_of_ascii a :: cps_of_string r
  end.
