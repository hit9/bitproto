(* MemoProofs — the memoising machine refines the uncached reference semantics.

   Main results (re-stated in props/C18.v):
     memo_transparent   : for every history, under the parser's bottom-up discipline and a
                          sane allocator, every operation of the implementation machine
                          returns what the uncached reference machine returns;
     interleave_ref     : on the reference machine, a compilation run interleaved with
                          another one over disjoint names yields what it yields alone;
     interleaving       : the same for the implementation machine (corollary).

   A new cached method needs no new proof here: F is universally quantified (any function of
   the node's view, to any depth D; a method that calls cached methods of the children is one
   such function, like fid 3 of Memo.F_test), so a cache_if_frozen method is covered as it is
   and a functools.cache method needs F_always for its fid.  What must hold of the real method
   is that it IS such a function: MemoRules.method_ok over the regenerated GenMemo.cached_methods. *)
From Coq Require Import ZArith List Bool.
From BPGen Require Import GenMemo.
From BP Require Import ListFacts Memo.
Import ListNotations.
Open Scope Z_scope.

(* what the proofs need from the translated decision functions (GenMemo, regenerated
   from the source on every run): if the source changes so that one of these fails, the
   development no longer compiles *)
Lemma cond_true_frozen : forall e a t n f,
  cache_if_frozen_condition e a t n f = true -> f = true.
Proof. intros e a t n f; destruct e, a, t, n, f; cbv; intro H; (reflexivity || discriminate H). Qed.

Lemma cc_uses_cache_true : forall b, conditional_cache_uses_cache b = true -> b = true.
Proof. intros []; cbv; intro H; (reflexivity || discriminate H). Qed.

Lemma real_cond_frozen : forall fr, real_cond fr = true -> fr = true.
Proof.
  intros fr H. unfold real_cond in H. apply cc_uses_cache_true in H. eapply cond_true_frozen; exact H.
Qed.
Lemma real_pin_true : real_pin = true.
Proof. reflexivity. Qed.
Lemma safe_hash_key_inj : forall a b, safe_hash_key a = safe_hash_key b -> a = b.
Proof. intros a b H; exact H. Qed.

Lemma not_raises_unfrozen_setattr : forall b, frozen_setattr_raises b = false -> b = false.
Proof. intros [] H; [discriminate H | reflexivity]. Qed.
Lemma not_raises_unfrozen_push : forall b, push_member_raises b = false -> b = false.
Proof. intros [] H; [discriminate H | reflexivity]. Qed.
Lemma not_raises_unfrozen_freeze : forall b, frozen_freeze_raises b = false -> b = false.
Proof. intros [] H; [discriminate H | reflexivity]. Qed.

Section Proofs.
  Variable F : fid -> tree -> Z -> option Z.
  Variable always : fid -> bool.
  Variable cond : bool -> bool.
  Variable pin : bool.
  Variable D : nat.
  (* only frozen nodes go through the memo table, and a memo key keeps its node alive
     (real_cond_frozen, real_pin_true for the real decorators) *)
  Hypothesis cond_frozen : forall fr, cond fr = true -> fr = true.
  Hypothesis pin_true : pin = true.
  (* a method under the unconditional functools.cache reads class-level data only *)
  Hypothesis F_always : forall f, always f = true ->
    forall t t' x, root_tag t = root_tag t' -> F f t x = F f t' x.

  Notation rstep := (rstep F D).
  Notation rrun := (rrun F D).
  Notation cstep := (cstep F always cond pin D).
  Notation crun := (crun F always cond pin D).
  Notation disciplined := (disciplined F D).
  Notation env_ok := (env_ok F always cond pin D).

  Lemma uses_cache_cases : forall f fr, uses_cache always cond f fr = true -> always f = true \/ fr = true.
  Proof.
    intros f fr H. unfold uses_cache in H. apply orb_true_iff in H. destruct H as [H|H].
    - left; exact H.
    - right. apply cond_frozen; exact H.
  Qed.

  (* what the parser's discipline maintains *)
  Definition frozen_closed (s : rheap) : Prop :=
    forall n c, s n = Some c -> r_fr c = true -> forall d, In d (r_deps c) -> r_frozen s d = true.

  Definition cell_rel (lc : name -> option addr) (rc : rcell) (cc : ccell) : Prop :=
    r_tag rc = c_tag cc /\ r_val rc = c_val cc /\ r_fr rc = c_fr cc /\
    r_dropped rc = negb (c_handle cc) /\ map lc (r_deps rc) = map Some (c_deps cc).

  (* R_unbound: a name that was bound and is not any more (its object was reclaimed) had been
     dropped by the driver *)
  Record Refines (s : rheap) (c : cstate) : Prop := mkRefines {
    R_used : forall n, used c n = true <-> s n <> None;
    R_loc : forall n a, loc c n = Some a ->
            exists cc rc, heap c a = Some cc /\ c_owner cc = n /\ s n = Some rc /\ cell_rel (loc c) rc cc;
    R_heap : forall a cc, heap c a = Some cc -> loc c (c_owner cc) = Some a;
    R_dom : forall a cc, heap c a = Some cc -> In a (dom c);
    R_unbound : forall n rc, s n = Some rc -> loc c n = None -> r_dropped rc = true }.

  Definition MemoOK (c : cstate) : Prop :=
    forall f a x r, In (f, a, x, r) (memo c) ->
      exists cc, heap c a = Some cc /\ (c_fr cc = true \/ always f = true) /\
                 F f (cview D (heap c) a) x = Some r.

  (* no frozen cell changed from s to s': with frozen_closed s, frozen views are equal (rview_stable) *)
  Definition frozen_same (s s' : rheap) : Prop :=
    forall m rc, s m = Some rc -> r_fr rc = true ->
      exists rc', s' m = Some rc' /\ r_tag rc' = r_tag rc /\ r_val rc' = r_val rc /\
                  r_deps rc' = r_deps rc /\ r_fr rc' = true.

  Record Inv (s : rheap) (c : cstate) : Prop := mkInv {
    inv_ref : Refines s c; inv_memo : MemoOK c; inv_closed : frozen_closed s }.

  Lemma map_rel_views : forall (lc : name -> option addr) hp s d,
    (forall n a, lc n = Some a -> cview d hp a = rview d s n) ->
    forall l l', map lc l = map Some l' -> map (cview d hp) l' = map (rview d s) l.
  Proof.
    intros lc hp s d IH l. induction l as [|x l IHl]; intros [|y l'] Hm; cbn in *; try discriminate; auto.
    injection Hm as Hx Hm. f_equal; [apply IH; exact Hx | apply IHl; exact Hm].
  Qed.

  Lemma view_eq : forall s c, Refines s c ->
    forall d n a, loc c n = Some a -> cview d (heap c) a = rview d s n.
  Proof.
    intros s c R d. induction d as [|d IHd]; intros n a Hl; cbn [cview rview]; [reflexivity|].
    destruct (R_loc _ _ R _ _ Hl) as (cc & rc & Hh & Ho & Hs & Ht & Hv & Hf & Hd & Hm).
    rewrite Hh, Hs, Ht, Hv, Hf. f_equal.
    eapply map_rel_views; [exact IHd | exact Hm].
  Qed.

  Lemma rview_stable : forall s s', frozen_closed s -> frozen_same s s' ->
    forall d n rc, s n = Some rc -> r_fr rc = true -> rview d s' n = rview d s n.
  Proof.
    intros s s' HFC Hsame d. induction d as [|d IHd]; intros n rc Hs Hfr; cbn [rview]; [reflexivity|].
    destruct (Hsame n rc Hs Hfr) as (rc' & Hs' & Ht & Hv & Hd & Hf).
    rewrite Hs, Hs', Ht, Hv, Hd, Hf, Hfr. f_equal.
    apply map_ext_in. intros k Hk.
    pose proof (HFC n rc Hs Hfr k Hk) as Hfk. unfold r_frozen in Hfk.
    destruct (s k) as [ck|] eqn:Hk'; [|discriminate].
    eapply IHd; eauto.
  Qed.

  Lemma root_tag_cview : forall hp hp' a cc cc',
    hp a = Some cc -> hp' a = Some cc' -> c_tag cc' = c_tag cc ->
    root_tag (cview D hp' a) = root_tag (cview D hp a).
  Proof.
    intros hp hp' a cc cc' H H' Ht. destruct D; cbn [cview]; [reflexivity|].
    rewrite H, H'. cbn. now rewrite Ht.
  Qed.

  Lemma c_get_some : forall s c n a cc, Refines s c -> c_get c n = Some (a, cc) ->
    exists rc, s n = Some rc /\ r_dropped rc = false /\ loc c n = Some a /\ heap c a = Some cc /\
               cell_rel (loc c) rc cc.
  Proof.
    intros s c n a cc R H. unfold c_get in H.
    destruct (loc c n) as [a'|] eqn:Hl; [|discriminate].
    destruct (R_loc _ _ R _ _ Hl) as (cc' & rc & Hh & _ & Hs & Hrel).
    rewrite Hh in H. destruct (c_handle cc') eqn:Hhd; [|discriminate].
    injection H as <- <-. exists rc.
    assert (Hdr : r_dropped rc = false).
    { destruct Hrel as (_ & _ & _ & Hd & _). rewrite Hd, Hhd. reflexivity. }
    exact (conj Hs (conj Hdr (conj eq_refl (conj Hh Hrel)))).
  Qed.

  Lemma c_get_none : forall s c n, Refines s c -> c_get c n = None -> r_usable s n = false.
  Proof.
    intros s c n R H. unfold c_get in H. unfold r_usable.
    destruct (loc c n) as [a|] eqn:Hl.
    - destruct (R_loc _ _ R _ _ Hl) as (cc & rc & Hh & Ho & Hs & Hrel).
      rewrite Hh in H. rewrite Hs. destruct (c_handle cc) eqn:Hhd; [discriminate|].
      destruct Hrel as (_ & _ & _ & Hd & _). rewrite Hd, Hhd. reflexivity.
    - destruct (s n) as [rc|] eqn:Hs; [|reflexivity].
      rewrite (R_unbound _ _ R _ _ Hs Hl). reflexivity.
  Qed.

  Lemma c_get_usable : forall s c n a cc, Refines s c -> c_get c n = Some (a, cc) -> r_usable s n = true.
  Proof.
    intros s c n a cc R H. destruct (c_get_some _ _ _ _ _ R H) as (rc & Hs & Hd & _).
    unfold r_usable. rewrite Hs, Hd. reflexivity.
  Qed.

  Lemma c_addrs_spec : forall s c, Refines s c -> forall ds,
    match c_addrs c ds with
    | Some das => forallb (r_usable s) ds = true /\ map (loc c) ds = map Some das
    | None => forallb (r_usable s) ds = false
    end.
  Proof.
    intros s c R ds. induction ds as [|d t IH]; cbn [c_addrs forallb map]; [split; reflexivity|].
    destruct (c_get c d) as [[a cc]|] eqn:Hg.
    - rewrite (c_get_usable _ _ _ _ _ R Hg). cbn [andb].
      destruct (c_addrs c t) as [l|].
      + destruct IH as [IH1 IH2]. split; [exact IH1|]. cbn [map].
        destruct (c_get_some _ _ _ _ _ R Hg) as (_ & _ & _ & Hl & _). rewrite Hl, IH2. reflexivity.
      + exact IH.
    - rewrite (c_get_none _ _ _ R Hg). reflexivity.
  Qed.

  Lemma frozen_closed_rupd : forall s n rc',
    frozen_closed s ->
    (r_frozen s n = true -> r_fr rc' = true) ->
    (r_fr rc' = true -> forall d, In d (r_deps rc') -> d = n \/ r_frozen s d = true) ->
    frozen_closed (rupd s n rc').
  Proof.
    intros s n rc' HFC Hmono Hdeps m c Hm Hfr d Hd.
    unfold r_frozen, rupd in *.
    destruct (Nat.eqb_spec d n) as [->|Hdn].
    - destruct (Nat.eqb_spec m n) as [->|Hmn].
      + injection Hm as <-. exact Hfr.
      + apply Hmono. exact (HFC m c Hm Hfr n Hd).
    - destruct (Nat.eqb_spec m n) as [->|Hmn].
      + injection Hm as <-. destruct (Hdeps Hfr d Hd) as [->|H]; [contradiction|exact H].
      + exact (HFC m c Hm Hfr d Hd).
  Qed.

  Lemma same_rupd : forall s n rc',
    (forall rc, s n = Some rc -> r_fr rc = true ->
       r_tag rc' = r_tag rc /\ r_val rc' = r_val rc /\ r_deps rc' = r_deps rc /\ r_fr rc' = true) ->
    frozen_same s (rupd s n rc').
  Proof.
    intros s n rc' H m rc Hm Hfr. unfold rupd.
    destruct (Nat.eqb_spec m n) as [->|Hmn].
    - exists rc'. split; [reflexivity|]. exact (H rc Hm Hfr).
    - exists rc. repeat split; auto.
  Qed.

  Lemma Refines_update : forall s c n a cc rc rc' cc',
    Refines s c -> loc c n = Some a -> heap c a = Some cc -> s n = Some rc ->
    c_owner cc' = c_owner cc -> cell_rel (loc c) rc' cc' ->
    Refines (rupd s n rc') (set_heap c (aupd (heap c) a (Some cc'))).
  Proof.
    intros s c n a cc rc rc' cc' R Hl Hh Hs Ho' Hrel.
    assert (Hown : c_owner cc = n).
    { destruct (R_loc _ _ R _ _ Hl) as (cc0 & rc0 & Hh0 & Ho0 & _). rewrite Hh in Hh0. injection Hh0 as <-. exact Ho0. }
    rewrite Hown in Ho'.
    constructor; cbn [loc used heap dom memo set_heap].
    - intro m. unfold rupd. destruct (Nat.eqb_spec m n) as [->|Hmn].
      + split; [discriminate|]. intros _. apply (R_used _ _ R). rewrite Hs. discriminate.
      + apply (R_used _ _ R).
    - intros m a' Hm. unfold rupd, aupd.
      destruct (Nat.eqb_spec m n) as [->|Hmn].
      + rewrite Hl in Hm. injection Hm as <-. rewrite Z.eqb_refl.
        exists cc', rc'. repeat split; auto; apply Hrel.
      + destruct (R_loc _ _ R _ _ Hm) as (cc0 & rc0 & Hh0 & Ho0 & Hs0 & Hrel0).
        destruct (Z.eqb_spec a' a) as [->|Haa].
        * rewrite Hh in Hh0. injection Hh0 as <-. congruence.
        * exists cc0, rc0. repeat split; auto; apply Hrel0.
    - intros a' cc0 H0. unfold aupd in H0. destruct (Z.eqb_spec a' a) as [->|Haa].
      + injection H0 as <-. rewrite Ho'. exact Hl.
      + exact (R_heap _ _ R _ _ H0).
    - intros a' cc0 H0. unfold aupd in H0. destruct (Z.eqb_spec a' a) as [->|Haa].
      + exact (R_dom _ _ R _ _ Hh).
      + exact (R_dom _ _ R _ _ H0).
    - intros m rc0 H0 Hm. unfold rupd in H0. destruct (Nat.eqb_spec m n) as [->|Hmn].
      + rewrite Hl in Hm. discriminate.
      + exact (R_unbound _ _ R _ _ H0 Hm).
  Qed.

  (* for a step that leaves the table alone: every keyed address keeps a cell with the same owner
     and tag, frozen if it was, and no frozen reference cell changes *)
  Lemma Memo_preserved : forall s c s' c',
    Refines s c -> Refines s' c' -> frozen_closed s -> MemoOK c -> memo c' = memo c ->
    (forall f a x r, In (f, a, x, r) (memo c) -> forall cc, heap c a = Some cc ->
       exists cc', heap c' a = Some cc' /\ c_owner cc' = c_owner cc /\ c_tag cc' = c_tag cc /\
                   (c_fr cc = true -> c_fr cc' = true)) ->
    frozen_same s s' ->
    MemoOK c'.
  Proof.
    intros s c s' c' R R' HFC HM Hmemo Hsurv Hsame f a x r Hin.
    rewrite Hmemo in Hin.
    destruct (HM _ _ _ _ Hin) as (cc & Hh & Hcase & HF).
    destruct (Hsurv _ _ _ _ Hin _ Hh) as (cc' & Hh' & Ho' & Ht' & Hfr').
    exists cc'. split; [exact Hh'|].
    destruct Hcase as [Hfr|Hal].
    - split; [left; auto|].
      pose proof (R_heap _ _ R _ _ Hh) as Hl.
      pose proof (R_heap _ _ R' _ _ Hh') as Hl'. rewrite Ho' in Hl'.
      destruct (R_loc _ _ R _ _ Hl) as (cc0 & rc & Hh0 & _ & Hs & Hrel).
      rewrite Hh in Hh0. injection Hh0 as <-.
      assert (Hrfr : r_fr rc = true) by (destruct Hrel as (_ & _ & Hf & _); congruence).
      rewrite (view_eq _ _ R' D _ _ Hl').
      rewrite (rview_stable _ _ HFC Hsame D _ _ Hs Hrfr).
      rewrite <- (view_eq _ _ R D _ _ Hl). exact HF.
    - split; [right; exact Hal|].
      rewrite <- HF. apply F_always; [exact Hal|].
      eapply root_tag_cview; eauto.
  Qed.

  Lemma map_bound : forall (lc : name -> option addr) l l',
    map lc l = map Some l' -> forall d, In d l -> exists a, lc d = Some a /\ In a l'.
  Proof.
    intros lc l. induction l as [|x l IH]; intros [|y l'] Hm d Hd; cbn in *; try discriminate; [contradiction|].
    injection Hm as Hx Hm. destruct Hd as [->|Hd].
    - exists y. auto.
    - destruct (IH _ Hm _ Hd) as (a & Ha & Hin). exists a. auto.
  Qed.

  Lemma lookup_In : forall m f a x r, lookup m f a x = Some r -> In (f, a, x, r) m.
  Proof.
    induction m as [|e m IH]; intros f a x r H; cbn in H; [discriminate|].
    destruct e as [[[f' a'] x'] r']. cbn [key_eqb snd] in H.
    destruct (Nat.eqb_spec f f') as [->|Hf]; cbn [andb] in H.
    - destruct (Z.eqb_spec (safe_hash_key a) (safe_hash_key a')) as [Ha|Ha]; cbn [andb] in H.
      + destruct (Z.eqb_spec x x') as [->|Hx].
        * injection H as <-. apply safe_hash_key_inj in Ha. subst a'. left; reflexivity.
        * right; apply IH; exact H.
      + right; apply IH; exact H.
    - right; apply IH; exact H.
  Qed.

  Lemma pinned_In : forall m f a x r, In (f, a, x, r) m -> pinned m a = true.
  Proof.
    intros m f a x r H. unfold pinned. apply existsb_exists.
    exists (f, a, x, r). split; [exact H|]. apply Z.eqb_refl.
  Qed.

  Lemma referenced_intro : forall c a b cb,
    In b (dom c) -> heap c b = Some cb -> In a (c_deps cb) -> referenced c a = true.
  Proof.
    intros c a b cb Hb Hh Ha. unfold referenced. apply existsb_exists.
    exists b. split; [exact Hb|]. rewrite Hh. apply existsb_exists. exists a. split; [exact Ha|apply Z.eqb_refl].
  Qed.

  Lemma Refines_memo : forall s c m', Refines s c -> Refines s (mkS (loc c) (used c) (heap c) (dom c) m').
  Proof. intros s c m' R. destruct R. constructor; cbn; auto. Qed.

  Lemma frozen_same_refl : forall s, frozen_same s s.
  Proof. intros s m rc H Hf. exists rc. repeat split; auto. Qed.

  Definition sim_res (p : rheap * out) (q : cstate * (out * aux)) : Prop :=
    fst (snd q) = snd p /\ Inv (fst p) (fst q).

  Definition step_ok (s : rheap) (c : cstate) (o : op) : Prop := sim_res (rstep s o) (cstep c o).

  Lemma sim_same : forall s c x au, Inv s c -> sim_res (s, x) (c, (x, au)).
  Proof. intros s c x au I. split; [reflexivity|exact I]. Qed.

  (* the common prologue of SetVal / Push / Freeze / Call / Drop: both sides look the name up, and
     fail together *)
  Lemma sim_on : forall s c n (kr : rcell -> rheap * out) (kc : addr -> ccell -> cstate * (out * aux)),
    Inv s c ->
    (forall a cc rc, loc c n = Some a -> heap c a = Some cc -> s n = Some rc ->
       cell_rel (loc c) rc cc -> sim_res (kr rc) (kc a cc)) ->
    sim_res (match s n with Some rc => if r_dropped rc then (s, OBad) else kr rc | None => (s, OBad) end)
            (match c_get c n with Some (a, cc) => kc a cc | None => (c, (OBad, ANone)) end).
  Proof.
    intros s c n kr kc I H. pose proof (inv_ref _ _ I) as R. destruct (c_get c n) as [[a cc]|] eqn:Hg.
    - destruct (c_get_some _ _ _ _ _ R Hg) as (rc & Hs & Hdr & Hl & Hh & Hrel).
      rewrite Hs, Hdr. exact (H a cc rc Hl Hh Hs Hrel).
    - pose proof (c_get_none _ _ _ R Hg) as Hu. unfold r_usable in Hu.
      destruct (s n) as [rc|]; [destruct (r_dropped rc); [|discriminate Hu]|]; apply sim_same; assumption.
  Qed.

  Lemma sim_update : forall s c n a cc rc rc' cc' x au,
    Inv s c ->
    loc c n = Some a -> heap c a = Some cc -> s n = Some rc -> cell_rel (loc c) rc cc ->
    c_owner cc' = c_owner cc -> c_tag cc' = c_tag cc ->
    (r_fr rc = true ->
       r_tag rc' = r_tag rc /\ r_val rc' = r_val rc /\ r_deps rc' = r_deps rc /\ r_fr rc' = true) ->
    cell_rel (loc c) rc' cc' ->
    (r_fr rc' = true -> forall d, In d (r_deps rc') -> d = n \/ r_frozen s d = true) ->
    sim_res (rupd s n rc', x) (set_heap c (aupd (heap c) a (Some cc')), (x, au)).
  Proof.
    intros s c n a cc rc rc' cc' x au [R HM HFC] Hl Hh Hs Hrel Ho' Ht' Hkeep Hrel' Hdeps.
    split; [reflexivity|]. cbn [fst snd].
    assert (R' : Refines (rupd s n rc') (set_heap c (aupd (heap c) a (Some cc')))).
    { eapply Refines_update; eauto. }
    constructor; [exact R'| |].
    - eapply (Memo_preserved s c); eauto.
      + intros f a0 x0 r Hin cc0 Hh0. cbn [heap set_heap]. unfold aupd.
        destruct (Z.eqb_spec a0 a) as [->|Hne].
        * rewrite Hh in Hh0. injection Hh0 as <-. exists cc'. repeat split; auto; try congruence.
          intro Hfr. destruct Hrel as (_ & _ & Hf & _). destruct Hrel' as (_ & _ & Hf' & _).
          rewrite <- Hf in Hfr. destruct (Hkeep Hfr) as (_ & _ & _ & Hfr'). congruence.
        * exists cc0. repeat split; auto.
      + apply same_rupd. intros rc0 Hs0 Hfr0. rewrite Hs in Hs0. injection Hs0 as <-. auto.
    - apply frozen_closed_rupd; auto.
      intro Hf. unfold r_frozen in Hf. rewrite Hs in Hf. apply Hkeep in Hf. tauto.
  Qed.

  Lemma step_SetVal : forall s c n v, Inv s c -> step_ok s c (SetVal n v).
  Proof.
    intros s c n v I. apply sim_on; [exact I|].
    intros a cc rc Hl Hh Hs Hrel. pose proof Hrel as (Ht & Hv & Hf & Hd & Hm). rewrite Hf.
    destruct (frozen_setattr_raises (c_fr cc)) eqn:Hr; [apply sim_same; assumption|].
    apply not_raises_unfrozen_setattr in Hr.
    refine (sim_update s c n a cc rc _ _ _ _ I Hl Hh Hs Hrel _ _ _ _ _); [reflexivity | reflexivity | ..].
    - intro H; congruence.
    - unfold cell_rel; cbn; repeat split; auto.
    - cbn. intro H; congruence.
  Qed.

  Lemma step_Push : forall s c n d, Inv s c -> step_ok s c (Push n d).
  Proof.
    intros s c n d I. pose proof (inv_ref _ _ I) as R. apply sim_on; [exact I|].
    intros a cc rc Hl Hh Hs Hrel. pose proof Hrel as (Ht & Hv & Hf & Hd & Hm). rewrite Hf.
    destruct (c_get c d) as [[ad cd]|] eqn:Hgd.
    - rewrite (c_get_usable _ _ _ _ _ R Hgd). cbn [negb].
      destruct (c_get_some _ _ _ _ _ R Hgd) as (_ & _ & _ & Hld & _).
      destruct (push_member_raises (c_fr cc)) eqn:Hr; [apply sim_same; assumption|].
      apply not_raises_unfrozen_push in Hr.
      refine (sim_update s c n a cc rc _ _ _ _ I Hl Hh Hs Hrel _ _ _ _ _); [reflexivity | reflexivity | ..].
      + intro H; congruence.
      + unfold cell_rel; cbn; repeat split; auto. rewrite !map_app, Hm. cbn. rewrite Hld. reflexivity.
      + cbn. intro H; congruence.
    - rewrite (c_get_none _ _ _ R Hgd). apply sim_same; assumption.
  Qed.

  Lemma step_Freeze : forall s c n, Inv s c ->
    freeze_ok s (Freeze n) = true -> step_ok s c (Freeze n).
  Proof.
    intros s c n I Hok. apply sim_on; [exact I|].
    intros a cc rc Hl Hh Hs Hrel. pose proof Hrel as (Ht & Hv & Hf & Hd & Hm). rewrite Hf.
    cbn [freeze_ok] in Hok. rewrite Hs in Hok.
    destruct (frozen_freeze_raises (c_fr cc)) eqn:Hr; [apply sim_same; assumption|].
    apply not_raises_unfrozen_freeze in Hr.
    refine (sim_update s c n a cc rc _ _ _ _ I Hl Hh Hs Hrel _ _ _ _ _); [reflexivity | reflexivity | ..].
    - intro H; congruence.
    - unfold cell_rel; cbn; repeat split; auto.
    - cbn. intros _ k Hk. right. rewrite forallb_forall in Hok. auto.
  Qed.

  Lemma step_Drop : forall s c n, Inv s c -> step_ok s c (Drop n).
  Proof.
    intros s c n I. pose proof (inv_closed _ _ I) as HFC. apply sim_on; [exact I|].
    intros a cc rc Hl Hh Hs Hrel. pose proof Hrel as (Ht & Hv & Hf & Hd & Hm).
    refine (sim_update s c n a cc rc _ _ _ _ I Hl Hh Hs Hrel _ _ _ _ _); [reflexivity | reflexivity | ..].
    - cbn. auto.
    - unfold cell_rel; cbn; repeat split; auto.
    - cbn. intros Hfr k Hk. right. exact (HFC _ _ Hs Hfr k Hk).
  Qed.

  Lemma sim_store : forall s c f a x r cc y au,
    Inv s c ->
    heap c a = Some cc -> c_fr cc = true \/ always f = true -> F f (cview D (heap c) a) x = Some r ->
    sim_res (s, y) (mkS (loc c) (used c) (heap c) (dom c) ((f, a, x, r) :: memo c), (y, au)).
  Proof.
    intros s c f a x r cc y au [R HM HFC] Hh Hcase HF.
    split; [reflexivity|]. constructor; [apply Refines_memo; exact R| |exact HFC].
    intros f0 a0 x0 r0 Hin. cbn [memo heap fst] in *. destruct Hin as [Heq|Hin].
    - injection Heq as <- <- <- <-. exists cc. auto.
    - exact (HM _ _ _ _ Hin).
  Qed.

  (* A granted reclamation removes the cell at a and unbinds its owner n0; the reference heap does
     not move.  The cell had no handle, so its reference cell is dropped (R_unbound at n0); nothing
     points to a, so the dependencies of every other cell resolve as before under the new loc
     (R_loc); no memo entry is keyed by a (pin), so the table is untouched (Memo_preserved). *)
  Lemma sim_reclaim : forall s c a cc y au,
    Inv s c ->
    heap c a = Some cc -> c_handle cc = false -> pinned (memo c) a = false -> referenced c a = false ->
    sim_res (s, y) (mkS (nupd (loc c) (c_owner cc) None) (used c) (aupd (heap c) a None) (dom c) (memo c), (y, au)).
  Proof.
    intros s c a cc y au [R HM HFC] Hh Hhd Hpin Href.
    set (n0 := c_owner cc).
    pose proof (R_heap _ _ R _ _ Hh) as Hl0. fold n0 in Hl0.
    split; [reflexivity|]. cbn [fst snd].
    assert (R' : Refines s (mkS (nupd (loc c) n0 None) (used c) (aupd (heap c) a None) (dom c) (memo c))).
    { constructor; cbn [loc used heap dom memo].
      - apply (R_used _ _ R).
      - intros m a' Hm. unfold nupd in Hm. destruct (Nat.eqb_spec m n0) as [->|Hmn]; [discriminate|].
        destruct (R_loc _ _ R _ _ Hm) as (cc0 & rc0 & Hh0 & Ho0 & Hs0 & Hrel0).
        assert (Hne : a' <> a).
        { intros ->. rewrite Hh in Hh0. injection Hh0 as <-. apply Hmn. symmetry. exact Ho0. }
        exists cc0, rc0. unfold aupd. destruct (Z.eqb_spec a' a); [contradiction|].
        repeat split; auto; try apply Hrel0.
        destruct Hrel0 as (_ & _ & _ & _ & Hm0). rewrite <- Hm0.
        apply map_ext_in. intros k Hk. unfold nupd. destruct (Nat.eqb_spec k n0) as [->|]; [|reflexivity].
        exfalso. destruct (map_bound _ _ _ Hm0 _ Hk) as (ak & Hak & Hin).
        rewrite Hl0 in Hak. injection Hak as <-.
        rewrite (referenced_intro c a a' cc0 (R_dom _ _ R _ _ Hh0) Hh0 Hin) in Href. discriminate.
      - intros a' cc0 H0. unfold aupd in H0. destruct (Z.eqb_spec a' a) as [->|Hne]; [discriminate|].
        pose proof (R_heap _ _ R _ _ H0) as Hl1. unfold nupd.
        destruct (Nat.eqb_spec (c_owner cc0) n0) as [Heq|]; [|exact Hl1].
        rewrite Heq in Hl1. rewrite Hl0 in Hl1. injection Hl1 as ->. contradiction.
      - intros a' cc0 H0. unfold aupd in H0. destruct (Z.eqb_spec a' a) as [->|Hne]; [discriminate|].
        exact (R_dom _ _ R _ _ H0).
      - intros m rc0 Hs0 Hm. unfold nupd in Hm. destruct (Nat.eqb_spec m n0) as [->|Hmn].
        + destruct (R_loc _ _ R _ _ Hl0) as (cc1 & rc1 & Hh1 & _ & Hs1 & Hrel1).
          rewrite Hh in Hh1. injection Hh1 as <-. rewrite Hs0 in Hs1. injection Hs1 as <-.
          destruct Hrel1 as (_ & _ & _ & Hd & _). rewrite Hd, Hhd. reflexivity.
        + exact (R_unbound _ _ R _ _ Hs0 Hm). }
    constructor; [exact R'| |exact HFC].
    eapply (Memo_preserved s c s); eauto.
    - intros f a0 x r Hin cc0 Hh0. cbn [heap]. unfold aupd.
      destruct (Z.eqb_spec a0 a) as [->|Hne].
      + rewrite (pinned_In _ _ _ _ _ Hin) in Hpin. discriminate.
      + exists cc0. repeat split; auto.
    - apply frozen_same_refl.
  Qed.

  (* A successful allocation binds the unused name n to the free address a, on both sides.  At the
     new pair (n, a) the fields of Refines hold by construction; every other cell carries over
     because its dependencies are bound names, hence different from n (Hbound), and because no live
     cell was at a.  Old memo keys and frozen cells are untouched (Memo_preserved, same_rupd). *)
  Lemma sim_alloc : forall s c n a tg v ds das y au,
    Inv s c ->
    s n = None -> heap c a = None -> map (loc c) ds = map Some das ->
    sim_res (rupd s n (mkR tg v ds false false), y)
            (mkS (nupd (loc c) n (Some a)) (nupd (used c) n true)
                 (aupd (heap c) a (Some (mkC n tg v das false true))) (a :: dom c) (memo c), (y, au)).
  Proof.
    intros s c n a tg v ds das y au [R HM HFC] Hs Hh Hmap.
    assert (Hl : loc c n = None).
    { destruct (loc c n) as [a'|] eqn:E; [|reflexivity].
      destruct (R_loc _ _ R _ _ E) as (_ & rc & _ & _ & Hs' & _). congruence. }
    split; [reflexivity|]. cbn [fst snd].
    set (rc' := mkR tg v ds false false). set (cc' := mkC n tg v das false true).
    assert (Hbound : forall l l', map (loc c) l = map Some l' ->
              map (nupd (loc c) n (Some a)) l = map (loc c) l).
    { intros l l' Hm. apply map_ext_in. intros k Hk. unfold nupd.
      destruct (Nat.eqb_spec k n) as [->|]; [|reflexivity].
      destruct (map_bound _ _ _ Hm _ Hk) as (ak & Hak & _). congruence. }
    assert (R' : Refines (rupd s n rc')
              (mkS (nupd (loc c) n (Some a)) (nupd (used c) n true) (aupd (heap c) a (Some cc'))
                   (a :: dom c) (memo c))).
    { constructor; cbn [loc used heap dom memo].
      - intro m. unfold nupd, rupd. destruct (Nat.eqb_spec m n) as [->|].
        + split; [discriminate|reflexivity].
        + apply (R_used _ _ R).
      - intros m a' Hm. unfold nupd in Hm. unfold rupd, aupd.
        destruct (Nat.eqb_spec m n) as [->|Hmn].
        + injection Hm as <-. rewrite Z.eqb_refl. exists cc', rc'.
          repeat split; auto. cbn. rewrite (Hbound _ _ Hmap). exact Hmap.
        + destruct (R_loc _ _ R _ _ Hm) as (cc0 & rc0 & Hh0 & Ho0 & Hs0 & Hrel0).
          destruct (Z.eqb_spec a' a) as [->|]; [congruence|].
          exists cc0, rc0. repeat split; auto; try apply Hrel0.
          destruct Hrel0 as (_ & _ & _ & _ & Hm0). rewrite (Hbound _ _ Hm0). exact Hm0.
      - intros a' cc0 H0. unfold aupd in H0. unfold nupd.
        destruct (Z.eqb_spec a' a) as [->|Hne].
        + injection H0 as <-. cbn. rewrite Nat.eqb_refl. reflexivity.
        + pose proof (R_heap _ _ R _ _ H0) as Hl1.
          destruct (Nat.eqb_spec (c_owner cc0) n) as [Heq|]; [|exact Hl1]. congruence.
      - intros a' cc0 H0. unfold aupd in H0. destruct (Z.eqb_spec a' a) as [->|Hne].
        + left; reflexivity.
        + right. exact (R_dom _ _ R _ _ H0).
      - intros m rc0 H0 Hm. unfold rupd in H0. unfold nupd in Hm.
        destruct (Nat.eqb_spec m n) as [->|]; [discriminate|].
        exact (R_unbound _ _ R _ _ H0 Hm). }
    constructor; [exact R'| |].
    - eapply (Memo_preserved s c); eauto.
      + intros f a0 x r Hin cc0 Hh0. cbn [heap]. unfold aupd.
        destruct (Z.eqb_spec a0 a) as [->|]; [congruence|].
        exists cc0. repeat split; auto.
      + apply same_rupd. intros rc0 Hs0. congruence.
    - apply frozen_closed_rupd; auto.
      + unfold r_frozen. rewrite Hs. discriminate.
      + cbn. discriminate.
  Qed.

  Lemma step_Call : forall s c f n x, Inv s c -> step_ok s c (Call f n x).
  Proof.
    intros s c f n x I. pose proof I as [R HM _]. apply sim_on; [exact I|].
    intros a cc rc Hl Hh Hs Hrel. rewrite <- (view_eq _ _ R D _ _ Hl).
    destruct (uses_cache always cond f (c_fr cc)) eqn:Hu; [|apply sim_same; assumption].
    destruct (lookup (memo c) f a x) as [r|] eqn:Hlk.
    - apply lookup_In in Hlk. destruct (HM _ _ _ _ Hlk) as (cc0 & _ & _ & HF).
      rewrite HF. apply sim_same; assumption.
    - destruct (F f (cview D (heap c) a) x) as [r|] eqn:HF; [|apply sim_same; assumption].
      apply (sim_store s c f a x r cc); try assumption. destruct (uses_cache_cases _ _ Hu); auto.
  Qed.

  Lemma step_Reclaim : forall s c a, Inv s c -> step_ok s c (Reclaim a).
  Proof.
    intros s c a I. unfold step_ok. cbn [Memo.cstep Memo.rstep].
    destruct (heap c a) as [cc|] eqn:Hh; [|apply sim_same; assumption].
    destruct (c_handle cc || (pin && pinned (memo c) a) || referenced c a) eqn:Hguard;
      [apply sim_same; assumption|].
    apply orb_false_iff in Hguard. destruct Hguard as [Hguard Href].
    apply orb_false_iff in Hguard. destruct Hguard as [Hhd Hpin].
    rewrite pin_true in Hpin. apply sim_reclaim; assumption.
  Qed.

  Lemma step_Alloc : forall s c n a tg v ds, Inv s c ->
    aux_is_clash (snd (snd (cstep c (Alloc n a tg v ds)))) = false ->
    step_ok s c (Alloc n a tg v ds).
  Proof.
    intros s c n a tg v ds I Hnc. pose proof (inv_ref _ _ I) as R. unfold step_ok. cbn [Memo.cstep Memo.rstep] in *.
    destruct (used c n) eqn:Hu.
    - apply (R_used _ _ R) in Hu. destruct (s n); [|contradiction]. apply sim_same; assumption.
    - assert (Hs : s n = None).
      { destruct (s n) eqn:E; [|reflexivity]. assert (used c n = true) by (apply (R_used _ _ R); congruence). congruence. }
      rewrite Hs. pose proof (c_addrs_spec _ _ R ds) as Hsp.
      destruct (c_addrs c ds) as [das|]; [|rewrite Hsp; apply sim_same; assumption].
      destruct Hsp as [Hall Hmap]. rewrite Hall.
      destruct (heap c a) as [cx|] eqn:Hh; [cbn in Hnc; discriminate|].
      apply sim_alloc; assumption.
  Qed.

  Lemma step_sim : forall s c o, Inv s c ->
    freeze_ok s o = true -> aux_is_clash (snd (snd (cstep c o))) = false -> step_ok s c o.
  Proof.
    intros s c o I Hok Hnc. destruct o.
    - apply step_Alloc; auto.
    - apply step_SetVal; auto.
    - apply step_Push; auto.
    - apply step_Freeze; auto.
    - apply step_Call; auto.
    - apply step_Drop; auto.
    - apply step_Reclaim; auto.
  Qed.

  Lemma Inv_init : Inv r0 c0.
  Proof.
    constructor; [constructor; cbn; try discriminate| |].
    - intro n. split; [discriminate|]. intro H. exfalso. apply H. reflexivity.
    - intros f a x r H. destruct H.
    - intros n c H. discriminate.
  Qed.

  (* Inv holds at r0 / c0 (Inv_init); disciplined and env_ok are facts about the history (the
     parser's order of freezing, the allocator) *)
  Theorem run_sim : forall h s c, Inv s c ->
    disciplined s h = true -> env_ok c h = true ->
    map fst (crun c h) = rrun s h /\ Inv (rfinal F D s h) (cfinal F always cond pin D c h).
  Proof.
    induction h as [|o t IH]; intros s c I Hd He; [cbn; auto|].
    cbn [Memo.disciplined] in Hd. apply andb_true_iff in Hd. destruct Hd as [Hok Hd].
    unfold Memo.env_ok in He. cbn [Memo.crun Memo.rrun Memo.rfinal Memo.cfinal] in *.
    assert (Hstep : step_ok s c o).
    { apply step_sim; auto. destruct (Memo.cstep F always cond pin D c o) as [c' [y au]].
      cbn [forallb snd] in He. apply andb_true_iff in He. apply negb_true_iff, He. }
    destruct Hstep as (Hout & I').
    destruct (Memo.cstep F always cond pin D c o) as [c' [y au]].
    destruct (Memo.rstep F D s o) as [s' x].
    cbn [forallb snd map fst] in *. apply andb_true_iff in He. destruct He as [_ He].
    destruct (IH s' c' I' Hd He) as (IHout & IHinv).
    split; [rewrite Hout, IHout; reflexivity|exact IHinv].
  Qed.

  Theorem memo_table_sound : forall h,
    disciplined r0 h = true -> env_ok c0 h = true ->
    forall f a x r, In (f, a, x, r) (memo (cfinal F always cond pin D c0 h)) ->
      exists cc, heap (cfinal F always cond pin D c0 h) a = Some cc /\
                 (c_fr cc = true \/ always f = true) /\
                 F f (cview D (heap (cfinal F always cond pin D c0 h)) a) x = Some r.
  Proof. intros h Hd He. exact (inv_memo _ _ (proj2 (run_sim h r0 c0 Inv_init Hd He))). Qed.

  Theorem discipline_keeps_frozen_closed : forall h,
    disciplined r0 h = true -> env_ok c0 h = true ->
    forall n c, rfinal F D r0 h n = Some c -> r_fr c = true ->
      forall d, In d (r_deps c) -> r_frozen (rfinal F D r0 h) d = true.
  Proof. intros h Hd He. exact (inv_closed _ _ (proj2 (run_sim h r0 c0 Inv_init Hd He))). Qed.

  Theorem memo_transparent : forall h,
    disciplined r0 h = true -> env_ok c0 h = true -> map fst (crun c0 h) = rrun r0 h.
  Proof. intros h Hd He. exact (proj1 (run_sim h r0 c0 Inv_init Hd He)). Qed.
End Proofs.

Section Interleave.
  Variable F : fid -> tree -> Z -> option Z.
  Variable D : nat.
  Variable Q : name -> bool.               (* the names of the compilation under consideration *)

  Notation rstep := (rstep F D).
  Notation rrun := (rrun F D).

  Definition agree (s s1 : rheap) : Prop := forall n, Q n = true -> s n = s1 n.
  Definition closedQ (s : rheap) : Prop :=
    forall n rc, Q n = true -> s n = Some rc -> forall d, In d (r_deps rc) -> Q d = true.
  Definition names_are (b : bool) (o : op) : bool := forallb (fun n => Bool.eqb (Q n) b) (op_names o).

  Lemma rview_agree : forall s s1, agree s s1 -> closedQ s ->
    forall d n, Q n = true -> rview d s n = rview d s1 n.
  Proof.
    intros s s1 Ha Hc d. induction d as [|d IH]; intros n Hn; cbn [rview]; [reflexivity|].
    rewrite <- (Ha n Hn). destruct (s n) as [rc|] eqn:Hs; [|reflexivity].
    f_equal. apply map_ext_in. intros k Hk. apply IH. exact (Hc n rc Hn Hs k Hk).
  Qed.

  Lemma usable_agree : forall s s1, agree s s1 -> forall d, Q d = true -> r_usable s d = r_usable s1 d.
  Proof. intros s s1 Ha d Hd. unfold r_usable. rewrite (Ha d Hd). reflexivity. Qed.

  Lemma frozen_agree : forall s s1, agree s s1 -> forall d, Q d = true -> r_frozen s d = r_frozen s1 d.
  Proof. intros s s1 Ha d Hd. unfold r_frozen. rewrite (Ha d Hd). reflexivity. Qed.

  Lemma agree_rupd_own : forall s s1 n c, agree s s1 -> agree (rupd s n c) (rupd s1 n c).
  Proof. intros s s1 n c Ha m Hm. unfold rupd. destruct (Nat.eqb m n); [reflexivity|exact (Ha m Hm)]. Qed.

  Lemma agree_rupd_other : forall s s1 n c, agree s s1 -> Q n = false -> agree (rupd s n c) s1.
  Proof.
    intros s s1 n c Ha Hn m Hm. unfold rupd. destruct (Nat.eqb_spec m n) as [->|]; [congruence|exact (Ha m Hm)].
  Qed.

  Lemma closed_rupd : forall s n c, closedQ s ->
    (Q n = true -> forall d, In d (r_deps c) -> Q d = true) -> closedQ (rupd s n c).
  Proof.
    intros s n c Hc H m rc Hm Hs d Hd. unfold rupd in Hs. destruct (Nat.eqb_spec m n) as [->|].
    - injection Hs as <-. exact (H Hm d Hd).
    - exact (Hc m rc Hm Hs d Hd).
  Qed.

  Lemma forallb_names : forall b l, forallb (fun n => Bool.eqb (Q n) b) l = true ->
    forall d, In d l -> Q d = b.
  Proof.
    intros b l H d Hd. rewrite forallb_forall in H. apply eqb_prop. exact (H d Hd).
  Qed.

  Lemma rstep_shape : forall s o,
    fst (rstep s o) = s \/
    exists n rc', In n (op_names o) /\ fst (rstep s o) = rupd s n rc' /\
      forall d, In d (r_deps rc') -> In d (op_names o) \/ exists rc, s n = Some rc /\ In d (r_deps rc).
  Proof.
    intros s o.
    destruct o as [n a tg v ds|n v|n d|n|f n x|n|a]; cbn [op_names Memo.rstep];
      try (left; reflexivity); destruct (s n) as [c|] eqn:Hs; try (left; reflexivity).
    - destruct (forallb (r_usable s) ds); [|left; reflexivity].
      right. exists n, (mkR tg v ds false false). cbn. repeat split; auto.
    - destruct (r_dropped c); [left; reflexivity|].
      destruct (frozen_setattr_raises (r_fr c)); [left; reflexivity|].
      right. eexists n, _. cbn. repeat split; eauto.
    - destruct (r_dropped c); [left; reflexivity|].
      destruct (negb (r_usable s d)); [left; reflexivity|].
      destruct (push_member_raises (r_fr c)); [left; reflexivity|].
      right. eexists n, _. split; [left; reflexivity|]. split; [reflexivity|]. cbn. intros k Hk.
      apply in_app_or in Hk as [Hk|[<-|[]]]; eauto.
    - destruct (r_dropped c); [left; reflexivity|].
      destruct (frozen_freeze_raises (r_fr c)); [left; reflexivity|].
      right. eexists n, _. cbn. repeat split; eauto.
    - destruct (r_dropped c); left; reflexivity.
    - destruct (r_dropped c); [left; reflexivity|].
      right. eexists n, _. cbn. repeat split; eauto.
  Qed.

  Lemma closed_step : forall s o b, closedQ s -> names_are b o = true -> closedQ (fst (rstep s o)).
  Proof.
    intros s o b Hc Hn. pose proof (forallb_names _ _ Hn) as HQ.
    destruct (rstep_shape s o) as [->|(n & rc' & Hn' & -> & Hd)]; [exact Hc|].
    apply closed_rupd; [exact Hc|]. intros Hq d Hdd.
    destruct (Hd d Hdd) as [Hi|(rc & Hs & Hi)].
    - rewrite (HQ d Hi), <- (HQ n Hn'). exact Hq.
    - exact (Hc n rc Hq Hs d Hi).
  Qed.

  Lemma own_step : forall s s1 o, agree s s1 -> closedQ s -> names_are true o = true ->
    snd (rstep s o) = snd (rstep s1 o) /\
    agree (fst (rstep s o)) (fst (rstep s1 o)) /\ freeze_ok s o = freeze_ok s1 o.
  Proof.
    intros s s1 o Ha Hc Hn. unfold names_are in Hn.
    pose proof (forallb_names _ _ Hn) as HQ. clear Hn.
    destruct o as [n a tg v ds|n v|n d|n|f n x|n|a]; cbn [op_names] in HQ; cbn [Memo.rstep freeze_ok];
      try (assert (Hqn : Q n = true) by (apply HQ; left; reflexivity); rewrite <- (Ha n Hqn)).
    - (* Alloc *)
      rewrite <- (forallb_agree (r_usable s) (r_usable s1) ds)
        by (intros d Hd; apply usable_agree; [exact Ha|apply HQ; right; exact Hd]).
      destruct (s n); [cbn; auto|].
      destruct (forallb (r_usable s) ds); cbn [fst snd]; auto using agree_rupd_own.
    - (* SetVal *)
      destruct (s n) as [c|]; [|cbn; auto]. destruct (r_dropped c); [cbn; auto|].
      destruct (frozen_setattr_raises (r_fr c)); cbn [fst snd]; auto using agree_rupd_own.
    - (* Push *)
      assert (Hqd : Q d = true) by (apply HQ; right; left; reflexivity).
      rewrite <- (usable_agree _ _ Ha d Hqd).
      destruct (s n) as [c|]; [|cbn; auto]. destruct (r_dropped c); [cbn; auto|].
      destruct (negb (r_usable s d)); [cbn; auto|].
      destruct (push_member_raises (r_fr c)); cbn [fst snd]; auto using agree_rupd_own.
    - (* Freeze *)
      destruct (s n) as [c|] eqn:Hs; [|cbn; auto].
      assert (Hfz : forallb (r_frozen s) (r_deps c) = forallb (r_frozen s1) (r_deps c)).
      { apply forallb_agree. intros d Hd. apply frozen_agree; [exact Ha|]. exact (Hc n c Hqn Hs d Hd). }
      destruct (r_dropped c); [cbn; auto|].
      destruct (frozen_freeze_raises (r_fr c)); cbn [fst snd]; auto using agree_rupd_own.
    - (* Call *)
      rewrite <- (rview_agree _ _ Ha Hc D n Hqn).
      destruct (s n) as [c|]; [|cbn; auto]. destruct (r_dropped c); cbn; auto.
    - (* Drop *)
      destruct (s n) as [c|]; [|cbn; auto].
      destruct (r_dropped c); cbn [fst snd]; auto using agree_rupd_own.
    - cbn. auto.
  Qed.

  Lemma other_step : forall s s1 o, agree s s1 -> names_are false o = true -> agree (fst (rstep s o)) s1.
  Proof.
    intros s s1 o Ha Hn. pose proof (forallb_names _ _ Hn) as HQ.
    destruct (rstep_shape s o) as [->|(n & rc' & Hn' & -> & _)]; [exact Ha|].
    apply agree_rupd_other; [exact Ha|exact (HQ n Hn')].
  Qed.

  Definition sepQ (b : bool) (th : list (bool * op)) : bool :=
    forallb (fun p => names_are (Bool.eqb (fst p) b) (snd p)) th.

  Lemma interleave_ref_gen : forall b th s s1, agree s s1 -> closedQ s -> sepQ b th = true ->
    sel_out b th (rrun s (map snd th)) = rrun s1 (sel b th) /\
    (Memo.disciplined F D s (map snd th) = true -> Memo.disciplined F D s1 (sel b th) = true).
  Proof.
    intro b. induction th as [|[t o] th IH]; intros s s1 Ha Hc Hsep; [split; auto|].
    cbn [sepQ forallb fst snd] in Hsep. apply andb_true_iff in Hsep. destruct Hsep as [Hn Hsep].
    pose proof (closed_step s o _ Hc Hn) as Hc'.
    unfold sel. cbn [map snd filter fst Memo.rrun Memo.disciplined sel_out]. fold (sel b th).
    destruct (Bool.eqb t b).
    - destruct (own_step s s1 o Ha Hc Hn) as (Hout & Ha' & Hfz).
      cbn [map snd Memo.rrun Memo.disciplined].
      destruct (Memo.rstep F D s o) as [s' x]. destruct (Memo.rstep F D s1 o) as [s1' x1].
      cbn [fst snd] in *.
      destruct (IH s' s1' Ha' Hc' Hsep) as [IH1 IH2].
      split.
      + rewrite Hout, IH1. reflexivity.
      + intro Hd. apply andb_true_iff in Hd. destruct Hd as [Hd1 Hd2].
        rewrite <- Hfz, Hd1. cbn [andb]. apply IH2. exact Hd2.
    - pose proof (other_step s s1 o Ha Hn) as Ha'.
      destruct (Memo.rstep F D s o) as [s' x]. cbn [fst snd] in *.
      destruct (IH s' s1 Ha' Hc' Hsep) as [IH1 IH2].
      split; [exact IH1|].
      intro Hd. apply andb_true_iff in Hd. destruct Hd as [_ Hd2]. apply IH2. exact Hd2.
  Qed.
End Interleave.

Section InterleaveTop.
  Variable F : fid -> tree -> Z -> option Z.
  Variable always : fid -> bool.
  Variable cond : bool -> bool.
  Variable pin : bool.
  Variable D : nat.
  Hypothesis cond_frozen : forall fr, cond fr = true -> fr = true.
  Hypothesis pin_true : pin = true.
  Hypothesis F_always : forall f, always f = true ->
    forall t t' x, root_tag t = root_tag t' -> F f t x = F f t' x.

  Theorem interleave_ref : forall P th b, separated P th = true ->
    sel_out b th (rrun F D r0 (map snd th)) = rrun F D r0 (sel b th) /\
    (disciplined F D r0 (map snd th) = true -> disciplined F D r0 (sel b th) = true).
  Proof.
    intros P th b Hsep.
    apply (interleave_ref_gen F D (fun n => Bool.eqb (P n) b) b th r0 r0).
    - intros n _. reflexivity.
    - intros n rc _ Hs. discriminate.
    - unfold separated in Hsep. unfold sepQ, names_are. rewrite forallb_forall in *.
      intros [t o] Hin. specialize (Hsep _ Hin). cbn [fst snd] in *. rewrite forallb_forall in *.
      intros n Hn. rewrite (eqb_prop _ _ (Hsep n Hn)). apply eqb_reflx.
  Qed.

  Theorem interleaving : forall P th b, separated P th = true ->
    disciplined F D r0 (map snd th) = true ->
    env_ok F always cond pin D c0 (map snd th) = true ->
    env_ok F always cond pin D c0 (sel b th) = true ->
    sel_out b th (map fst (crun F always cond pin D c0 (map snd th))) =
    map fst (crun F always cond pin D c0 (sel b th)).
  Proof.
    intros P th b Hsep Hd He He1.
    destruct (interleave_ref P th b Hsep) as [H1 H2].
    rewrite (memo_transparent F always cond pin D cond_frozen pin_true F_always _ Hd He).
    rewrite (memo_transparent F always cond pin D cond_frozen pin_true F_always _ (H2 Hd) He1).
    exact H1.
  Qed.
End InterleaveTop.
