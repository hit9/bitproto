(* FrontRewrite.v — front-end side of C12: [Front.check] is PARAMETRIC in structure-preserving
   rewrites of the schema.  Identifiers go through an injective rho (option names are fixed), the
   LINE attribute of every statement through a per-file relabelling lam (comments, blank lines,
   indentation, optional semicolons, several statements per line are absent from the surface tree
   except for that attribute), the field numbers of some messages through an injective g0 that is
   monotone there (FrontSim.gcond); resolved types are compared up to a size-preserving congruence R.
   Related schemas run to related outcomes (check_rel), every rejection included: same class, same
   file, corresponding line.  Two instances:

   * RENAMING and TRIVIA (R := eq, numbers kept): the relation between the elaborations is the
     graph of rn_def, so [check] COMMUTES with rn_files; the elaborated types of corresponding
     messages are EQUAL (the [ty] carries neither names nor lines), hence so are their wire formats;
   * RENUMBERING (names and lines kept): FrontRenumber.v.

   NOT an instance: a permutation of the statements of a scope.  [itsrel], [mrel] and the premise
   [Forall2 (nrel gb R)] of R_msg are positional, and acceptance is not even preserved when a field
   is named like a type (props/C12.v: C12_reorder_fields_acceptance_caveat and the comment after it). *)
From Coq Require Import ZArith List String.
From BP Require Import ListFacts Schema FrontBase Front FrontProofs FrontValid FrontValidProofs FrontSim.
From BPGen Require GenFront.
Import ListNotations.
Open Scope Z_scope.

Section Rename.
  Variable rho : string -> string.           (* identifiers *)
  Variable lam : string -> Z -> Z.           (* file -> line -> line *)

  Definition rn_path (p : path) : path := map rho p.
  Definition rn_sty (s : sty) : sty := match s with SRef p => SRef (rn_path p) | _ => s end.
  Definition rn_capx (c : capx) : capx := match c with CapRef p => CapRef (rn_path p) | _ => c end.
  Definition rn_tyx (t : tyx) : tyx :=
    match t with
    | XSingle s => XSingle (rn_sty s)
    | XArr s c x => XArr (rn_sty s) (rn_capx c) x
    end.
  Fixpoint rn_cexpr (e : cexpr) : cexpr :=
    match e with
    | EInt z => EInt z
    | ERef p => ERef (rn_path p)
    | EAdd a b => EAdd (rn_cexpr a) (rn_cexpr b)
    | ESub a b => ESub (rn_cexpr a) (rn_cexpr b)
    | EMul a b => EMul (rn_cexpr a) (rn_cexpr b)
    | EDiv a b => EDiv (rn_cexpr a) (rn_cexpr b)
    end.
  Definition rn_cvalx (v : cvalx) : cvalx :=
    match v with CRef p => CRef (rn_path p) | CExpr e => CExpr (rn_cexpr e) | _ => v end.
  Definition rn_optx (v : optx) : optx := match v with ORef p => ORef (rn_path p) | _ => v end.

  Section InFile.
    Variable file : string.
    Fixpoint rn_item (it : item) : item :=
      match it with
      | IProto l n => IProto (lam file l) (rho n)
      | IImport l a g => IImport (lam file l) (option_map rho a) g
      | IOption l n v => IOption (lam file l) (rho n) (rn_optx v)
      | IConst l n v => IConst (lam file l) (rho n) (rn_cvalx v)
      | IAlias l n t => IAlias (lam file l) (rho n) (rn_tyx t)
      | IEnum l n b body => IEnum (lam file l) (rho n) (rn_sty b) (map rn_item body)
      | IMsg l n x body => IMsg (lam file l) (rho n) x (map rn_item body)
      | IField l t n k => IField (lam file l) (rn_tyx t) (rho n) k
      | IEnumField l n v => IEnumField (lam file l) (rho n) v
      end.
  End InFile.

  Definition rn_files (fs : files) : files :=
    map (fun kf => (fst kf, map (rn_item (fst kf)) (snd kf))) fs.

  (* option names are not identifiers of the schema: rho must leave them alone *)
  Fixpoint opt_fixed (it : item) : Prop :=
    match it with
    | IOption _ n _ => rho n = n
    | IEnum _ _ _ body | IMsg _ _ _ body =>
        (fix go (l : list item) : Prop := match l with [] => True | i :: r => opt_fixed i /\ go r end) body
    | _ => True
    end.

  Definition opts_fixed (fs : files) : Prop :=
    forall k its it, In (k, its) fs -> In it its -> opt_fixed it.

  Definition opt_fixed_all :=
    fix go (l : list item) : Prop := match l with [] => True | i :: r => opt_fixed i /\ go r end.

  Lemma opt_fixed_all_in its : (forall it, In it its -> opt_fixed it) -> opt_fixed_all its.
  Proof. induction its as [|i r IH]; intros H; [exact I|]. split; [apply H; now left|]. apply IH. intros it Hin. apply H. now right. Qed.

  Definition rn_loc (a : loc) : loc := mkloc (lfile a) (lam (lfile a) (lline a)).

  Fixpoint rn_def (d : def) : def :=
    match d with
    | DConst a v => DConst (rn_loc a) v
    | DAlias a t r => DAlias (rn_loc a) t (option_map rn_loc r)
    | DEnum a t m =>
        DEnum (rn_loc a) t
          ((fix go (l : list (string * def)) : list (string * def) :=
              match l with [] => [] | nd :: r => (rho (fst nd), rn_def (snd nd)) :: go r end) m)
    | DMsg a t m =>
        DMsg (rn_loc a) t
          ((fix go (l : list (string * def)) : list (string * def) :=
              match l with [] => [] | nd :: r => (rho (fst nd), rn_def (snd nd)) :: go r end) m)
    | DProto f n m =>
        DProto f (rho n)
          ((fix go (l : list (string * def)) : list (string * def) :=
              match l with [] => [] | nd :: r => (rho (fst nd), rn_def (snd nd)) :: go r end) m)
    | DOption a v => DOption (rn_loc a) v
    | DField a k t r => DField (rn_loc a) k t (option_map rn_loc r)
    | DEnumField a v => DEnumField (rn_loc a) v
    end.

  Definition rn_mem (m : list (string * def)) : list (string * def) :=
    map (fun nd => (rho (fst nd), rn_def (snd nd))) m.

  Lemma rn_mem_fix m :
    (fix go (l : list (string * def)) : list (string * def) :=
       match l with [] => [] | nd :: r => (rho (fst nd), rn_def (snd nd)) :: go r end) m = rn_mem m.
  Proof. induction m as [|nd r IH]; [reflexivity|]. cbn [rn_mem map]. now rewrite IH. Qed.

  Lemma rn_def_enum a t m : rn_def (DEnum a t m) = DEnum (rn_loc a) t (rn_mem m).
  Proof. cbn [rn_def]. now rewrite rn_mem_fix. Qed.
  Lemma rn_def_msg a t m : rn_def (DMsg a t m) = DMsg (rn_loc a) t (rn_mem m).
  Proof. cbn [rn_def]. now rewrite rn_mem_fix. Qed.
  Lemma rn_def_proto f n m : rn_def (DProto f n m) = DProto f (rho n) (rn_mem m).
  Proof. cbn [rn_def]. now rewrite rn_mem_fix. Qed.

  Definition rn_fkind (k : fkind) : fkind :=
    match k with
    | FProto n => FProto (option_map rho n)
    | FMsg a x => FMsg (rn_loc a) x
    | FEnum a n => FEnum (rn_loc a) n
    end.
  Definition rn_res {A} (g : A -> A) (r : res A) : res A :=
    match r with Ok a => Ok (g a) | Err k f l => Err k f (lam f l) end.

End Rename.

(* How the hypotheses are met for a rewrite: check_rel_rn below (R := eq, g0 := idz) and
   FrontRenumber.check_rel_renum (rho, lam := identity, R := wsim). *)
Section Rel.
  Variable rho : string -> string.
  Variable lam : string -> Z -> Z.
  Variable R : ty -> ty -> Prop.
  Variable g0 : Z -> Z.
  Hypothesis rho_inj : forall a b, rho a = rho b -> a = b.
  Hypothesis lam0 : forall f, lam f 0 = 0.   (* "no line" stays "no line" *)
  (* [max_bytes_of] finds the option by this name among the (renamed) members of a message *)
  Hypothesis rho_max_bytes : rho GenFront.max_bytes_option_name = GenFront.max_bytes_option_name.
  Hypothesis g0_inj : forall a b, g0 a = g0 b -> a = b.
  Hypothesis g0_num : forall k, GenFront.field_number_raises (g0 k) = GenFront.field_number_raises k.
  Hypothesis R_refl : forall t, R t t.
  Hypothesis R_nbits : forall t t', R t t' -> nbits t = nbits t'.
  Hypothesis R_alias : forall t t', R t t' -> R (TAlias t) (TAlias t').
  Hypothesis R_arr : forall x c t t', R t t' -> R (TArr x c t) (TArr x c t').
  Hypothesis R_msg : forall gb x fs fs',
    gcond g0 gb (map fst fs) -> Forall2 (nrel gb R) fs fs' -> R (TMsg x fs) (TMsg x fs').

  Notation rnl := (rn_loc lam).
  Notation rnp := (rn_path rho).

  (* the maps a field number may have gone through *)
  Definition gok (g : Z -> Z) : Prop := g = idz \/ g = g0.

  Lemma gok_inj g : gok g -> forall a b, g a = g b -> a = b.
  Proof. intros [->| ->]; [now unfold idz|exact g0_inj]. Qed.

  Lemma gok_num g : gok g -> forall k, GenFront.field_number_raises (g k) = GenFront.field_number_raises k.
  Proof. intros [->| ->]; [reflexivity|exact g0_num]. Qed.

  Inductive drel : def -> def -> Prop :=
  | RConst a v : drel (DConst a v) (DConst (rnl a) v)
  | RAlias a t t' r : R t t' -> drel (DAlias a t r) (DAlias (rnl a) t' (option_map rnl r))
  | REnum a t m m' : Forall2 (fun nd nd' => fst nd' = rho (fst nd) /\ drel (snd nd) (snd nd')) m m' ->
      drel (DEnum a t m) (DEnum (rnl a) t m')
  | RMsg a t t' m m' : R t t' -> Forall2 (fun nd nd' => fst nd' = rho (fst nd) /\ drel (snd nd) (snd nd')) m m' ->
      drel (DMsg a t m) (DMsg (rnl a) t' m')
  | RProto f n m m' : Forall2 (fun nd nd' => fst nd' = rho (fst nd) /\ drel (snd nd) (snd nd')) m m' ->
      drel (DProto f n m) (DProto f (rho n) m')
  | ROption a v : drel (DOption a v) (DOption (rnl a) v)
  | RField a g k t t' r : gok g -> R t t' -> drel (DField a k t r) (DField (rnl a) (g k) t' (option_map rnl r))
  | REnumField a v : drel (DEnumField a v) (DEnumField (rnl a) v).

  Definition mrel : list (string * def) -> list (string * def) -> Prop :=
    Forall2 (fun nd nd' => fst nd' = rho (fst nd) /\ drel (snd nd) (snd nd')).

  Lemma assoc_rel n m m' : mrel m m' -> orel drel (assoc n m) (assoc (rho n) m').
  Proof. exact (Forall2_assoc rho (fun _ => drel) n m m' rho_inj). Qed.

  Lemma has_name_rel n m m' : mrel m m' -> has_name (rho n) m' = has_name n m.
  Proof. intros H. pose proof (assoc_rel n m m' H) as Ha. unfold has_name. destruct (assoc n m), (assoc (rho n) m'); cbn in Ha; tauto. Qed.

  Lemma def_members_rel d d' : drel d d' -> orel mrel (def_members d) (def_members d').
  Proof. intros []; cbn [def_members orel]; trivial. Qed.

  Lemma get_member_rel p : forall m m', mrel m m' -> orel drel (get_member m p) (get_member m' (rnp p)).
  Proof.
    induction p as [|n rest IH]; intros m m' H; [exact I|]. cbn [rn_path map get_member].
    pose proof (assoc_rel n m m' H) as Ha. destruct (assoc n m) as [d|], (assoc (rho n) m') as [d'|]; cbn in Ha; try contradiction; [|exact I].
    destruct rest as [|n2 rest2]; [exact Ha|]. cbn [map].
    pose proof (def_members_rel d d' Ha) as Hm.
    destruct (def_members d) as [md|], (def_members d') as [md'|]; cbn in Hm; try contradiction; [|exact I].
    now apply (IH md md').
  Qed.

  Definition krel (f f' : frame) : Prop := fk f' = rn_fkind rho lam (fk f) /\ mrel (fmem f) (fmem f').
  Definition srel : list frame -> list frame -> Prop := Forall2 krel.

  Lemma lookup_rel p st st' : srel st st' -> orel drel (lookup st p) (lookup st' (rnp p)).
  Proof.
    induction 1 as [|f f' st st' [_ Hm] _ IH]; [exact I|]. cbn [lookup].
    pose proof (get_member_rel p _ _ Hm) as Hg.
    destruct (get_member (fmem f) p), (get_member (fmem f') (rnp p)); cbn in Hg; try contradiction; [exact Hg|exact IH].
  Qed.

  Lemma def_type_rel d d' : drel d d' -> orel R (def_type d) (def_type d').
  Proof.
    intros []; cbn [def_type orel]; trivial; try apply R_refl. now apply R_alias.
  Qed.

  Lemma def_const_rel d d' : drel d d' -> def_const d' = def_const d.
  Proof. now intros []. Qed.

  Lemma def_loc_rel d d' : drel d d' -> def_loc d' = rnl (def_loc d).
  Proof.
    intros []; cbn [def_loc]; try reflexivity. unfold rn_loc. cbn [lfile lline]. now rewrite lam0.
  Qed.

  Definition rrel {A B} (Q : A -> B -> Prop) (r : res A) (r' : res B) : Prop :=
    match r, r' with
    | Ok a, Ok b => Q a b
    | Err k f l, Err k' f' l' => k' = k /\ f' = f /\ l' = lam f l
    | _, _ => False
    end.

  Lemma rrel_bind {A B A' B'} (Q : A -> A' -> Prop) (Q' : B -> B' -> Prop) r r' k k' :
    rrel Q r r' -> (forall a a', r = Ok a -> Q a a' -> rrel Q' (k a) (k' a')) -> rrel Q' (bind r k) (bind r' k').
  Proof. destruct r, r'; cbn [rrel bind]; try contradiction; auto. Qed.

  Lemma rrel_if {A B} (Q : A -> B -> Prop) (c : bool) a b a' b' :
    rrel Q a a' -> rrel Q b b' -> rrel Q (if c then a else b) (if c then a' else b').
  Proof. now destruct c. Qed.

  Lemma rrel_err {A B} (Q : A -> B -> Prop) k f l : rrel Q (Err k f l) (Err k f (lam f l)).
  Proof. now repeat split. Qed.

  Section Res.
    Variable file : string.
    Variable trad : bool.
    Variable st st' : list frame.
    Hypothesis Hst : srel st st'.
    Variable l : Z.
    Notation l' := (lam file l).

    Definition trrel (x x' : ty * option loc) : Prop := R (fst x) (fst x') /\ snd x' = option_map rnl (snd x).

    Lemma resolve_type_ref_rel p :
      rrel trrel (resolve_type_ref file st l p) (resolve_type_ref file st' l' (rnp p)).
    Proof.
      unfold resolve_type_ref. pose proof (lookup_rel p st st' Hst) as H.
      destruct (lookup st p) as [d|], (lookup st' (rnp p)) as [d'|]; cbn in H; try contradiction; [|apply rrel_err].
      pose proof (def_type_rel d d' H) as Ht.
      destruct (def_type d), (def_type d'); cbn in Ht; try contradiction; [|apply rrel_err].
      split; [exact Ht|]. cbn [snd option_map]. now rewrite (def_loc_rel d d' H).
    Qed.

    Lemma resolve_const_ref_rel p :
      rrel eq (resolve_const_ref file st l p) (resolve_const_ref file st' l' (rnp p)).
    Proof.
      unfold resolve_const_ref. pose proof (lookup_rel p st st' Hst) as H.
      destruct (lookup st p) as [d|], (lookup st' (rnp p)) as [d'|]; cbn in H; try contradiction; [|apply rrel_err].
      rewrite (def_const_rel d d' H). destruct (def_const d); [reflexivity|apply rrel_err].
    Qed.

    Lemma resolve_sty_rel s : rrel trrel (resolve_sty file st l s) (resolve_sty file st' l' (rn_sty rho s)).
    Proof.
      destruct s as [| |n|n|p]; cbn [rn_sty resolve_sty]; [split; [apply R_refl|reflexivity]..| | |apply resolve_type_ref_rel];
        apply rrel_if; (apply rrel_err || (split; [apply R_refl|reflexivity])).
    Qed.

    Lemma resolve_cap_rel c : rrel eq (resolve_cap file st l c) (resolve_cap file st' l' (rn_capx rho c)).
    Proof.
      destruct c as [z|p]; cbn [rn_capx resolve_cap]; [reflexivity|].
      apply (rrel_bind eq); [apply resolve_const_ref_rel|]. intros v ? _ <-. destruct v; (reflexivity || apply rrel_err).
    Qed.

    Lemma resolve_tyx_rel t : rrel trrel (resolve_tyx file trad st l t) (resolve_tyx file trad st' l' (rn_tyx rho t)).
    Proof.
      destruct t as [s|s c x]; cbn [rn_tyx resolve_tyx]; [apply resolve_sty_rel|].
      apply (rrel_bind trrel); [apply resolve_sty_rel|]. intros er er' _ [He Hl].
      apply (rrel_bind eq); [apply resolve_cap_rel|]. intros n ? _ <-.
      apply rrel_if; [apply rrel_err|]. apply rrel_if; [apply rrel_err|]. split; [now apply R_arr|exact Hl].
    Qed.

    Lemma eval_cexpr_rel e : rrel eq (eval_cexpr file st l e) (eval_cexpr file st' l' (rn_cexpr rho e)).
    Proof.
      induction e as [z|p|a IHa b IHb|a IHa b IHb|a IHa b IHb|a IHa b IHb]; cbn [rn_cexpr eval_cexpr]; try reflexivity.
      2-5: apply (rrel_bind eq); [exact IHa|]; intros x ? _ <-; apply (rrel_bind eq); [exact IHb|]; intros y ? _ <-;
           try (apply rrel_if; [apply rrel_err|]); reflexivity.
      apply (rrel_bind eq); [apply resolve_const_ref_rel|]. intros v ? _ <-. destruct v; (reflexivity || apply rrel_err).
    Qed.

    Lemma eval_cvalx_rel v : rrel eq (eval_cvalx file st l v) (eval_cvalx file st' l' (rn_cvalx rho v)).
    Proof.
      destruct v as [b|s|p|e]; cbn [rn_cvalx eval_cvalx]; try reflexivity; [apply resolve_const_ref_rel|].
      apply (rrel_bind eq); [apply eval_cexpr_rel|]. now intros z ? _ <-.
    Qed.

    Lemma eval_optx_rel v : rrel eq (eval_optx file st l v) (eval_optx file st' l' (rn_optx rho v)).
    Proof. destruct v as [v|p]; cbn [rn_optx eval_optx]; [reflexivity|apply resolve_const_ref_rel]. Qed.
  End Res.

  Definition fmrel (g : Z -> Z) (f f' : frame) : Prop :=
    krel f f' /\ Forall2 (nrel g R) (msg_fields (fmem f)) (msg_fields (fmem f')).

  Lemma flat_map_rel {A} (h : def -> list A) :
    (forall d d', drel d d' -> h d' = h d) ->
    forall m m', mrel m m' -> flat_map (fun nd => h (snd nd)) m' = flat_map (fun nd => h (snd nd)) m.
  Proof.
    intros Hh m m'. induction 1 as [|a a' r r' [_ D] _ IH]; [reflexivity|]. cbn [flat_map]. now rewrite (Hh _ _ D), IH.
  Qed.

  Lemma enum_values_rel m m' : mrel m m' -> enum_values m' = enum_values m.
  Proof.
    apply (flat_map_rel (fun d => match d with DEnumField _ v => [v] | _ => [] end)).
    now intros d d' [].
  Qed.

  Lemma imported_files_rel m m' : mrel m m' -> imported_files m' = imported_files m.
  Proof.
    apply (flat_map_rel (fun d => match d with DProto f _ _ => [f] | _ => [] end)).
    now intros d d' [].
  Qed.

  Lemma max_bytes_of_rel m m' : mrel m m' -> max_bytes_of m' = max_bytes_of m.
  Proof.
    intros H. unfold max_bytes_of, option_value.
    pose proof (assoc_rel GenFront.max_bytes_option_name m m' H) as Ha. rewrite rho_max_bytes in Ha.
    destruct (assoc _ m) as [d|], (assoc _ m') as [d'|]; cbn in Ha; try contradiction; [|reflexivity].
    now destruct Ha.
  Qed.

  Lemma last_frame_rel cur cur' outer outer' :
    krel cur cur' -> srel outer outer' -> krel (last_frame cur outer) (last_frame cur' outer').
  Proof. intros Hc Ho. revert cur cur' Hc. induction Ho; intros cur cur' Hc; [exact Hc|]. cbn [last_frame]. now apply IHHo. Qed.

  Lemma nrel_keys g fs fs' : Forall2 (nrel g R) fs fs' -> map fst fs' = map g (map fst fs).
  Proof. induction 1 as [|a b l l' [E _] _ IH]; [reflexivity|]. cbn [map]. now rewrite E, IH. Qed.

  Lemma field_numbers_rel g f f' : fmrel g f f' -> field_numbers (fmem f') = map g (field_numbers (fmem f)).
  Proof. intros [_ H]. rewrite <- !msg_fields_keys. now apply nrel_keys. Qed.

  (* in the scope under construction the number of a field statement goes through g *)
  Definition numtop (g : Z -> Z) (d d' : def) : Prop :=
    match d, d' with DField _ k _ _, DField _ k' _ _ => k' = g k | _, _ => True end.

  Definition is_option (d : def) : bool := match d with DOption _ _ => true | _ => false end.

  Lemma validate_option_rel table a n v :
    rrel eq (validate_option table a n v) (validate_option table (rnl a) n v).
  Proof.
    unfold validate_option. destruct (find_odesc n table) as [d|]; [|apply rrel_err].
    apply rrel_if; [apply rrel_err|]. destruct (od_validator d) as [f|], v as [b|z|s]; try reflexivity.
    apply rrel_if; [reflexivity|apply rrel_err].
  Qed.

  Lemma validate_on_push_rel g f f' n d d' :
    gok g -> fmrel g f f' -> drel d d' -> numtop g d d' -> (is_option d = true -> rho n = n) ->
    rrel eq (validate_on_push f n d) (validate_on_push f' (rho n) d').
  Proof.
    intros Hg Hf Hd Hn Ho. pose proof Hf as [[Hk Hm] _]. unfold validate_on_push. rewrite Hk, (def_loc_rel d d' Hd).
    destruct (fk f) as [pn|a x|a w]; cbn [rn_fkind]; destruct Hd; try reflexivity.
    - rewrite Ho by reflexivity. apply validate_option_rel.
    - rewrite Ho by reflexivity. apply validate_option_rel.
    - cbn [numtop] in Hn. rewrite Hn, (field_numbers_rel g f f' Hf), (mem_z_map g (gok_inj g Hg)).
      apply rrel_if; [apply rrel_err|reflexivity].
    - rewrite (enum_values_rel _ _ Hm).
      apply rrel_if; [apply rrel_err|]. apply rrel_if; [apply rrel_err|reflexivity].
  Qed.

  Lemma add_member_rel g f f' n d d' :
    fmrel g f f' -> drel d d' -> numtop g d d' ->
    fmrel g (add_member f n d) (add_member f' (rho n) d').
  Proof.
    intros [[Hk Hm] Hn] Hd Ht. split; [split; [exact Hk|]; constructor; [now split|exact Hm]|].
    cbn [add_member fmem]. unfold msg_fields. cbn [flat_map snd]. fold (msg_fields (fmem f)) (msg_fields (fmem f')).
    destruct Hd; try exact Hn. cbn [numtop] in Ht. constructor; [|exact Hn]. now split.
  Qed.

  Lemma push_member_rel g f f' n d d' :
    gok g -> fmrel g f f' -> drel d d' -> numtop g d d' -> (is_option d = true -> rho n = n) ->
    rrel (fmrel g) (push_member f n d) (push_member f' (rho n) d').
  Proof.
    intros Hg Hf Hd Hn Ho. pose proof Hf as [[Hk Hm] _]. unfold push_member.
    rewrite (has_name_rel n _ _ Hm), (def_loc_rel d d' Hd). apply rrel_if; [apply rrel_err|].
    apply (rrel_bind eq); [now apply (validate_on_push_rel g)|]. intros _ _ _ _. now apply add_member_rel.
  Qed.

  Lemma unsupported_rel f f' ik a :
    fk f' = rn_fkind rho lam (fk f) -> rrel eq (unsupported f ik a) (unsupported f' ik (rnl a)).
  Proof. intros Hk. unfold unsupported. rewrite Hk. destruct (fk f), ik; cbn [rn_fkind]; (reflexivity || apply rrel_err). Qed.

  Lemma push_then_rel g f f' ik n d d' :
    gok g -> fmrel g f f' -> drel d d' -> numtop g d d' -> (is_option d = true -> rho n = n) ->
    rrel (fmrel g) (push_then f ik n d) (push_then f' ik (rho n) d').
  Proof.
    intros Hg Hf Hd Hn Ho. unfold push_then.
    apply (rrel_bind (fmrel g)); [now apply push_member_rel|]. intros fm fm' _ Hfm.
    apply (rrel_bind eq); [|intros _ _ _ _; exact Hfm]. rewrite (def_loc_rel d d' Hd). apply unsupported_rel, Hf.
  Qed.

  Lemma close_msg_rel gb a x fr fr' :
    fmrel gb fr fr' -> gcond g0 gb (field_numbers (rev (fmem fr))) ->
    rrel drel (close_msg a x fr) (close_msg (rnl a) x fr').
  Proof.
    intros [[_ Hm] Hn] Hg. unfold close_msg. pose proof (Forall2_rev _ _ _ Hm) as Hr.
    assert (HR : R (TMsg x (msg_fields (rev (fmem fr)))) (TMsg x (msg_fields (rev (fmem fr'))))).
    { apply (R_msg gb); [now rewrite msg_fields_keys|]. rewrite !msg_fields_rev. now apply Forall2_rev. }
    rewrite !ty_nbits_eq, <- (R_nbits _ _ HR), (max_bytes_of_rel _ _ Hr).
    apply rrel_if; [apply rrel_err|]. apply rrel_if; [apply rrel_err|]. now constructor.
  Qed.

  Lemma close_enum_rel a n fr fr' :
    mrel (fmem fr) (fmem fr') -> drel (close_enum a n fr) (close_enum (rnl a) n fr').
  Proof.
    intros Hm. pose proof (Forall2_rev _ _ _ Hm) as Hr. unfold close_enum.
    rewrite (enum_values_rel _ _ Hr). now constructor.
  Qed.

  Section Items.
    Variable file : string.

    (* [itrel g it it']: it' is it renamed and relabelled; its number, if it is a field, goes through
       g; the fields of each message below it go through idz or through g0 where that is monotone *)
    Fixpoint itrel (g : Z -> Z) (it it' : item) {struct it} : Prop :=
      match it, it' with
      | IProto l n, IProto l' n' => l' = lam file l /\ n' = rho n
      | IImport l a f, IImport l' a' f' => l' = lam file l /\ a' = option_map rho a /\ f' = f
      | IOption l n v, IOption l' n' v' => l' = lam file l /\ n' = n /\ rho n = n /\ v' = rn_optx rho v
      | IConst l n v, IConst l' n' v' => l' = lam file l /\ n' = rho n /\ v' = rn_cvalx rho v
      | IAlias l n t, IAlias l' n' t' => l' = lam file l /\ n' = rho n /\ t' = rn_tyx rho t
      | IEnum l n s b, IEnum l' n' s' b' =>
          l' = lam file l /\ n' = rho n /\ s' = rn_sty rho s /\
          (fix go (b b' : list item) : Prop :=
             match b, b' with
             | [], [] => True
             | i :: r, i' :: r' => itrel idz i i' /\ go r r'
             | _, _ => False
             end) b b'
      | IMsg l n x b, IMsg l' n' x' b' =>
          l' = lam file l /\ n' = rho n /\ x' = x /\
          exists gb, gcond g0 gb (body_numbers b) /\
            (fix go (b b' : list item) : Prop :=
               match b, b' with
               | [], [] => True
               | i :: r, i' :: r' => itrel gb i i' /\ go r r'
               | _, _ => False
               end) b b'
      | IField l t n k, IField l' t' n' k' => l' = lam file l /\ t' = rn_tyx rho t /\ n' = rho n /\ k' = g k
      | IEnumField l n v, IEnumField l' n' v' => l' = lam file l /\ n' = rho n /\ v' = v
      | _, _ => False
      end.

    Fixpoint itsrel (g : Z -> Z) (b b' : list item) : Prop :=
      match b, b' with
      | [], [] => True
      | i :: r, i' :: r' => itrel g i i' /\ itsrel g r r'
      | _, _ => False
      end.

    Lemma itsrel_fix g b : forall b',
      (fix go (b b' : list item) : Prop :=
         match b, b' with
         | [], [] => True
         | i :: r, i' :: r' => itrel g i i' /\ go r r'
         | _, _ => False
         end) b b' <-> itsrel g b b'.
    Proof. induction b as [|i r IH]; intros [|i' r']; cbn [itsrel]; try tauto. now rewrite IH. Qed.

    Variable pc pc' : list string -> string -> res def.
    Variable kf kf' : string -> bool.
    Hypothesis Hkf : forall f, kf' f = kf f.
    Variable trad : bool.
    Variable fstack : list string.
    Hypothesis Hpc : forall f, rrel drel (pc fstack f) (pc' fstack f).
    Hypothesis Hpc_proto : forall stk f d, pc stk f = Ok d -> exists f1 n m, d = DProto f1 n m.

    Notation PI := (proc_item pc kf trad file fstack).
    Notation PI' := (proc_item pc' kf' trad file fstack).
    Notation PIS := (proc_items pc kf trad file fstack).
    Notation PIS' := (proc_items pc' kf' trad file fstack).

    Lemma proc_items_numbers outer body cur fr :
      PIS outer cur body = Ok fr -> field_numbers (fmem fr) = rev (body_numbers body) ++ field_numbers (fmem cur).
    Proof.
      revert cur. induction body as [|i r IH]; intros cur H; cbn [proc_items] in H; [now inversion H|].
      apply bind_ok in H. destruct H as (fm & Hi & Hr). rewrite (IH _ Hr).
      unfold body_numbers. cbn [flat_map]. fold (body_numbers r). rewrite rev_app_distr, <- app_assoc. f_equal.
      (* what a statement adds to the frame is read off item_ok's last conjunct [cur' = ...] *)
      apply proc_item_ok in Hi. destruct i; cbn [item_ok] in Hi; cbv zeta in Hi; decompose [ex and] Hi; subst; try reflexivity.
      match goal with Hv : pc _ _ = Ok _ |- _ => destruct (Hpc_proto _ _ _ Hv) as (f1 & n1 & m1 & ->) end. reflexivity.
    Qed.

    Lemma fmrel_empty g k : fmrel g (mkframe k []) (mkframe (rn_fkind rho lam k) []).
    Proof. split; [split; [reflexivity|constructor]|constructor]. Qed.

    Lemma lex_rel A B (Q : A -> B -> Prop) l s :
      rrel Q (lex_then_grammar file l s) (lex_then_grammar file (lam file l) (rn_sty rho s)).
    Proof. destruct s; cbn [rn_sty lex_then_grammar]; try apply rrel_err; apply rrel_if; apply rrel_err. Qed.

    Lemma proc_rel :
      (forall it it' g outer outer' cur cur',
         gok g -> itrel g it it' -> srel outer outer' -> fmrel g cur cur' ->
         rrel (fmrel g) (PI outer cur it) (PI' outer' cur' it')) /\
      (forall its its' g outer outer' cur cur',
         gok g -> itsrel g its its' -> srel outer outer' -> fmrel g cur cur' ->
         rrel (fmrel g) (PIS outer cur its) (PIS' outer' cur' its')).
    Proof.
      apply item_list_ind;
        [intros l nm|intros l a gf|intros l nm v|intros l nm v|intros l nm t|intros l nm b body IH
        |intros l nm x body IH|intros l t nm k|intros l nm v| |];
        [intros it' g outer outer' cur cur' Hg Ht Ho Hc; destruct it'; cbn [itrel] in Ht; try contradiction;
         pose proof Hc as [[Hk Hm] Hf];
         assert (Hst : srel (cur :: outer) (cur' :: outer')) by (constructor; [split; assumption|exact Ho])..| |].
      - (* proto *)
        destruct Ht as [-> ->]. cbn [proc_item]. rewrite Hk.
        destruct (fk cur); cbn [rn_fkind]; try apply rrel_err. split; [split; [reflexivity|exact Hm]|exact Hf].
      - (* import *)
        destruct Ht as [-> [-> ->]]. cbn [proc_item]. rewrite Hkf.
        destruct (negb (kf gf)); [cbn [rrel]; now rewrite lam0|]. apply rrel_if; [apply rrel_err|].
        destruct (last_frame_rel cur cur' outer outer' (conj Hk Hm) Ho) as [_ Hlm].
        rewrite (imported_files_rel _ _ Hlm). apply rrel_if; [apply rrel_err|].
        apply (rrel_bind drel); [apply Hpc|]. intros child child' Ep Hd.
        destruct (Hpc_proto _ _ _ Ep) as [cf [cn [cm ->]]]. inversion Hd as [| | | |? ? ? cm' Hcm| | |]; subst.
        assert (En : match option_map rho a with Some n => n | None => rho cn end =
                     rho (match a with Some n => n | None => cn end)) by (destruct a; reflexivity).
        rewrite En, (has_name_rel _ _ _ Hlm). apply rrel_if; [apply rrel_err|].
        apply (rrel_bind (fmrel g)); [apply push_member_rel; try assumption; [exact I|discriminate]|].
        intros fm fm' _ Hfm. rewrite Hk. destruct (fk cur); cbn [rn_fkind]; (exact Hfm || apply rrel_err).
      - (* option *)
        destruct Ht as [-> [-> [Hn ->]]]. cbn [proc_item].
        apply (rrel_bind eq); [now apply eval_optx_rel|]. intros cv ? _ <-.
        rewrite <- Hn at 2. apply push_then_rel; try assumption; [exact (ROption (mkloc file l) cv)|exact I|now intros _].
      - (* const *)
        destruct Ht as [-> [-> ->]]. cbn [proc_item].
        apply (rrel_bind eq); [now apply eval_cvalx_rel|]. intros cv ? _ <-.
        apply push_then_rel; try assumption; [exact (RConst (mkloc file l) cv)|exact I|discriminate].
      - (* alias *)
        destruct Ht as [-> [-> ->]]. cbn [proc_item].
        apply (rrel_bind trrel); [now apply resolve_tyx_rel|]. intros tr tr' _ [Ht Hl].
        assert (E : rrel (fmrel g) (push_then cur IKAlias nm (DAlias (mkloc file l) (fst tr) (snd tr)))
                      (push_then cur' IKAlias (rho nm) (DAlias (mkloc file (lam file l)) (fst tr') (snd tr'))))
          by (apply push_then_rel; try assumption; [rewrite Hl; exact (RAlias (mkloc file l) _ _ _ Ht)|exact I|discriminate]).
        destruct t as [[| | | |p]|]; cbn [rn_tyx rn_sty]; try exact E. apply rrel_err.
      - (* enum *)
        destruct Ht as [-> [-> [-> Hl]]]. apply itsrel_fix in Hl.
        destruct b as [| |w|w|p]; try apply (lex_rel _ _ _ l).
        cbn [rn_sty]. rewrite !proc_item_enum. apply rrel_if; [apply rrel_err|].
        apply (rrel_bind (fmrel idz)).
        { apply IH; [now left|exact Hl|exact Hst|apply (fmrel_empty idz (FEnum (mkloc file l) w))]. }
        intros fr fr' _ [[_ Hm'] _].
        apply push_then_rel; try assumption; [|exact I|discriminate]. now apply (close_enum_rel (mkloc file l)).
      - (* message *)
        destruct Ht as [-> [-> [-> [gb [Hgc Hl]]]]]. apply itsrel_fix in Hl.
        rewrite !proc_item_msg. apply rrel_if; [apply rrel_err|].
        assert (Hgb : gok gb) by (destruct Hgc as [->|[-> _]]; [now left|now right]).
        apply (rrel_bind (fmrel gb)).
        { apply IH; [exact Hgb|exact Hl|exact Hst|apply (fmrel_empty gb (FMsg (mkloc file l) x))]. }
        intros fr fr' Eb Hfr.
        apply (rrel_bind drel).
        { apply (close_msg_rel gb (mkloc file l)); [exact Hfr|].
          apply proc_items_numbers in Eb. cbn [fmem] in Eb. unfold field_numbers at 2 in Eb. cbn [flat_map] in Eb.
          rewrite app_nil_r in Eb. rewrite <- msg_fields_keys, msg_fields_rev, map_rev, msg_fields_keys, Eb, rev_involutive.
          exact Hgc. }
        intros d d' Ec Hd. apply close_msg_fields in Ec. subst d.
        apply push_then_rel; try assumption; [exact I|discriminate].
      - (* field *)
        destruct Ht as [-> [-> [-> ->]]]. cbn [proc_item]. unfold is_proto_frame. rewrite Hk.
        destruct (fk cur) eqn:Efk; cbn [rn_fkind].
        { replace (tyx_head (rn_tyx rho t)) with (rn_sty rho (tyx_head t)) by (now destruct t). apply lex_rel. }
        all: apply (rrel_bind trrel); [now apply resolve_tyx_rel|]; intros tr tr' _ [Ht Hl];
             rewrite (gok_num g Hg); apply rrel_if; [apply rrel_err|];
             apply push_then_rel; try assumption; [|reflexivity|discriminate];
             rewrite Hl; exact (RField (mkloc file l) g k _ _ _ Hg Ht).
      - (* enum member *)
        destruct Ht as [-> [-> ->]]. cbn [proc_item]. unfold is_enum_frame. rewrite Hk.
        destruct (fk cur); cbn [rn_fkind negb]; try apply rrel_err.
        apply rrel_if; [apply rrel_err|]. apply push_member_rel; try assumption; [exact (REnumField (mkloc file l) v)|exact I|discriminate].
      - intros [|i' r'] g outer outer' cur cur' _ Hl _ Hc; [exact Hc|contradiction].
      - intros i r Hi Hr [|i' r'] g outer outer' cur cur' Hg Hl Ho Hc; [contradiction|].
        destruct Hl as [Hl1 Hl2]. cbn [proc_items].
        apply (rrel_bind (fmrel g)); [now apply Hi|]. intros fm fm' _ Hfm. now apply Hr.
    Qed.
  End Items.

  Definition filesrel : files -> files -> Prop :=
    Forall2 (fun a a' => fst a' = fst a /\ itsrel (fst a) idz (snd a) (snd a')).

  Lemma filesrel_assoc fs fs' f : filesrel fs fs' -> orel (itsrel f idz) (assoc f fs) (assoc f fs').
  Proof. exact (Forall2_assoc (fun s => s) (fun g => itsrel g idz) f fs fs' (fun a b H => H)). Qed.

  Lemma filesrel_known fs fs' f : filesrel fs fs' -> known fs' f = known fs f.
  Proof. intros H. pose proof (filesrel_assoc fs fs' f H) as Ha. unfold known. destruct (assoc f fs), (assoc f fs'); cbn in Ha; try contradiction; reflexivity. Qed.

  Lemma filesrel_length fs fs' : filesrel fs fs' -> List.length fs' = List.length fs.
  Proof. induction 1 as [|a a' r r' _ _ IH]; [reflexivity|]. cbn [List.length]. now rewrite IH. Qed.

  Theorem parse_file_rel fs fs' trad : filesrel fs fs' -> forall n fstack f,
    rrel drel (parse_file n fs trad fstack f) (parse_file n fs' trad fstack f).
  Proof.
    intros Hf. induction n as [|n IH]; intros fstack f; cbn [parse_file]; [cbn [rrel]; now rewrite lam0|].
    pose proof (filesrel_assoc fs fs' f Hf) as Ha.
    destruct (assoc f fs) as [its|], (assoc f fs') as [its'|]; cbn in Ha; try contradiction; [|cbn [rrel]; now rewrite lam0].
    apply (rrel_bind (fmrel idz)).
    { apply (proj2 (proc_rel f (parse_file n fs trad) (parse_file n fs' trad) (known fs) (known fs')
                      (fun g => filesrel_known fs fs' g Hf) trad (f :: fstack) (fun g => IH (f :: fstack) g)
                      (parse_file_proto fs trad n)));
        [now left|exact Ha|constructor|apply (fmrel_empty idz (FProto None))]. }
    intros fr fr' _ [[Hk Hm] _]. rewrite Hk.
    destruct (fk fr) as [[nm|]| |]; cbn [rn_fkind option_map rrel]; try (now rewrite lam0).
    constructor. now apply Forall2_rev.
  Qed.

  Theorem check_rel fs fs' root trad : filesrel fs fs' -> rrel drel (check fs root trad) (check fs' root trad).
  Proof. intros H. unfold check. rewrite (filesrel_length fs fs' H). now apply parse_file_rel. Qed.

  Lemma msg_ty_at_rel e e' p :
    drel e e' -> orel R (msg_ty_at (Ok e) p) (msg_ty_at (Ok e') (rnp p)).
  Proof.
    intros Hd. destruct Hd as [| | | |? ? mem mem0 Hm| | |]; try exact I. cbn [msg_ty_at].
    pose proof (get_member_rel p _ _ Hm) as Hg.
    destruct (get_member mem p) as [d|], (get_member mem0 (rnp p)) as [d'|]; cbn in Hg; try contradiction; [|exact I].
    destruct Hg; try exact I. assumption.
  Qed.
End Rel.

Section Top.
  Variable rho : string -> string.
  Variable lam : string -> Z -> Z.
  Hypothesis rho_inj : forall a b, rho a = rho b -> a = b.
  Hypothesis lam0 : forall f, lam f 0 = 0.
  Hypothesis rho_max_bytes : rho GenFront.max_bytes_option_name = GenFront.max_bytes_option_name.

  Lemma eq_msg gb x (fs fs' : list (Z * ty)) :
    gcond idz gb (map fst fs) -> Forall2 (nrel gb eq) fs fs' -> TMsg x fs = TMsg x fs'.
  Proof.
    intros Hg H. f_equal. assert (E : gb = idz) by (destruct Hg as [E|[E _]]; exact E). subst gb. clear Hg.
    induction H as [|[k t] [k' t'] l l' [Hk Ht] _ IH]; [reflexivity|]. cbn in Hk, Ht. unfold idz in Hk. now subst.
  Qed.

  Notation drel0 := (drel rho lam eq idz).
  Notation itrel0 := (itrel rho lam idz).

  Lemma drel_graph : forall d d', drel0 d d' -> d' = rn_def rho lam d.
  Proof.
    fix IH 1. intros d d' H. destruct d; inversion H; subst; try reflexivity.
    (* the three scopes: members pairwise, by the outer induction *)
    1-3: match goal with Hm : Forall2 _ ?m ?m' |- _ =>
           assert (Em : m' = rn_mem rho lam m)
             by (clear - IH Hm; revert m' Hm; induction m as [|nd r IHr]; intros m' Hm;
                 inversion Hm as [|? nd' ? r' [E D] Hr]; subst; [reflexivity|]; cbn [rn_mem map]; f_equal;
                 [destruct nd'; cbn [fst snd] in *; subst; f_equal; now apply IH|now apply IHr])
         end; subst; (rewrite rn_def_enum || rewrite rn_def_msg || rewrite rn_def_proto); reflexivity.
    match goal with Hg : gok _ _ |- _ => destruct Hg as [->| ->] end; reflexivity.
  Qed.

  Lemma itrel_rn file :
    (forall it, opt_fixed rho it -> itrel0 file idz it (rn_item rho lam file it)) /\
    (forall its, opt_fixed_all rho its -> itsrel rho lam idz file idz its (map (rn_item rho lam file) its)).
  Proof.
    apply item_list_ind; cbn [rn_item itrel opt_fixed]; try (intros; now repeat split).
    - intros l n b body IH H. repeat split. apply itsrel_fix. now apply IH.
    - intros l n x body IH H. repeat split. exists idz. split; [now left|]. apply itsrel_fix. now apply IH.
    - intros i r Hi Hr [H1 H2]. cbn [map itsrel]. split; [now apply Hi|now apply Hr].
  Qed.

  Lemma filesrel_rn fs : opts_fixed rho fs -> filesrel rho lam idz fs (rn_files rho lam fs).
  Proof.
    induction fs as [|[k its] r IH]; intros H; constructor.
    - split; [reflexivity|]. apply (proj2 (itrel_rn k)), opt_fixed_all_in. intros it Hit. apply (H k its it); [now left|exact Hit].
    - apply IH. intros k' its' it Hk. apply (H k' its' it). now right.
  Qed.

  Lemma check_rel_rn fs root trad :
    opts_fixed rho fs -> rrel lam drel0 (check fs root trad) (check (rn_files rho lam fs) root trad).
  Proof.
    intros Ho.
    exact (check_rel rho lam eq idz rho_inj lam0 rho_max_bytes (fun a b H => H) (fun k => eq_refl)
             (fun t => eq_refl) (fun t t' H => f_equal nbits H) (fun t t' H => f_equal TAlias H)
             (fun x c t t' H => f_equal (TArr x c) H) eq_msg fs _ root trad (filesrel_rn fs Ho)).
  Qed.

  Theorem check_rn fs root trad :
    opts_fixed rho fs ->
    check (rn_files rho lam fs) root trad = rn_res lam (rn_def rho lam) (check fs root trad).
  Proof.
    intros Ho. pose proof (check_rel_rn fs root trad Ho) as H.
    destruct (check fs root trad) as [e|k f l], (check (rn_files rho lam fs) root trad) as [e'|k' f' l'];
      cbn [rrel rn_res] in H |- *; try contradiction.
    - f_equal. now apply drel_graph.
    - destruct H as [-> [-> ->]]. reflexivity.
  Qed.

  (* the SAME resolved type: hence the same bytes for every value, the value map being the identity *)
  Theorem rn_preserves_types fs root trad e :
    opts_fixed rho fs ->
    check fs root trad = Ok e ->
    exists e', check (rn_files rho lam fs) root trad = Ok e' /\
               forall p, msg_ty_at (Ok e') (rn_path rho p) = msg_ty_at (Ok e) p.
  Proof.
    intros Hof H. pose proof (check_rel_rn fs root trad Hof) as Hr. rewrite H in Hr.
    destruct (check (rn_files rho lam fs) root trad) as [e'|]; [|contradiction].
    exists e'. split; [reflexivity|]. intros p.
    pose proof (msg_ty_at_rel rho lam eq idz rho_inj e e' p Hr) as Hm.
    destruct (msg_ty_at (Ok e) p), (msg_ty_at (Ok e') (rn_path rho p)); cbn in Hm; try contradiction; now subst.
  Qed.

  Theorem rn_preserves_rejection fs root trad k f l :
    opts_fixed rho fs ->
    check fs root trad = Err k f l ->
    check (rn_files rho lam fs) root trad = Err k f (lam f l).
  Proof. intros Hof H. rewrite (check_rn fs root trad Hof), H. reflexivity. Qed.
End Top.

Lemma opt_fixed_id it : opt_fixed (fun s => s) it.
Proof.
  apply (item_list_ind (opt_fixed (fun s => s)) (opt_fixed_all (fun s => s))); cbn [opt_fixed opt_fixed_all]; auto.
Qed.

Definition relabel (lam : string -> Z -> Z) : files -> files := rn_files (fun s => s) lam.

Theorem trivia_preserves_types lam fs root trad e :
  (forall f, lam f 0 = 0) ->
  check fs root trad = Ok e ->
  exists e', check (relabel lam fs) root trad = Ok e' /\
             forall p, msg_ty_at (Ok e') p = msg_ty_at (Ok e) p.
Proof.
  intros L0 H.
  destruct (rn_preserves_types (fun s => s) lam (fun a b E => E) L0 eq_refl fs root trad e) as [e' [H1 H2]].
  - intros k its it _ _. apply opt_fixed_id.
  - exact H.
  - exists e'. split; [exact H1|]. intros p. specialize (H2 p). unfold rn_path in H2. now rewrite map_id in H2.
Qed.

Definition rename (rho : string -> string) : files -> files := rn_files rho (fun _ l => l).

Theorem rename_preserves_types rho fs root trad e :
  (forall a b, rho a = rho b -> a = b) ->
  rho GenFront.max_bytes_option_name = GenFront.max_bytes_option_name ->
  opts_fixed rho fs ->
  check fs root trad = Ok e ->
  exists e', check (rename rho fs) root trad = Ok e' /\
             forall p, msg_ty_at (Ok e') (map rho p) = msg_ty_at (Ok e) p.
Proof.
  intros Hi Hm Hof H. exact (rn_preserves_types rho (fun _ l => l) Hi (fun _ => eq_refl) Hm fs root trad e Hof H).
Qed.
