(* MemoRules — decision procedures over the tables that tools/translate_memo.py extracts from
   the compiler's source (coq/gen/GenMemo.v), and the proof that the CURRENT tables pass.

   These are the static half of "purity of the generator's decision inputs":
     * every node class that can be frozen is hashed by identity (safe_hash applied after
       dataclass), so a memo key is the node itself;
     * a cached method reads its own node downwards only (members, type, element_type, plain
       attributes): never the enclosing scopes, the bound proto's content or anything dynamic;
       a method under the unconditional functools.cache reads class-level data only
       (method_ok: this is what entitles MemoProofs to take a cached method for an arbitrary
       function F of its node's view, with F_always for the functools.cache ones);
     * the generator reads no process-level input (cwd, environment, clock, randomness, id(),
       hash(), set iteration, the file system / the output directory) outside an explicit allow-list,
       and neither does the front end (source path aside), and the compiler keeps no
       mutable state across compilations outside an explicit allow-list.
   The scan is syntactic: it bounds where such inputs can enter, it does not prove their absence
   from data flowing through allowed sites (that is what the sampled process-level runs cover). *)
From Coq Require Import Bool List String ZArith.
From BPGen Require Import GenMemo.
Import ListNotations.
Open Scope string_scope.

Definition str_in (s : string) (l : list string) : bool := existsb (String.eqb s) l.
Definition pair_in (p : string * string) (l : list (string * string)) : bool :=
  existsb (fun q => String.eqb (fst p) (fst q) && String.eqb (snd p) (snd q)) l.

Definition is_frozen_dec (d : string) : bool :=
  String.eqb d "frozen" || String.eqb d "frozen(post_init=False)".
Definition mentions_frozen (d : string) : bool := String.prefix "frozen" d.

(* decorators are listed outermost first: frozen must come before (be applied after) dataclass *)
Fixpoint frozen_then_dataclass (ds : list string) (seen_frozen : bool) : bool :=
  match ds with
  | [] => false
  | d :: t => if String.eqb d "dataclass" then seen_frozen
              else if is_frozen_dec d then frozen_then_dataclass t true
              else if mentions_frozen d then false
              else frozen_then_dataclass t seen_frozen
  end.

Definition class_ok (c : string * list string * list string) : bool :=
  match c with
  | (_, ds, _) =>
      if existsb mentions_frozen ds then frozen_then_dataclass ds false
      else (* never frozen: either a plain dataclass or dataclass(frozen=True) value object *)
        forallb (fun d => String.eqb d "dataclass" || String.eqb d "dataclass(frozen=True)" ||
                          String.eqb d "final") ds
  end.

Definition classes_ok : bool := forallb class_ok ast_classes.

Definition forbidden_read (r : string) : bool :=
  String.prefix "scope_stack" r || String.prefix "references" r ||
  String.prefix "_bound." r || String.prefix "_bound[" r ||
  String.prefix "bound." r || String.prefix "bound[" r ||
  String.prefix "<dynamic" r || String.prefix "__dict__" r.

Definition method_ok (m : string * string * string * list string) : bool :=
  match m with
  | (_, _, kind, reads) =>
      if String.eqb kind "cache_if_frozen" then negb (existsb forbidden_read reads)
      else if String.eqb kind "cache" then forallb (String.eqb "__option_descriptors__") reads
      else false
  end.

Definition methods_ok : bool := forallb method_ok cached_methods.

(* why each allowed site cannot influence generated text:
   format_out_filename   : only os.path.basename(proto.filepath) minus extension names the output file;
   get_outdir_default    : chooses the directory the file is written to, never its content;
   Renderer.render / write_file : open() for writing the output;
   safe_hash.__hash__    : identity hash used as dict key only; no iteration over a hash-ordered
                           container exists in the generator (no set display/comprehension, no set()) *)
Definition allowed_sites : list (string * string) := [
  ("renderer/formatter.py:Formatter.format_out_filename", "read .filepath");
  ("renderer/renderer.py:Renderer.get_outdir_default", "read .filepath");
  ("renderer/renderer.py:Renderer.get_outdir_default", "os.path.abspath");
  ("renderer/renderer.py:Renderer.get_outdir_default", "os.getcwd");
  ("renderer/renderer.py:Renderer.render", "open(w)");
  ("utils.py:safe_hash.__hash__", "hash()");
  ("utils.py:safe_hash.__hash__", "id()");
  ("utils.py:write_file", "open(w)")
].
(* the front end, source path aside: the source file is read; the working directory is consulted
   only when a STRING is parsed (import_base, below); samefile compares paths of files it opens *)
Definition allowed_frontend_sites : list (string * string) := [
  ("parser.py:Parser.parse", "open(read)");
  ("parser.py:Parser._get_child_filepath", "os.getcwd");
  ("parser.py:Parser._check_parsing_file", "os.path.samefile");
  ("parser.py:Parser.p_import", "os.path.samefile")
].
(* read-only tables; _TYPE_MISSING / _UINT_MISSING are placeholder types shared by all compilations
   (default of Array.element_type / Enum.type, replaced by the parser; _UINT_MISSING is frozen,
   _TYPE_MISSING is a plain Type that nothing assigns to): they are outside the disjoint-names
   hypothesis of C18_interleaving and harmless only because they are never mutated *)
Definition allowed_globals : list (string * string) := [
  ("_ast.py:<module>", "module-level instance _TYPE_MISSING = Type(...)");
  ("_ast.py:<module>", "module-level instance _UINT_MISSING = Uint(...)");
  ("lexer.py:Lexer", "class-level mutable container escaping_chars");
  ("renderer/impls/__init__.py:<module>", "module-level mutable container renderer_registry")
].

Definition sites_ok : bool :=
  forallb (fun p => pair_in p allowed_sites) impure_sites &&
  forallb (fun p => pair_in p allowed_frontend_sites) frontend_sites.
Definition globals_ok : bool := forallb (fun p => pair_in p allowed_globals) mutable_globals.
Definition no_other_cache_users : bool :=
  match other_cache_users with [] => true | _ => false end.

Lemma rules_reject :
  class_ok ("X", ["dataclass"; "frozen"], ["Node"]) = false /\
  class_ok ("X", ["frozen(safe_hash=False)"; "dataclass"], ["Node"]) = false /\
  method_ok ("X", "f", "cache_if_frozen", ["members"; "scope_stack[]"]) = false /\
  method_ok ("X", "f", "cache_if_frozen", ["_bound"; "_bound.members"]) = false /\
  method_ok ("X", "f", "cache", ["members"]) = false /\
  pair_in ("renderer/impls/c/renderer_c.py:X.render", "os.getcwd") allowed_sites = false.
Proof. vm_compute. repeat split; reflexivity. Qed.

Lemma decision_inputs_hold :
  classes_ok = true /\ methods_ok = true /\
  sites_ok = true /\ globals_ok = true /\ no_other_cache_users = true.
Proof. vm_compute. repeat split; reflexivity. Qed.

(* the environment never decides what is compiled or what is left in the output directory:
   a relative import of a FILE being compiled is resolved against that file's directory (the
   working directory is used only when a string is parsed), an absolute one is used as written;
   Renderer.render writes its output without looking at what the output directory holds *)
Lemma environment_decisions :
  (forall f, import_base true f = 0%Z) /\ import_base false true = 1%Z /\ import_base false false = 2%Z /\
  render_writes_unconditionally = true.
Proof. split; [intros []; reflexivity|]. repeat split; reflexivity. Qed.
