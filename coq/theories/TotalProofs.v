(* TotalProofs.v — C09: every partial operation of Total.v's model (escape loop, int()/str() conversions,
   constant arithmetic, action indices, error hooks, options, renderers, source reading) ends in Ok or in
   a reported ParserError under the stated guards.  Sections follow Total.v's numbering. *)
From Coq Require Import String Ascii ZArith List Bool Lia.
From BP Require Import ListFacts Re ReLinear TotalBase EscapeLoop Schema Total.
From BPGen Require Import GenC09.
Import ListNotations.

Open Scope Z_scope.

Definition other_class : re := RIn true [CLit 92; CLit 10].   (* [^\\\n] *)

Lemma ascii_eqb_nat c k : (k < 256)%nat -> Ascii.eqb c (ascii_of_nat k) = Nat.eqb (nat_of_ascii c) k.
Proof.
  intro Hk. destruct (Nat.eqb_spec (nat_of_ascii c) k) as [E|E].
  - apply Ascii.eqb_eq. rewrite <- E. symmetry. apply ascii_nat_embedding.
  - apply Ascii.eqb_neq. intro F. apply E. rewrite F. apply nat_ascii_embedding. exact Hk.
Qed.

Lemma other_class_spec c :
  atom_ok other_class c = negb (Ascii.eqb c BSLASH) && negb (Ascii.eqb c NEWLINE).
Proof.
  unfold other_class, BSLASH, NEWLINE. rewrite !ascii_eqb_nat by lia.
  cbn [atom_ok]. unfold in_class. cbn [existsb citem_has].
  destruct (Nat.eqb (nat_of_ascii c) 92), (Nat.eqb (nat_of_ascii c) 10); reflexivity.
Qed.

Lemma other_not_bslash c : atom_ok other_class c = true -> Ascii.eqb c (ascii_of_nat 92) = false.
Proof. rewrite other_class_spec. intro H. apply andb_true_iff in H. apply negb_true_iff. apply H. Qed.

Lemma other_not_newline c : atom_ok other_class c = true -> Ascii.eqb c NEWLINE = false.
Proof. rewrite other_class_spec. intro H. apply andb_true_iff in H. apply negb_true_iff. apply H. Qed.

Lemma other_class_intro c :
  Ascii.eqb c BSLASH = false -> Ascii.eqb c NEWLINE = false -> atom_ok other_class c = true.
Proof. intros H1 H2. rewrite other_class_spec, H1, H2. reflexivity. Qed.

Lemma any_class_intro d : Ascii.eqb d NEWLINE = false -> atom_ok RAny d = true.
Proof. unfold NEWLINE. rewrite ascii_eqb_nat by lia. intro H. cbn [atom_ok]. rewrite H. reflexivity. Qed.

Lemma char_class_eq k c : atom_ok (RChar k) c = true -> c = ascii_of_nat k.
Proof.
  intros H. cbn [atom_ok] in H. apply Nat.eqb_eq in H.
  rewrite <- (ascii_nat_embedding c). rewrite H. reflexivity.
Qed.

(* 1. the escape loop *)

Definition escape_pair : re := RSeq (RChar 92) RAny.
Definition body_re : re := RStar (RAlt other_class escape_pair).

Lemma string_literal_re_shape :
  string_literal_re = RSeq (RChar 34) (RSeq body_re (RChar 34)).
Proof. reflexivity. Qed.

Definition is_bslash (c : ascii) : bool := Ascii.eqb c (ascii_of_nat 92).
Definition loop_good := EscapeLoop.loop_good ascii.

Lemma table_mem_get (d : list (ascii * list ascii)) c :
  table_mem d c = true -> exists v, py_dict_get d c = Ok v.
Proof.
  unfold table_mem, py_dict_get. destruct (table_get d c) as [v|]; [eauto|discriminate].
Qed.

Lemma body_units body : matches body_re body -> units ascii is_bslash body.
Proof.
  unfold body_re. apply matches_star_ind; [constructor|]. intros s1 s2 H1 _ IH.
  apply matches_alt_inv in H1. destruct H1 as [H1|H1].
  - apply matches_atom_inv in H1; [|reflexivity]. destruct H1 as (c & -> & Hc).
    apply UChar; [exact (other_not_bslash c Hc)|exact IH].
  - unfold escape_pair in H1. apply matches_seq_inv in H1. destruct H1 as (a & b & -> & Ha & Hb).
    apply matches_atom_inv in Ha; [|reflexivity]. destruct Ha as (x & -> & Hx).
    apply matches_atom_inv in Hb; [|reflexivity]. destruct Hb as (d & -> & _).
    apply char_class_eq in Hx. subst x. apply UPair; [reflexivity|exact IH].
Qed.

Lemma string_literal_inv tv :
  matches string_literal_re tv ->
  exists body, tv = QUOTE :: body ++ [QUOTE] /\ matches body_re body.
Proof.
  rewrite string_literal_re_shape. intro H.
  apply matches_seq_inv in H. destruct H as (a & r & -> & Ha & Hr).
  apply matches_seq_inv in Hr. destruct Hr as (body & b & -> & Hb & Hq).
  apply matches_atom_inv in Ha; [|reflexivity]. destruct Ha as (x & -> & Hx).
  apply matches_atom_inv in Hq; [|reflexivity]. destruct Hq as (y & -> & Hy).
  apply char_class_eq in Hx. apply char_class_eq in Hy. subst.
  exists body. split; [reflexivity|assumption].
Qed.

(* on every string of the token language, whatever its length, the translated loop ends with a value or
   with InvalidEscapingChar: no IndexError, no KeyError, no fuel exhaustion *)
Theorem escape_loop_total tv :
  matches string_literal_re tv -> loop_good (unescape_token tv).
Proof.
  intro H. apply string_literal_inv in H. destruct H as (body & -> & Hb).
  exact (token_units ascii is_bslash _ _ escape_loop (fun _ _ _ _ => eq_refl)
           (table_mem_get escaping_chars) QUOTE body QUOTE (body_units body Hb)).
Qed.

Corollary escape_loop_total_b tv :
  str_token_ok tv = true -> loop_good (unescape_token tv).
Proof. unfold str_token_ok. rewrite re_matchb_spec. apply escape_loop_total. Qed.

Lemma scan_sound_aux : forall m s, length s = m -> forall n,
  scan_string_body s = Some n ->
  exists body, firstn n s = body ++ [QUOTE] /\ matches body_re body.
Proof.
  induction m as [m IH] using lt_wf_ind. intros s Hlen n Hs.
  destruct s as [|c r]; [discriminate|]. cbn [scan_string_body] in Hs.
  destruct (Ascii.eqb c QUOTE) eqn:Eq.
  - inversion Hs; subst n. apply Ascii.eqb_eq in Eq. subst c.
    exists []. split; [reflexivity|]. unfold body_re. constructor.
  - destruct (Ascii.eqb c BSLASH) eqn:Eb.
    + apply Ascii.eqb_eq in Eb. subst c. destruct r as [|d r']; [discriminate|].
      destruct (Ascii.eqb d NEWLINE) eqn:En; [discriminate|].
      destruct (scan_string_body r') as [k|] eqn:Ek; [|discriminate].
      cbn [option_map] in Hs. inversion Hs; subst n.
      destruct (IH (length r')) with (s := r') (n := k) as (body & Hf & Hm);
        [cbn [length] in Hlen; lia|reflexivity|assumption|].
      exists (BSLASH :: d :: body). split.
      * cbn [firstn]. rewrite Hf. reflexivity.
      * unfold body_re. change (BSLASH :: d :: body) with ([BSLASH; d] ++ body).
        constructor; [|exact Hm]. apply MAltR. unfold escape_pair.
        change [BSLASH; d] with ([BSLASH] ++ [d]). constructor.
        -- apply MAtom; reflexivity.
        -- apply MAtom; [reflexivity|]. apply any_class_intro. exact En.
    + destruct (Ascii.eqb c NEWLINE) eqn:En; [discriminate|].
      destruct (scan_string_body r) as [k|] eqn:Ek; [|discriminate].
      cbn [option_map] in Hs. inversion Hs; subst n.
      destruct (IH (length r)) with (s := r) (n := k) as (body & Hf & Hm);
        [cbn [length] in Hlen; lia|reflexivity|assumption|].
      exists (c :: body). split.
      * cbn [firstn]. rewrite Hf. reflexivity.
      * unfold body_re. change (c :: body) with ([c] ++ body).
        constructor; [|exact Hm]. apply MAltL. apply MAtom; [reflexivity|].
        apply other_class_intro; assumption.
Qed.

Lemma scan_sound rest n :
  scan_string_body rest = Some n ->
  matches string_literal_re (firstn (S n) (QUOTE :: rest)).
Proof.
  intro H. destruct (scan_sound_aux (length rest) rest eq_refl n H) as (body & Hf & Hm).
  cbn [firstn]. rewrite Hf. rewrite string_literal_re_shape.
  change (QUOTE :: body ++ [QUOTE]) with ([QUOTE] ++ (body ++ [QUOTE])).
  constructor; [apply MAtom; reflexivity|].
  constructor; [exact Hm|apply MAtom; reflexivity].
Qed.

Theorem lex_string_total text : is_crash (lex_string text) = false.
Proof.
  unfold lex_string. destruct text as [|q rest]; [reflexivity|].
  destruct (Ascii.eqb q QUOTE) eqn:Eq; [|reflexivity].
  apply Ascii.eqb_eq in Eq. subst q.
  destruct (scan_string_body rest) as [n|] eqn:Es; [|reflexivity].
  cbv zeta. pose proof (escape_loop_total _ (scan_sound rest n Es)) as [[v Hv]|Hv];
    rewrite Hv; reflexivity.
Qed.

(* 2. integer conversions *)

Definition dec_class : re := RIn false [CRange 48 57].
Definition hex_class : re := RIn false [CRange 48 57; CRange 97 102; CRange 65 70].

Definition is_some {A} (o : option A) : bool := match o with Some _ => true | None => false end.

(* a class all of whose characters are digits of the base: one sweep over the 256 characters per (base, class) *)
Lemma class_digit base cls :
  forallb (fun c => implb (atom_ok cls c) (is_some (digit_of base c))) (map ascii_of_nat (seq 0 256)) = true ->
  forall c, atom_ok cls c = true -> exists d, digit_of base c = Some d.
Proof.
  intros S c H. pose proof (ascii_sweep_impl _ _ S c H) as Hs. cbv beta in Hs.
  destruct (digit_of base c); [eauto|discriminate].
Qed.

Lemma dec_digit : forall c, atom_ok dec_class c = true -> exists d, digit_of 10 c = Some d.
Proof. apply class_digit. vm_compute. reflexivity. Qed.

Lemma hex_digit : forall c, atom_ok hex_class c = true -> exists d, digit_of 16 c = Some d.
Proof. apply class_digit. vm_compute. reflexivity. Qed.

Lemma star_class_forall a s :
  is_atom a = true -> matches (RStar a) s -> Forall (fun c => atom_ok a c = true) s.
Proof.
  intros Ha H.
  apply (matches_star_ind a (fun s => Forall (fun c => atom_ok a c = true) s)); [constructor| |exact H].
  intros s1 s2 H1 _ IH. apply matches_atom_inv in H1; [|exact Ha]. destruct H1 as (c & -> & Hc).
  constructor; assumption.
Qed.

Lemma plus_class_inv a s :
  is_atom a = true -> matches (RPlus a) s ->
  exists c r, s = c :: r /\ Forall (fun c => atom_ok a c = true) (c :: r).
Proof.
  intros Ha H. unfold RPlus in H. apply matches_seq_inv in H. destruct H as (s1 & s2 & -> & H1 & H2).
  apply matches_atom_inv in H1; [|exact Ha]. destruct H1 as (c & -> & Hc).
  exists c, s2. split; [reflexivity|]. constructor; [exact Hc|]. apply star_class_forall; assumption.
Qed.

Lemma digits_value_total base (cls : re) :
  (forall c, atom_ok cls c = true -> exists d, digit_of base c = Some d) ->
  forall s acc, Forall (fun c => atom_ok cls c = true) s -> exists z, digits_value base acc s = Some z.
Proof.
  intros Hd s. induction s as [|c r IH]; intros acc HF; [eexists; reflexivity|].
  inversion HF as [|? ? Hc Hr]; subst. destruct (Hd c Hc) as (d & Hdc).
  cbn [digits_value]. rewrite Hdc. apply IH. exact Hr.
Qed.

(* int(s0, base) on a non-empty string of digits of the base (after an optional 0x): only CPython's digit
   limit, which does not apply to a power-of-two base, separates Ok from ValueError *)
Lemma py_int_digits base maxd (cls : re) s0 c r :
  (forall c, atom_ok cls c = true -> exists d, digit_of base c = Some d) ->
  strip_0x base s0 = c :: r -> Forall (fun c => atom_ok cls c = true) (c :: r) ->
  exists z, py_int base maxd s0
            = if negb (is_pow2_base base) && (maxd <? zlen (c :: r)) then Crash ValueError else Ok z.
Proof.
  intros Hd Hs HF. destruct (digits_value_total base cls Hd (c :: r) 0 HF) as (z & Hz). exists z.
  unfold py_int. rewrite Hs, Hz. reflexivity.
Qed.

Lemma strip_0x_10 s : strip_0x 10 s = s.
Proof. destruct s as [|a [|b r]]; reflexivity. Qed.

Lemma py_int_dec s :
  (exists c r, s = c :: r /\ Forall (fun c => atom_ok dec_class c = true) (c :: r)) ->
  (zlen s <= py_int_max_str_digits -> exists z, py_int 10 py_int_max_str_digits s = Ok z) /\
  (py_int_max_str_digits < zlen s -> py_int 10 py_int_max_str_digits s = Crash ValueError).
Proof.
  intros (c & r & -> & HF).
  destruct (py_int_digits 10 py_int_max_str_digits dec_class _ c r dec_digit (strip_0x_10 _) HF) as (z & ->).
  change (negb (is_pow2_base 10)) with true. cbn [andb].
  destruct (Z.ltb_spec py_int_max_str_digits (zlen (c :: r))); split; intro; try lia; eauto.
Qed.

Lemma skip_prefix_class (pre : list nat) (a : re) tv :
  matches (fold_right (fun k r => RSeq (RChar k) r) a pre) tv ->
  exists rest, tv = map ascii_of_nat pre ++ rest /\ matches a rest.
Proof.
  revert tv. induction pre as [|k pre IH]; intros tv H; cbn [fold_right map app] in *.
  - exists tv. auto.
  - apply matches_seq_inv in H. destruct H as (s1 & s2 & -> & H1 & H2).
    apply matches_atom_inv in H1; [|reflexivity]. destruct H1 as (c & -> & Hc).
    apply char_class_eq in Hc. subst c.
    destruct (IH s2 H2) as (rest & -> & Hr). exists rest. auto.
Qed.

(* int(t.value[k:]) in a rule whose regex is a k-letter word followed by [0-9]+ (k = 0: t_INT_LITERAL,
   "uint": t_UINT_TYPE, "int": t_INT_TYPE): the digit limit, counted on the digits alone, decides *)
Lemma cap_rule_spec (pre : list nat) tv :
  matches (fold_right (fun k r => RSeq (RChar k) r) (RPlus dec_class) pre) tv ->
  (zlen tv <= py_int_max_str_digits + zlen pre ->
     exists z, py_int 10 py_int_max_str_digits (py_slice_from (length pre) tv) = Ok z) /\
  (py_int_max_str_digits + zlen pre < zlen tv ->
     py_int 10 py_int_max_str_digits (py_slice_from (length pre) tv) = Crash ValueError).
Proof.
  intros H. apply skip_prefix_class in H. destruct H as (ds & -> & Hd).
  assert (Hs : py_slice_from (length pre) (map ascii_of_nat pre ++ ds) = ds).
  { unfold py_slice_from. rewrite <- (map_length ascii_of_nat pre). apply skipn_app_l. }
  rewrite Hs.
  destruct (py_int_dec ds (plus_class_inv dec_class ds eq_refl Hd)) as [H1 H2].
  assert (Hz : zlen (map ascii_of_nat pre) = zlen pre) by (unfold zlen; rewrite map_length; reflexivity).
  rewrite zlen_app, Hz.
  split; intro Hl; [apply H1|apply H2]; lia.
Qed.

Theorem int_literal_total tv :
  matches int_literal_re tv -> zlen tv <= py_int_max_str_digits -> exists z, lex_int_literal tv = Ok z.
Proof. intros H Hl. exact (proj1 (cap_rule_spec [] tv H) Hl). Qed.

(* 117 105 110 116 = "uint" *)
Theorem uint_type_total tv :
  matches uint_type_re tv -> zlen tv <= py_int_max_str_digits + 4 -> exists z, lex_uint_cap tv = Ok z.
Proof. intros H Hl. exact (proj1 (cap_rule_spec [117; 105; 110; 116]%nat tv H) Hl). Qed.

(* 105 110 116 = "int" *)
Theorem int_type_total tv :
  matches int_type_re tv -> zlen tv <= py_int_max_str_digits + 3 -> exists z, lex_int_cap tv = Ok z.
Proof. intros H Hl. exact (proj1 (cap_rule_spec [105; 110; 116]%nat tv H) Hl). Qed.

(* int(s, 16): a power-of-two base has no digit limit — total on the token language *)
Theorem hex_literal_total tv :
  matches hex_literal_re tv -> exists z, lex_hex_literal tv = Ok z.
Proof.
  intro H. apply (skip_prefix_class [48; 120]%nat (RPlus hex_class)) in H.
  destruct H as (ds & -> & Hd).
  apply (plus_class_inv hex_class ds eq_refl) in Hd. destruct Hd as (c & r & -> & HF).
  exact (py_int_digits 16 py_int_max_str_digits hex_class (asc [48; 120]%nat ++ c :: r) c r hex_digit eq_refl HF).
Qed.

Lemma max_digits_nonneg : 0 <= py_int_max_str_digits.
Proof. vm_compute. discriminate. Qed.

Lemma str_int_small z : Z.abs z < 10 ^ py_int_max_str_digits -> str_int z = Ok tt.
Proof.
  intro H. unfold str_int, py_str_int. rewrite (pow10_spec _ max_digits_nonneg).
  apply Z.ltb_lt in H. rewrite H. reflexivity.
Qed.

Lemma str_int_big z : 10 ^ py_int_max_str_digits <= Z.abs z -> str_int z = Crash ValueError.
Proof.
  intro H. unfold str_int, py_str_int. rewrite (pow10_spec _ max_digits_nonneg).
  apply Z.ltb_ge in H. rewrite H. reflexivity.
Qed.

(* 3. constant expressions *)

Lemma cref_no_crash env n : is_crash (cref env n) = false.
Proof. unfold cref. destruct (clookup env n) as [[z|b|s|]|]; reflexivity. Qed.

Lemma bind_no_crash {A B} (x : outcome A) (f : A -> outcome B) :
  is_crash x = false -> (forall a, x = Ok a -> is_crash (f a) = false) -> is_crash (bind x f) = false.
Proof. intros Hx Hf. destruct x; cbn [bind]; [apply Hf; reflexivity|reflexivity|discriminate]. Qed.

(* the arithmetic actions never crash (a zero divisor is a CalculationExpressionError) *)
Theorem ceval_total env e : is_crash (ceval env e) = false.
Proof.
  induction e as [z|n|a IHa b IHb|a IHa b IHb|a IHa b IHb|a IHa b IHb|a IHa]; cbn [ceval].
  - reflexivity.
  - apply cref_no_crash.
  - apply bind_no_crash; [auto|]. intros x _. apply bind_no_crash; [auto|]. intros y _. reflexivity.
  - apply bind_no_crash; [auto|]. intros x _. apply bind_no_crash; [auto|]. intros y _. reflexivity.
  - apply bind_no_crash; [auto|]. intros x _. apply bind_no_crash; [auto|]. intros y _. reflexivity.
  - apply bind_no_crash; [auto|]. intros x _. apply bind_no_crash; [auto|]. intros y _.
    unfold calc_divide, py_floordiv. destruct (y =? 0); reflexivity.
  - auto.
Qed.

(* 4. unsupported items  5. action indices  6. hooks and diagnostics *)

Definition is_parser_error {A} (x : outcome A) : bool :=
  match x with ParserError k => parse_diag k | _ => false end.

Lemma enum_items_total : forallb (fun i => is_parser_error (enum_item_outcome i)) enum_items = true.
Proof. vm_compute. reflexivity. Qed.

Lemma actions_index_total : bad_actions = [].
Proof. vm_compute. reflexivity. Qed.

Lemma action_ok_sound a len acc :
  action_ok a = true ->
  In len (snd (fst a)) -> In acc (snd a) ->
  access_ok len acc = true.
Proof.
  destruct a as [[[nm ln] lens] accs]. cbn [action_ok fst snd]. intros H Hl Ha.
  rewrite forallb_forall in H. specialize (H len Hl). rewrite forallb_forall in H. auto.
Qed.

Lemma message_items_total :
  forall i, In i message_items -> is_parser_error (message_item_outcome i) = true.
Proof. apply forallb_forall. vm_compute. reflexivity. Qed.

(* a table passes a check when the list of the names of its failing entries is empty *)
Lemma none_filtered {A B} (p : A -> bool) (f : A -> B) l :
  map f (filter (fun a => negb (p a)) l) = [] -> forall a, In a l -> p a = true.
Proof.
  intros H a Ha. destruct (p a) eqn:E; [reflexivity|].
  assert (Hin : In (f a) (map f (filter (fun a => negb (p a)) l)))
    by (apply in_map, filter_In; split; [exact Ha|rewrite E; reflexivity]).
  rewrite H in Hin. destruct Hin.
Qed.

Lemma actions_indices_in_range :
  forall a len acc, In a actions -> In len (snd (fst a)) -> In acc (snd a) ->
                    access_ok len acc = true.
Proof.
  intros a len acc Ha. apply action_ok_sound. exact (none_filtered action_ok (fun a => fst (fst (fst a))) actions actions_index_total a Ha).
Qed.

Lemma hooks_total : hooks_raise_diag = true.
Proof. vm_compute. reflexivity. Qed.

Lemma lexer_parser_raises_diag : forallb parse_diag (lexer_raises ++ parser_raises) = true.
Proof. vm_compute. reflexivity. Qed.

Lemma front_non_diag_are_internal : front_non_diag = ["InternalError"; "NotImplementedError"]%string.
Proof. vm_compute. reflexivity. Qed.

Lemma errors_are_diagnostics :
  hooks_raise_diag = true /\
  (forall c, In c (lexer_raises ++ parser_raises) -> parse_diag c = true) /\
  front_non_diag = ["InternalError"; "NotImplementedError"]%string.
Proof.
  split; [exact hooks_total|]. split; [apply forallb_forall; exact lexer_parser_raises_diag|].
  exact front_non_diag_are_internal.
Qed.

Lemma p_error_paths_total path v :
  In path p_error_paths ->
  match v with TInt z => Z.abs z < 10 ^ py_int_max_str_digits | TOther => True end ->
  exists k, p_error_path_outcome path v = ParserError k /\ parse_diag k = true.
Proof.
  intros Hin Hv. assert (Hd : parse_diag (fst (fst path)) = true).
  { pose proof hooks_total as H. unfold hooks_raise_diag in H. rewrite forallb_forall in H.
    apply H. apply in_or_app. right. exact Hin. }
  destruct path as [[cls u] ln]. cbn [fst] in Hd. unfold p_error_path_outcome.
  destruct u; destruct v as [z|]; try (eexists; split; [reflexivity|exact Hd]).
  rewrite (str_int_small z Hv). cbn [bind]. eexists; split; [reflexivity|exact Hd].
Qed.

Lemma array_type_token_total cap : Z.abs cap < 10 ^ py_int_max_str_digits -> array_type_token cap = Ok tt.
Proof. intro H. unfold array_type_token. destruct array_type_formats_cap; [apply str_int_small; exact H|reflexivity]. Qed.

(* 7. options *)

Theorem option_check_total scope name v : is_crash (option_check scope name v) = false.
Proof.
  unfold option_check. destruct (find_descriptor scope name) as [[[[s n] k] f]|]; [|reflexivity].
  destruct (kind_matches k v); [|reflexivity].
  destruct f as [f|]; [|reflexivity]. destruct v; try reflexivity. destruct (f z); reflexivity.
Qed.

Theorem option_get_after_check scope name v s n k f :
  find_descriptor scope name = Some (s, n, k, f) ->
  option_check scope name v = Ok tt -> option_get_typed k v = Ok v.
Proof.
  intros Hf H. unfold option_check in H. rewrite Hf in H. unfold option_get_typed.
  destruct (kind_matches k v); [reflexivity|discriminate].
Qed.

(* 8. renderers *)

Fixpoint py_render_defaults_fields (l : list (Z * ty)) : outcome unit :=
  match l with
  | [] => Ok tt
  | kf :: r => bind (py_render_defaults (snd kf)) (fun _ => py_render_defaults_fields r)
  end.

Lemma py_render_defaults_msg x fs : py_render_defaults (TMsg x fs) = py_render_defaults_fields fs.
Proof. cbn [py_render_defaults]. induction fs as [|kf r IH]; [reflexivity|]. cbn [py_render_defaults_fields]. rewrite <- IH. reflexivity. Qed.

Lemma enum_default_guarded : py_enum_default_guarded = true.
Proof. vm_compute. reflexivity. Qed.

(* the Python renderer's defaults are total: a memberless enum has the default 0 *)
Theorem py_render_defaults_total t : py_render_defaults t = Ok tt.
Proof.
  induction t as [| | n | n | n ms | t IH | x c e IH | x fs IH] using ty_ind'.
  1-4: reflexivity.
  - cbn [py_render_defaults]. unfold py_enum_default. rewrite enum_default_guarded. reflexivity.
  - cbn [py_render_defaults]. exact IH.
  - cbn [py_render_defaults]. exact IH.
  - rewrite py_render_defaults_msg.
    induction fs as [|kf r IHr]; [reflexivity|].
    cbn [py_render_defaults_fields]. inversion IH as [|? ? Hk Hr]; subst. rewrite Hk. cbn [bind]. apply IHr; assumption.
Qed.

Lemma ints_small_intro zs :
  Forall (fun z => Z.abs z < 10 ^ py_int_max_str_digits) zs -> ints_small zs = true.
Proof.
  intro H. apply forallb_forall. intros z Hz. rewrite (pow10_spec _ max_digits_nonneg).
  apply Z.ltb_lt. exact (proj1 (Forall_forall _ _) H z Hz).
Qed.

(* what a constant beyond the digit limit does to a renderer: a traceback, or a RendererError once
   format_int_value catches the ValueError *)
Definition render_fail : outcome unit :=
  if format_int_value_guarded then ParserError "RendererError"%string else Crash ValueError.

Lemma render_ints_spec zs : render_ints zs = if ints_small zs then Ok tt else render_fail.
Proof.
  induction zs as [|z r IH]; [reflexivity|]. cbn [render_ints ints_small forallb]. fold (ints_small r).
  unfold render_int, str_int, py_str_int. destruct (Z.abs z <? pow10 py_int_max_str_digits); cbn [andb].
  - replace (if format_int_value_guarded then py_catch_value_error (Ok tt) "RendererError"%string else Ok tt)
      with (@Ok unit tt) by (destruct format_int_value_guarded; reflexivity). exact IH.
  - unfold render_fail. destruct format_int_value_guarded; reflexivity.
Qed.

(* the guard is exact: [render_total] and TotalRefuted.render_huge are the two branches *)
Theorem render_spec l t consts : render l t consts = if ints_small consts then Ok tt else render_fail.
Proof.
  unfold render. rewrite render_ints_spec.
  destruct (ints_small consts); [|unfold render_fail; destruct format_int_value_guarded; reflexivity].
  cbn [bind]. destruct l; try reflexivity. apply py_render_defaults_total.
Qed.

Theorem render_total l t consts :
  ints_small consts = true -> render l t consts = Ok tt.
Proof. intro Hc. rewrite render_spec, Hc. reflexivity. Qed.

(* the case-style converters (utils.py) applied to accepted names by the renderers and the linter:
   no index into a possibly empty piece, no .group() on a possibly-None match *)
Lemma name_funcs_total : name_funcs_unguarded = [].
Proof. reflexivity. Qed.

Lemma regexes_flat : regexes_not_flat = [].
Proof. vm_compute. reflexivity. Qed.

(* stated apart so that the kernel unfolds the two names and compares, instead of evaluating the filter *)
Lemma regexes_not_flat_eq :
  regexes_not_flat = map (fun e => fst (fst e)) (filter (fun e => negb (is_flat (snd e))) all_regexes).
Proof. reflexivity. Qed.

Lemma regex_table_polynomial :
  forall e, In e all_regexes ->
    exists alts, flatten (snd e) = Some alts /\
      forall a s, In a alts ->
        (fst (bt a s) <= (length a + 1) * (length s + 2) ^ nstars a)%nat.
Proof.
  intros e He. pose proof regexes_flat as F. rewrite regexes_not_flat_eq in F.
  pose proof (none_filtered (fun e => is_flat (snd e)) _ all_regexes F e He) as E.
  unfold is_flat in E. destruct (flatten (snd e)) as [alts|]; [|discriminate].
  exists alts. split; [reflexivity|]. intros a s _. apply bt_steps_poly.
Qed.

(* 9. reading sources *)

Lemma read_source_total bytes : utf8_valid bytes = true -> read_source bytes = Ok tt.
Proof. intro H. unfold read_source. rewrite H. reflexivity. Qed.

Lemma import_path_total path :
  existsb (fun c => Ascii.eqb c (ascii_of_nat 0)) path = false -> import_path path = Ok tt.
Proof. intro H. unfold import_path. rewrite H. reflexivity. Qed.

