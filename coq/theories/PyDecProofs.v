(* PyDecProofs.v — for the Python decoder model (PyRt.p_dec over proc_of): what it stores (canon)
   and on which schemas it does (dec_guard), its node equations, the accessor tables at a position
   (dreach), what each kind of setter does to a leaf, the 16-bit prefix.  The laws of set_idx and
   set_field are PyDecStep's; the walk over arrays and messages is RdWalk.walk_all, instantiated
   in PyEvolve. *)
From Coq Require Import ZArith List Bool Lia.
From BP Require Import Bits Schema PyRt PyEncProofs PyDecStep PyDecLeaf.
From BPGen Require Import GenPy.
Import ListNotations.
Open Scope Z_scope.

(* what a decoder stores for v: the fields in schema order, every leaf as a plain VB / VZ *)

Fixpoint canon (t : ty) (v : val) : val :=
  match t with
  | TBool => VB (match v with VB b => b | _ => false end)
  | TByte => VZ (zof v)
  | TUint _ => VZ (zof v)
  | TInt _ => VZ (zof v)
  | TEnum _ _ => VZ (zof v)
  | TAlias t' => canon t' v
  | TArr _ _ e => VL (map (canon e) (vlist v))
  | TMsg _ fs =>
      VM ((fix go (l : list (Z * ty)) : list (Z * val) :=
             match l with
             | [] => []
             | kf :: r => (fst kf, canon (snd kf) (vfield (fst kf) v)) :: go r
             end) fs)
  end.

Definition canon_fields (v : val) :=
  fix go (l : list (Z * ty)) : list (Z * val) :=
    match l with
    | [] => []
    | kf :: r => (fst kf, canon (snd kf) (vfield (fst kf) v)) :: go r
    end.

Definition default_fields :=
  fix go (l : list (Z * ty)) : list (Z * val) :=
    match l with
    | [] => []
    | kf :: r => (fst kf, py_default (snd kf)) :: go r
    end.

Lemma canon_msg x fs v : canon (TMsg x fs) v = VM (canon_fields v fs).
Proof. reflexivity. Qed.
Lemma py_default_msg x fs : py_default (TMsg x fs) = VM (default_fields fs).
Proof. reflexivity. Qed.

(* enums whose first declared member is 0 (the exact complement of finding enum-default) *)
Fixpoint dec_guard (t : ty) : bool :=
  match t with
  | TEnum _ ms => hd 0 ms =? 0
  | TAlias t' => dec_guard t'
  | TArr _ _ e => dec_guard e
  | TMsg _ fs =>
      (fix go (l : list (Z * ty)) : bool :=
         match l with
         | [] => true
         | kf :: r => dec_guard (snd kf) && go r
         end) fs
  | _ => true
  end.

Definition fields_guard :=
  fix go (l : list (Z * ty)) : bool :=
    match l with
    | [] => true
    | kf :: r => dec_guard (snd kf) && go r
    end.
Lemma dec_guard_msg x fs : dec_guard (TMsg x fs) = fields_guard fs.
Proof. reflexivity. Qed.

Definition p_dec_fields (c' : cls) :=
  fix go (l : list (Z * proc)) (a : val) (x : ctx) : res (val * ctx) :=
    match l with
    | [] => Ok (a, x)
    | kf :: r => r1 <- p_dec (snd kf) c' a (fst kf) [] x ;; go r (fst r1) (snd r1)
    end.

Definition arr_loop (De : list nat -> val -> ctx -> res (val * ctx)) (stk : list nat) :=
  fix loop (m k : nat) (acc : val) (x : ctx) : res (val * ctx) :=
    match m with
    | O => Ok (acc, x)
    | S m' => r <- De (stk ++ [k]) acc x ;; loop m' (S k) (fst r) (snd r)
    end.

Definition p_dec_arr (e : proc) (c : cls) (fn : Z) (stk : list nat) :=
  arr_loop (fun st acc x => p_dec e c acc fn st x) stk.

Lemma p_dec_msg x nb fs c' c acc fn stk x0 :
  p_dec (PMsg x nb fs c') c acc fn stk x0 =
  (child <- (if di_is_valid fn then get_accessor c acc fn stk else Ok acc) ;;
   let i0 := ci x0 in
   r0 <- (if x then dec_ahead x0 else Ok (0, x0)) ;;
   r <- p_dec_fields c' fs child (snd r0) ;;
   acc' <- (if di_is_valid fn then put_accessor c acc fn stk (fst r) else Ok (fst r)) ;;
   Ok (acc', if x then skip_to (message_ito i0 (fst r0)) (snd r) else snd r)).
Proof. reflexivity. Qed.

Lemma p_dec_array x cap e c acc fn stk x0 :
  p_dec (PArray x cap e) c acc fn stk x0 =
  (let i0 := ci x0 in
   r0 <- (if x then dec_ahead x0 else Ok (0, x0)) ;;
   r <- p_dec_arr e c fn stk cap O acc (snd r0) ;;
   Ok (fst r, if x then skip_to (array_ito i0 (fst r0) (Z.of_nat cap) (ci (snd r))) (snd r) else snd r)).
Proof. reflexivity. Qed.

Definition kind_of (lt : ty) (d : nat) : skind :=
  match lt with
  | TBool => SKBool
  | TInt n => SKCast (int_storage_bits n)
  | TEnum _ _ => match d with O => SKProxy | _ => SKInt end
  | _ => SKInt
  end.

Definition int_ent (lt : ty) (d : nat) : option ient :=
  match lt with
  | TInt n => if is_std_width n then None
              else Some {| i_depth := d; i_shift := n - 1; i_mask := Z.lnot (Z.shiftl 1 n - 1) |}
  | _ => None
  end.

Definition leaf_tab (lt : ty) (c : cls) (fn : Z) (d : nat) : Prop :=
  lookup fn (c_set c) = Some {| s_depth := d; s_kind := kind_of lt d |} /\
  lookup fn (c_int c) = int_ent lt d /\
  match lt, d with
  | TEnum _ _, O => True
  | _, _ => lookup fn (c_proxy c) = None
  end.

(* the tables of c address the part of field fn that has type t and lies below d array layers
   (dreach_spec: in terms of leaf_of / msg_depth_of; dreach_field: cls_of fs does, for each field) *)
Fixpoint dreach (t : ty) (c : cls) (fn : Z) (d : nat) {struct t} : Prop :=
  match t with
  | TAlias t' => dreach t' c fn d
  | TArr _ _ e => dreach e c fn (S d)
  | TMsg _ _ => lookup fn (c_acc c) = Some d /\ lookup fn (c_proxy c) = None
  | TBool => leaf_tab TBool c fn d
  | TByte => leaf_tab TByte c fn d
  | TUint n => leaf_tab (TUint n) c fn d
  | TInt n => leaf_tab (TInt n) c fn d
  | TEnum n ms => leaf_tab (TEnum n ms) c fn d
  end.

(* dreach through the model's own address functions: it asks for the setter entries of the leaf
   that leaf_of finds below t, or for the accessor of the message that msg_depth_of finds *)
Lemma dreach_spec t c fn : forall d,
  (forall d' lt, leaf_of t d = Some (d', lt) -> leaf_tab lt c fn d') ->
  (forall d', msg_depth_of t d = Some d' -> lookup fn (c_acc c) = Some d' /\ lookup fn (c_proxy c) = None) ->
  dreach t c fn d.
Proof.
  induction t as [| | n | n | n ms | t IH | x cap e IH | x fs' IH] using ty_ind'; intros d HL HM;
    cbn [dreach leaf_of msg_depth_of] in *; auto.
Qed.

Lemma dreach_field fs k ft :
  keys_distinct (map fst fs) = true -> In (k, ft) fs -> dreach ft (cls_of fs) k 0%nat.
Proof.
  intros Hd Hin. destruct (cls_lookup fs k ft Hd Hin) as (_ & Hs & Hi & Ha & Hp).
  apply dreach_spec; [intros d lt El; unfold leaf_tab; repeat split|intros d Em; split].
  - now rewrite Hs, El.
  - now rewrite Hi, El.
  - (* only an enum field has a proxy, and it is its own leaf, at depth 0, where nothing is asked *)
    rewrite Hp. destruct ft; try (destruct lt, d; first [reflexivity | exact I]).
    cbn [leaf_of] in El. inversion El. exact I.
  - now rewrite Ha.
  - rewrite Hp. destruct ft; try reflexivity. discriminate.
Qed.

Lemma set_field_app_notin k nv (l1 l2 : list (Z * val)) :
  ~ In k (map fst l1) -> set_field k nv (l1 ++ l2) = l1 ++ set_field k nv l2.
Proof.
  induction l1 as [|h r IH]; intros H; [reflexivity|].
  cbn [app set_field]. cbn [map In] in H.
  destruct (fst h =? k) eqn:Ek; [apply Z.eqb_eq in Ek; tauto|]. f_equal. apply IH. tauto.
Qed.

Lemma set_idx_snoc a stk L k x cur :
  index_val a stk = Ok cur -> (k < length L)%nat ->
  set_idx (set_idx a stk (VL L)) (stk ++ [k]) x = set_idx a stk (VL (upd L k x)).
Proof.
  revert a; induction stk as [|j r IH]; intros a Hi Hk.
  - cbn [app set_idx]. reflexivity.
  - cbn [app set_idx index_val] in *. destruct a as [?|?|l|?]; try discriminate.
    destruct (nth_error l j) as [e|] eqn:E; [|discriminate].
    pose proof (nth_error_some_lt _ _ _ E) as Hj.
    rewrite upd_twice, nth_upd_same by assumption.
    rewrite (nth_error_nth _ _ (VZ 0) E). now rewrite (IH e Hi Hk).
Qed.

Lemma upd_app_repeat (done : list val) d x m :
  upd (done ++ repeat d (S m)) (length done) x = (done ++ [x]) ++ repeat d m.
Proof.
  induction done as [|h r IH]; [reflexivity|].
  cbn [app length upd]. now rewrite IH.
Qed.

Lemma nth_error_app_repeat (done : list val) d m :
  nth_error (done ++ repeat d (S m)) (length done) = Some d.
Proof. induction done as [|h r IH]; [reflexivity|]. exact IH. Qed.

Lemma set_byte_int c vs fn stk a cur0 :
  lookup fn vs = Some a -> index_val a stk = Ok cur0 ->
  lookup fn (c_proxy c) = None ->
  lookup fn (c_set c) = Some {| s_depth := length stk; s_kind := SKInt |} ->
  forall z lshift d,
    set_byte c (at_leaf vs fn stk a (VZ z)) fn stk lshift d =
    Ok (at_leaf vs fn stk a (VZ (Z.lor z (Z.shiftl d lshift)))).
Proof.
  intros Hl Hi Hnp Hs z lshift d. unfold set_byte. rewrite Hs. cbn [s_kind s_depth].
  rewrite (read_ref_at c vs fn stk a Hl cur0 Hi Hnp). cbn [bind int_of].
  apply (write_ref_at c vs fn stk a Hl cur0 Hi Hnp).
Qed.

Lemma set_byte_cast c vs fn stk a cur0 w :
  lookup fn vs = Some a -> index_val a stk = Ok cur0 ->
  lookup fn (c_proxy c) = None ->
  lookup fn (c_set c) = Some {| s_depth := length stk; s_kind := SKCast w |} ->
  forall z lshift d,
    set_byte c (at_leaf vs fn stk a (VZ z)) fn stk lshift d =
    Ok (at_leaf vs fn stk a (VZ (Z.lor z (cast_w w (Z.shiftl d lshift))))).
Proof.
  intros Hl Hi Hnp Hs z lshift d. unfold set_byte. rewrite Hs. cbn [s_kind s_depth].
  rewrite (read_ref_at c vs fn stk a Hl cur0 Hi Hnp). cbn [bind int_of].
  apply (write_ref_at c vs fn stk a Hl cur0 Hi Hnp).
Qed.

Lemma set_byte_proxy c vs fn a :
  lookup fn vs = Some a ->
  lookup fn (c_set c) = Some {| s_depth := 0; s_kind := SKProxy |} ->
  forall z lshift d,
    set_byte c (at_leaf vs fn [] a (VZ z)) fn [] lshift d =
    Ok (at_leaf vs fn [] a (VZ (Z.lor z (Z.shiftl d lshift)))).
Proof.
  intros Hl Hs z lshift d. unfold set_byte. rewrite Hs. cbn [s_kind s_depth].
  rewrite (read_attr_raw_at vs fn [] a Hl _ eq_refl). cbn [bind int_of].
  apply (write_attr_at vs fn [] a _ _ eq_refl).
Qed.

(* byte, uint, enum: SKInt, or SKProxy for an enum field itself *)
Lemma py_rd_unsigned t n c vs fn stk a s i0 :
  match t with TByte | TUint _ | TEnum _ _ => True | _ => False end ->
  1 <= n -> leaf_tab t c fn (length stk) ->
  lookup fn vs = Some a -> index_val a stk = Ok (VZ 0) ->
  bytes_ok s -> 0 <= i0 -> i0 + n <= 8 * Z.of_nat (length s) ->
  pbt_dec (fuel_of n) n c (VM vs) fn stk 0 {| cs := s; ci := i0 |} =
  Ok (VM (set_field fn (set_idx a stk (VZ (slice s i0 n))) vs), {| cs := s; ci := i0 + n |}).
Proof.
  intros Hkind Hn (Hset & Hint & Hprox) Hl Hi Hs Hi0 Hlen.
  rewrite <- (at_leaf_id vs fn stk a Hl (VZ 0) Hi).
  apply (dec_unsigned _ _ s i0 n (py_chunks c fn stk n i0 s Hi0 Hlen) Hs Hi0 Hn (at_leaf vs fn stk a)).
  intros z lshift d _ _ _. revert z lshift d.
  destruct t; try contradiction; cbn [kind_of] in Hset;
    try (apply (set_byte_int c vs fn stk a (VZ 0)); assumption).
  destruct stk as [|k0 r0]; cbn [length] in Hset, Hprox.
  - apply (set_byte_proxy c vs fn a); assumption.
  - apply (set_byte_int c vs fn (k0 :: r0) a (VZ 0)); assumption.
Qed.

(* the 16-bit prefix is read as an unsigned field of a one-field object *)
Lemma dec_ahead_spec s i0 :
  bytes_ok s -> 0 <= i0 -> i0 + 16 <= 8 * Z.of_nat (length s) ->
  dec_ahead {| cs := s; ci := i0 |} = Ok (slice s i0 16, {| cs := s; ci := i0 + 16 |}).
Proof.
  intros Hs Hi0 Hlen. unfold dec_ahead.
  pose proof (py_rd_unsigned (TUint 16) 16 int_cls [(1, VZ 0)] 1 [] (VZ 0) s i0 I ltac:(lia)
                (conj eq_refl (conj eq_refl eq_refl)) eq_refl eq_refl Hs Hi0 Hlen) as H.
  change (fuel_of 16) with 16%nat in H. now rewrite H.
Qed.
