(* EmitWitness.v — the regions in which the faithful model REFUTES property C10 on the current
   tree: one small schema per region, each inside the property's own precondition ([wf], [pre])
   and evaluated by vm_compute.  The same schemas are kept as .bitproto text in the JSON cases of corpus/C10/ and
   replayed on the real compiler and toolchains by tools/props/c10.py. *)
From Coq Require Import String Ascii List ZArith Bool Arith.
From BP Require Import EmitBase Emit EmitSpec EmitCheck.
From BPGen Require Import GenC10.
Import ListNotations.
Open Scope string_scope.
Open Scope list_scope.
Open Scope nat_scope.

Definition bytes2 : tyx := TArr (TBase BByte) 2 false.
Definition fbool (n : string) (k : nat) : field := mkField n k (TBase BBool).

(* [helper-collision]  message A1 { byte[2] x = 2 }  message A { byte[2] y = 12 } *)
Definition w_helper : schema :=
  [mkFile "m" "m" [] no_opts
     [DMsg "A1" false [] [mkField "x" 2 bytes2]; DMsg "A" false [] [mkField "y" 12 bytes2]]].

(* same scheme: type T = byte[2]  message ArrayT { bool b = 1 } *)
Definition w_helper_alias : schema :=
  [mkFile "m" "m" [] no_opts [DAlias "T" bytes2; DMsg "ArrayT" false [] [fbool "b" 1]]].

(* [derived-name-collision]  type EncodeA = uint3  message A { bool b = 1 } *)
Definition w_derived : schema :=
  [mkFile "m" "m" [] no_opts [DAlias "EncodeA" (TBase (BUint 3)); DMsg "A" false [] [fbool "b" 1]]].

(* [import-filename]  main.bitproto imports shared.bitproto whose proto name is lib *)
Definition color_ref (via : list string) : ref := mkRef RkEnum via 1 [] "Color".
Definition w_import : schema :=
  [mkFile "main" "main" [("lib", 1)] no_opts [DMsg "M" false [] [mkField "c" 1 (TRef (color_ref ["lib"]))]];
   mkFile "shared" "lib" [] no_opts [DEnum "Color" 3 [("COLOR_RED", 0%N)]]].

(* [py-nested-import]  lib.Outer.Inner used from main *)
Definition inner_ref : ref := mkRef RkMsg ["lib"] 1 ["Outer"] "Inner".
Definition w_nested : schema :=
  [mkFile "main" "main" [("lib", 1)] no_opts [DMsg "M" false [] [mkField "inner" 1 (TRef inner_ref)]];
   mkFile "lib" "lib" [] no_opts
     [DMsg "Outer" false [DMsg "Inner" false [] [fbool "ok" 1]]
        [mkField "inner" 1 (TRef (mkRef RkMsg [] 1 ["Outer"] "Inner"))]]].

(* the same defect through two imports: lib.base.Id used from main *)
Definition w_twohop : schema :=
  [mkFile "main" "main" [("lib", 1)] no_opts
     [DMsg "M" false [] [mkField "id" 1 (TRef (mkRef RkAlias ["lib"; "base"] 2 [] "Id"))]];
   mkFile "lib" "lib" [("base", 2)] no_opts
     [DMsg "L" false [] [mkField "id" 1 (TRef (mkRef RkAlias ["base"] 2 [] "Id"))]];
   mkFile "base" "base" [] no_opts [DAlias "Id" (TBase (BUint 20))]].

(* [go-unused-import]  import "konst.bitproto"; byte[konst.WIDTH] raw = 1  (the constant is inlined) *)
Definition w_go_unused : schema :=
  [mkFile "main" "main" [("konst", 1)] no_opts
     [DMsg "M" false [] [mkField "raw" 1 (TArr (TBase BByte) 4 false)]];
   mkFile "konst" "konst" [] no_opts [DConst "WIDTH" (CvInt 4)]].

(* [empty-struct]  message Hollow {} *)
Definition w_empty_struct : schema := [mkFile "m" "m" [] no_opts [DMsg "Hollow" false [] []]].

(* [align-nonpow2, FIXED]  option c.struct_packing_alignment = 3: not an accepted schema *)
Definition w_align : schema :=
  [mkFile "m" "m" [] (mkOpts "" 3%Z "" "") [DMsg "A" false [] [fbool "b" 1]]].

(* [empty-enum, FIXED]  enum E : uint3 {}  message A { E e = 1 } *)
Definition w_empty_enum : schema :=
  [mkFile "m" "m" [] no_opts
     [DEnum "E" 3 []; DMsg "A" false [] [mkField "e" 1 (TRef (mkRef RkEnum [] 0 [] "E"))]]].
(* ... and without any use of E *)
Definition w_empty_enum_unused : schema :=
  [mkFile "m" "m" [] no_opts [DEnum "E" 3 []; DMsg "A" false [] [fbool "b" 1]]].

(* [str-escape, FIXED]  a string constant whose value is  a, double quote, b *)
Definition w_str : schema :=
  [mkFile "m" "m" [] no_opts
     [DConst "S" (CvStr (String "a" (String (ascii_of_nat 34) (String "b" EmptyString))));
      DMsg "A" false [] [fbool "b" 1]]].

(* [py-attr-collision]  enum Mode {..}  message A { uint8 _get_mode = 1; Mode mode = 2 }:
   the getter the renderer adds for the enum field `mode` is called _get_mode *)
Definition w_attr : schema :=
  [mkFile "m" "m" [] no_opts
     [DEnum "Mode" 2 [("MODE_A", 0%N); ("MODE_B", 1%N)];
      DMsg "A" false [] [mkField "_get_mode" 1 (TBase (BUint 8)); mkField "mode" 2 (TRef (mkRef RkEnum [] 0 [] "Mode"))]]].

Definition inside_pre (s : schema) : bool :=
  wf s && forallb (fun i => pre LC s i && pre LPy s i && pre LGo s i) (seq 0 (length s)).

Lemma witnesses_inside_pre :
  forallb inside_pre [w_helper; w_helper_alias; w_derived; w_import; w_nested; w_twohop; w_go_unused;
                      w_empty_struct; w_empty_enum; w_empty_enum_unused; w_str; w_attr] = true.
Proof. vm_compute. reflexivity. Qed.

Definition witnesses : list schema :=
  [w_helper; w_helper_alias; w_derived; w_import; w_nested; w_twohop; w_go_unused;
   w_empty_struct; w_empty_enum; w_empty_enum_unused; w_str; w_attr].
Lemma inside_pre_witness w : In w witnesses -> inside_pre w = true.
Proof. apply forallb_forall. exact witnesses_inside_pre. Qed.

Definition tu_unique (s : schema) (i : nat) (t : target) : bool :=
  match tu_items s i t [] with Some its => unique_b (decls_of its) | None => false end.
Definition dbu (s : schema) (i : nat) (t : target) : bool := dbu_b s t [] (render_items s i t []).

Lemma helper_collision_refuted : tu_unique w_helper 0 TgC = false /\ tu_unique w_helper_alias 0 TgC = false.
Proof. vm_compute. split; reflexivity. Qed.
Lemma derived_collision_refuted : tu_unique w_derived 0 TgC = false.
Proof. vm_compute. reflexivity. Qed.
Lemma import_filename_refuted :
  imports_ok_b w_import TgH (render_items w_import 0 TgH []) = false /\
  imports_ok_b w_import TgPy (render_items w_import 0 TgPy []) = false.
Proof. vm_compute. split; reflexivity. Qed.
Lemma nested_import_refuted :
  dbu w_nested 0 TgPy = false /\ dbu w_nested 0 TgGo = false /\ dbu w_twohop 0 TgPy = false /\
  (* C flattens every name into one name space: the same schemas are fine there *)
  dbu w_nested 0 TgH = true /\ dbu w_nested 0 TgC = true /\ dbu w_twohop 0 TgH = true.
Proof. vm_compute. repeat split; reflexivity. Qed.
Lemma attr_collision_refuted :
  g_py_attrs w_attr 0 = false /\
  forallb (fun fd => nodup_str (py_class_attrs fd)) (flat_file (getf w_attr 0)) = false.
Proof. vm_compute. split; reflexivity. Qed.
Lemma go_unused_import_refuted : go_imports_used_b (render_items w_go_unused 0 TgGo []) = false.
Proof. vm_compute. reflexivity. Qed.
Lemma empty_struct_refuted : structs_nonempty_b (render_items w_empty_struct 0 TgH []) = false.
Proof. vm_compute. reflexivity. Qed.
(* the witness of [align-nonpow2] is rejected: the translated validator refuses 3, 5, 6 and 7,
   so the schema is not well-formed (gcc would refuse it too: g_align is false) *)
Lemma align_rejected :
  wf w_align = false /\ g_align w_align 0 = false /\
  forallb (fun v => negb (align_valid v)) [3; 5; 6; 7; 9; -1]%Z = true /\
  forallb align_valid [0; 1; 2; 4; 8]%Z = true.
Proof. vm_compute. repeat split; reflexivity. Qed.
(* regression cases of the fixed findings [empty-enum] and [str-escape]: the model
   predicts that the Python renderer does not raise and that every check passes *)
Lemma empty_enum_fixed :
  render w_empty_enum 0 TgPy [] <> None /\
  forallb (fun t => Z.eqb (verdict w_empty_enum 0 t []) 0) [TgH; TgC; TgPy; TgGo] = true /\
  forallb (fun t => Z.eqb (verdict w_empty_enum_unused 0 t []) 0) [TgH; TgC; TgPy; TgGo] = true.
Proof. vm_compute. repeat split; try reflexivity. discriminate. Qed.
Lemma str_escape_fixed : forallb (fun t => Z.eqb (verdict w_str 0 t []) 0) [TgH; TgC; TgPy; TgGo] = true.
Proof. vm_compute. reflexivity. Qed.

(* non-vacuity on the allowed side: a schema with imports (with and without as-name), a nested
   enum, aliases, arrays, a name prefix — every check of the model passes for every target *)
Definition ok_schema : schema :=
  [mkFile "main" "main" [("lib", 1); ("dep", 2)] (mkOpts "" 4%Z "" "")
     [DConst "MAX_SIZE" (CvInt 7);
      DEnum "Mode" 2 [("MODE_IDLE", 0%N); ("MODE_BUSY", 1%N)];
      DAlias "Stamp" (TBase (BUint 48));
      DMsg "Frame" false
        [DEnum "Kind" 3 [("KIND_A", 0%N)];
         DMsg "Hdr" false [] [mkField "kind" 1 (TRef (mkRef RkEnum [] 0 ["Frame"] "Kind")); fbool "ok" 2]]
        [mkField "hdr" 1 (TRef (mkRef RkMsg [] 0 ["Frame"] "Hdr"));
         mkField "mode" 2 (TRef (mkRef RkEnum [] 0 [] "Mode"));
         mkField "stamps" 3 (TArr (TRef (mkRef RkAlias [] 0 [] "Stamp")) 3 false);
         mkField "color" 4 (TRef (mkRef RkEnum ["lib"] 1 [] "Color"));
         mkField "ids" 5 (TArr (TRef (mkRef RkAlias ["dep"] 2 [] "Id")) 2 false);
         mkField "raw" 12 bytes2]];
   mkFile "lib" "lib" [] (mkOpts "Lb" 0%Z "" "") [DEnum "Color" 3 [("COLOR_RED", 0%N); ("COLOR_BLUE", 1%N)]];
   mkFile "base" "base" [] no_opts [DAlias "Id" (TBase (BUint 20)); DAlias "Vec" (TArr (TBase (BInt 17)) 3 false)]].

Definition all_targets : list target := [TgH; TgC; TgHO; TgCO; TgPy; TgGo].
Definition all_guards (s : schema) (i : nat) : bool :=
  forallb (fun L => pre L s i && g_derived L s i && g_qualify L s i && g_import L s i) [LC; LPy; LGo] &&
  g_helper s i && g_go_used s i && g_struct_nonempty s i && g_align s i && g_py_attrs s i.

Lemma ok_schema_ok :
  wf ok_schema = true /\ all_guards ok_schema 0 = true /\
  forallb (fun t => Z.eqb (verdict ok_schema 0 t []) 0) all_targets = true.
Proof. vm_compute. repeat split; reflexivity. Qed.
