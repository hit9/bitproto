(* LexClass.v — classification facts about the master regex at one position (what
   ply's `lexre.match(lexdata, lexpos)` decides there), for every context:
     * a reserved word (bool, byte, true, false, yes, no) standing at word boundaries on both sides
       is matched by its own rule, never by t_IDENTIFIER;
     * "//" is matched by t_COMMENT whatever follows; a "/" not followed by "/" by t_DIVIDE;
     * t_IDENTIFIER re-types a keyword: a keyword never comes out with type IDENTIFIER;
   and the unguarded statement is FALSE: after a digit the word boundary is missing, so "1bool"
   is INT_LITERAL 1 followed by IDENTIFIER "bool" ([reserved_word_identifier_witness]). *)
From Coq Require Import ZArith List.
From BP Require Import TotalBase LexBase Lex LexSpec LexProofs.
From BPGen Require Import GenLexer.
Import ListNotations.

Section Class.
Variable uw : N -> bool.

Lemma star_loop_nonempty body g fuel s : star_loop body g fuel s <> [].
Proof.
  destruct fuel as [|f]; cbn [star_loop]; [discriminate|]. destruct g.
  - intro H. apply app_eq_nil in H. destruct H as [_ H]. discriminate.
  - discriminate.
Qed.

(* evaluates the matcher on concrete letters; stops at every \b and at every star *)
Ltac run_matcher :=
  cbn [mres step1 atom_ok snd fst flat_map app hd_error N.eqb Pos.eqb in_ranges existsb N.leb N.compare Pos.compare Pos.compare_cont andb orb xorb negb].

Definition reserved_words : list (list N) := [W_bool; W_byte; W_true; W_false; W_yes; W_no].

Lemma reserved_word_typed fuel p post W :
  In W reserved_words -> word_opt uw p = false -> word_opt uw (hd_error post) = false ->
  exists r s', first_rule uw fuel lex_rules (p, W ++ post) = Some (r, s')
               /\ cps_eqb (r_name r) T_IDENTIFIER = false /\ snd s' = post.
Proof.
  intros HW Hp Hq. unfold reserved_words in HW. cbn [In] in HW.
  (* the same computation for each of the six words: the rules of the master regex are run in order on
     the word's letters; only the two \b tests do not compute, [boundary_before] decides the one before the word and
     [boundary_after] the one after it *)
  destruct HW as [<-|[<-|[<-|[<-|[<-|[<-|[]]]]]]];
    unfold W_bool, W_byte, W_true, W_false, W_yes, W_no; cbn [app]; rewrite first_rule_dispatch;
    match goal with |- context [dispatch ?c] => let d := eval vm_compute in (dispatch c) in change (dispatch c) with d end;
    cbn [first_rule r_rx]; unfold rmatch;
    run_matcher; rewrite ?(boundary_before uw p) by (assumption || reflexivity);
    run_matcher; rewrite ?(boundary_after uw _ post) by (assumption || reflexivity);
    cbn [flat_map app hd_error];
    eexists _, _; (split; [reflexivity|split; [vm_compute; reflexivity|reflexivity]]).
Qed.

Lemma slashes_comment fuel p post :
  exists r s', first_rule uw fuel lex_rules (p, 47%N :: 47%N :: post) = Some (r, s') /\ r_name r = T_COMMENT.
Proof.
  rewrite first_rule_dispatch.
  let d := eval vm_compute in (dispatch 47) in change (dispatch 47) with d. cbn [first_rule r_rx]. unfold rmatch.
  cbn [mres step1 atom_ok snd fst flat_map app hd_error N.eqb Pos.eqb].
  rewrite !app_nil_r.
  match goal with |- context [hd_error (star_loop ?b true fuel ?s)] => destruct (star_loop b true fuel s) as [|s1 l] eqn:E end.
  - exfalso. eapply star_loop_nonempty. exact E.
  - cbn [app hd_error]. eexists _, _. split; reflexivity.
Qed.

Lemma lone_slash_divide fuel p post :
  match post with c :: _ => N.eqb c 47 = false | [] => True end ->
  first_rule uw fuel lex_rules (p, 47%N :: post)
  = Some (mkRule T_DIVIDE rx_t_DIVIDE None, (Some 47%N, post)).
Proof.
  intro Hn. rewrite first_rule_dispatch.
  let d := eval vm_compute in (dispatch 47) in change (dispatch 47) with d. cbn [first_rule r_rx]. unfold rmatch.
  cbn [mres step1 atom_ok snd fst flat_map app hd_error N.eqb Pos.eqb].
  destruct post as [|c r]; [reflexivity|]. cbv beta iota in Hn. unfold step1. cbn [snd atom_ok]. rewrite Hn. reflexivity.
Qed.

Lemma keyword_retyped name a lx line ty v l :
  a_kw a = true -> cps_mem lx lex_keywords = true ->
  run_action name (Some a) lx line = Ok (ty, v, l) -> ty = map cp_upper lx /\ cps_eqb ty T_IDENTIFIER = false.
Proof.
  intros Hk Hm. unfold run_action. rewrite Hk, Hm. cbn [andb].
  destruct (run_conv (a_conv a) lx line); cbn [bind]; intro H; inversion H; subst. split; [reflexivity|].
  unfold cps_mem in Hm. apply existsb_exists in Hm. destruct Hm as (k & Hin & He).
  apply cps_eqb_eq in He. subst k. unfold lex_keywords in Hin. cbn [In] in Hin.
  repeat (destruct Hin as [<-|Hin]; [vm_compute; reflexivity|]). contradiction.
Qed.

End Class.

(* the statement "bool, byte, uintN, intN, true/false/yes/no are never IDENTIFIER" is FALSE without the
   word-boundary guard: *)
Lemma reserved_word_identifier_witness uw :
  map (fun t => (t_type t, t_val t)) (fst (lex uw [49; 98; 111; 111; 108]%N))
  = [(T_INT_LITERAL, VInt 1); (T_IDENTIFIER, VText W_bool)].
Proof. vm_compute. reflexivity. Qed.
