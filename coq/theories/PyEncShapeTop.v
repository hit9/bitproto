(* PyEncShapeTop.v — the layout facts of C01 about [wire], for every value of the schema's
   shape: integer leaves may hold ANY integer (shape_ty), as C07's Python half needs them.
   PyEncTop.v states them for in-range values. *)
From Coq Require Import ZArith List Lia.
From BP Require Import Bits Schema Spec SchemaFacts.
Import ListNotations.
Open Scope Z_scope.

Lemma nbytes_norm t : nbytes (norm t) = nbytes t.
Proof. exact (SchemaFacts.nbytes_norm t). Qed.

Theorem wire_length t v :
  wf (norm t) = true -> shape_ty (norm t) v = true ->
  Z.of_nat (length (wire t v)) = (nbits t + 7) / 8.
Proof.
  intros Hw Ht. unfold wire. rewrite pack_length, (enc_bits_length_shape _ v Hw Ht), nbits_norm.
  reflexivity.
Qed.

Theorem wire_padding_zero t v k :
  wf (norm t) = true -> shape_ty (norm t) v = true -> nbits t <= k ->
  Z.testbit (nth (Z.to_nat (k / 8)) (wire t v) 0) (k mod 8) = false.
Proof.
  intros Hw Ht Hk. pose proof (nbits_nonneg _ Hw). rewrite nbits_norm in *.
  rewrite wire_bit by lia. apply nth_overflow.
  pose proof (enc_bits_length_shape _ v Hw Ht). rewrite nbits_norm in *. lia.
Qed.

(* N = sum of declared widths + 16 per extensible node (this is just [nbits], stated
   against [enc_bits]) *)
Theorem enc_bits_nbits t v :
  wf (norm t) = true -> shape_ty (norm t) v = true ->
  Z.of_nat (length (enc_bits (norm t) v)) = nbits t.
Proof. intros Hw Ht. rewrite (enc_bits_length_shape _ v Hw Ht). apply nbits_norm. Qed.

(* fields are laid out in ascending field-number order, no gap: sort_fields is sorted *)
Fixpoint sorted_keys {A} (l : list (Z * A)) : Prop :=
  match l with
  | [] => True
  | h :: r => (forall x, In x r -> fst h <= fst x) /\ sorted_keys r
  end.

Lemma insert_field_sorted {A} (kf : Z * A) l : sorted_keys l -> sorted_keys (insert_field kf l).
Proof.
  induction l as [|h r IH]; cbn [insert_field sorted_keys]; intros H.
  - split; [intros ? []|exact I].
  - destruct H as [Hh Hr]. destruct (fst kf <? fst h) eqn:E.
    + cbn [sorted_keys]. repeat split; try assumption.
      intros x [<-|Hx]; [lia|]. specialize (Hh x Hx). lia.
    + cbn [sorted_keys]. split; [|apply IH, Hr].
      intros x Hx. apply insert_field_in in Hx as [->|Hx']; [lia|now apply Hh].
Qed.

Theorem sort_fields_sorted {A} (l : list (Z * A)) : sorted_keys (sort_fields l).
Proof. induction l as [|h r IH]; [exact I|]. cbn [sort_fields]. now apply insert_field_sorted. Qed.

Theorem norm_msg_sorted x fs fs' : norm (TMsg x fs) = TMsg x fs' -> sorted_keys fs'.
Proof. rewrite norm_msg. intros E. inversion E. apply sort_fields_sorted. Qed.
