(* EmitUnique.v — C10_names_unique for the C translation unit (standard mode and -O): under the
   property's precondition and outside the refuted regions [helper-collision] and
   [derived-name-collision], no two defining declarations of header + source share a name
   (per C name space), and no two prototypes do.

   The argument, shared with Python and Go (EmitUnique2.v), is [frame_nodup] below. *)
From Coq Require Import String Ascii List Bool Arith Permutation.
From BP Require Import ListFacts EmitBase EmitNames Emit EmitSpec EmitProofs EmitDbu EmitStr.
From BPGen Require Import GenC10.
Import ListNotations.
Open Scope string_scope.
Open Scope list_scope.
Open Scope nat_scope.

Lemma nodup_keys_NoDup l : NoDup l -> nodup_keys l = true.
Proof.
  induction 1 as [|k l Hn _ IH]; [reflexivity|]. cbn [nodup_keys]. rewrite IH, andb_true_r.
  apply negb_true_iff. destruct (mem_key k l) eqn:E; [|reflexivity]. apply mem_key_in in E. contradiction.
Qed.

Lemma nodup_str_NoDup l : nodup_str l = true -> NoDup l.
Proof.
  induction l as [|x r IH]; intros H; [constructor|]. cbn [nodup_str] in H. apply andb_true_iff in H.
  destruct H as [H1 H2]. constructor; [|apply IH; exact H2]. intros Hin. apply negb_true_iff in H1.
  assert (E : existsb (String.eqb x) r = true) by (apply existsb_exists; exists x; split; [exact Hin | apply String.eqb_refl]).
  rewrite E in H1. discriminate.
Qed.

Lemma nodup_keys_NoDup_rev l : nodup_keys l = true -> NoDup l.
Proof.
  induction l as [|x r IH]; intros H; [constructor|]. cbn [nodup_keys] in H. apply andb_true_iff in H.
  destruct H as [H1 H2]. constructor; [|apply IH; exact H2]. intros Hin. apply negb_true_iff in H1.
  apply mem_key_in in Hin. rewrite Hin in H1. discriminate.
Qed.

(* the names the C translation unit derives from an alias or a message, as tokens *)

Inductive tok :=
| KSize (stem : string)                    (* BYTES_LENGTH_<stem> *)
| KP (x : string) | KJ (x : string)        (* processor / json formatter of an alias or message *)
| KPA (a : string) | KJA (a : string)      (* array helpers of an alias *)
| KPF (m : string) (n : nat) | KJF (m : string) (n : nat)   (* array helpers of a message field *)
| KI (m : string) | KEnc (m : string) | KDec (m : string) | KJsn (m : string).

Definition key_of_tok (t : tok) : key :=
  match t with
  | KSize st => (NsMacro, size_constant_name st)
  | KP x => (NsOrd, c_message_processor_name x)
  | KJ x => (NsOrd, c_message_json_formatter_name x)
  | KPA a => (NsOrd, c_array_processor_name_alias a)
  | KJA a => (NsOrd, c_array_json_formatter_name_alias a)
  | KPF m n => (NsOrd, c_array_processor_name_field m (dec n))
  | KJF m n => (NsOrd, c_array_json_formatter_name_field m (dec n))
  | KI m => (NsOrd, c_field_descriptors_initer_name m)
  | KEnc m => (NsOrd, c_encoder_name m)
  | KDec m => (NsOrd, c_decoder_name m)
  | KJsn m => (NsOrd, c_json_name m)
  end.

Definition macro_prefixes : list string := ["BYTES_LENGTH_"; "__BITPROTO__"; "BITPROTO_"].

(* what the guards [g_helper] and [g_derived] give about a base name, and about the payload of a token *)
Definition badm (k : key) : Prop :=
  match fst k with
  | NsMacro => starts_any macro_prefixes (snd k) = false
  | NsOrd => starts_any c_ord_prefixes (snd k) = false
  | _ => True
  end.
Definition adm (t : tok) : Prop :=
  match t with
  | KP x | KJ x => starts_with "Array" x = false
  | KPA a | KJA a => digit_tail a = false
  | KPF m _ | KJF m _ => digit_tail m = false
  | _ => True
  end.

Ltac strip_eq H :=
  match type of H with
  | (?p1 ++ ?a)%string = (?p2 ++ ?b)%string => apply (strip_spec p1 p2 a b) in H
  | ?x = (?p2 ++ ?b)%string => apply (strip_spec "" p2 x b) in H
  | (?p1 ++ ?a)%string = ?y => apply (strip_spec p1 "" a y) in H
  end; cbn [strip Ascii.eqb Bool.eqb andb] in H.

Ltac unfold_names H :=
  unfold c_message_processor_name, c_message_json_formatter_name, c_array_processor_name_alias,
    c_array_json_formatter_name_alias, c_array_processor_name_field, c_array_json_formatter_name_field,
    c_field_descriptors_initer_name, c_encoder_name, c_decoder_name, c_json_name, size_constant_name,
    c_processor_prefix, c_json_prefix in H.

Lemma starts_any_lit ps p r : existsb (fun q => starts_with q p) ps = true -> starts_any ps (p ++ r) = true.
Proof.
  unfold starts_any. intros H. apply existsb_exists in H. destruct H as [q [Hq Hs]].
  apply existsb_exists. exists q. split; [exact Hq|]. clear Hq. revert p Hs.
  induction q as [|c q IH]; intros p Hs; [destruct (p ++ r)%string; reflexivity|].
  destruct p as [|d p]; [discriminate|]. cbn in *. apply andb_true_iff in Hs. destruct Hs as [H1 H2].
  rewrite H1. apply IH. exact H2.
Qed.

Lemma key_of_tok_inj t1 t2 : adm t1 -> adm t2 -> key_of_tok t1 = key_of_tok t2 -> t1 = t2.
Proof.
  (* 11 x 11 pairs of templates, all treated alike; each stage below closes the pairs it names *)
  destruct t1, t2; cbn [key_of_tok adm]; intros A1 A2 H;
    (* different name spaces *)
    try discriminate H;
    pose proof (f_equal snd H) as Hs; cbn [snd] in Hs; clear H; unfold_names Hs;
    (* compare the literal prefixes of the two templates: they differ at some character, or one
       is exhausted and the rest of the other stands against a payload *)
    try (strip_eq Hs; try contradiction);
    (* same template: equal payloads *)
    try (subst; reflexivity);
    (* processor of x against array helper of a, x = "Array" ++ a *)
    try (exfalso; subst;
         match goal with
         | A : starts_with "Array" ("Array" ++ _)%string = false |- _ => rewrite starts_with_app in A; discriminate
         end).
  (* left: pairs among the array helpers, whose templates share the prefix up to "Array" *)
  all: try (apply sapp_inj_l in Hs).
  (* two helpers of aliases *)
  all: try (subst; reflexivity).
  (* helper of an alias a against helper of field n of message m, a = m ++ dec n: a ends in a digit *)
  all: try (exfalso; subst;
            match goal with
            | A : digit_tail (_ ++ dec _)%string = false |- _ => rewrite digit_tail_app_dec in A; discriminate
            end).
  (* helpers of two fields: names that do not end in a digit, followed by numerals, split uniquely *)
  all: try (destruct (split_digit_suffix _ _ _ _ A1 A2 (dec_digits _) (dec_digits _) Hs) as [-> Hd];
            apply dec_inj in Hd; subst; reflexivity).
Qed.

(* a base name equal to a derived name: excluded by the reserved prefixes *)
Lemma key_apart k t : badm k -> adm t -> k <> key_of_tok t.
Proof.
  intros A _ E. subst k. unfold badm in A.
  destruct t; cbn [key_of_tok fst snd] in A; unfold_names A; rewrite starts_any_lit in A; (discriminate A || reflexivity).
Qed.

(* the include guard and the -O macro *)
Definition fixed_macro (k : key) : Prop :=
  fst k = NsMacro /\ starts_any ["__BITPROTO__"; "BITPROTO_"] (snd k) = true.

Lemma fixed_fresh k : fixed_macro k -> ~ badm k /\ forall t, k <> key_of_tok t.
Proof.
  destruct k as [n x]. unfold fixed_macro, badm. cbn [fst snd]. intros [-> P]. split.
  - intros A. unfold starts_any in *. cbn [existsb macro_prefixes] in *.
    destruct (starts_with "__BITPROTO__" x), (starts_with "BITPROTO_" x); rewrite ?orb_true_r in A; discriminate.
  - intros t E. destruct t; try discriminate E. injection E as ->. cbn in P. discriminate P.
Qed.

Lemma in_insert_fl_rev x l y : y = x \/ In y l -> In y (insert_fl x l).
Proof.
  intros H. apply (Permutation_in _ (Permutation_sym (insert_fl_perm x l))).
  destruct H as [-> | H]; [left; reflexivity | right; exact H].
Qed.

Lemma NoDup_map_sort_fl {B} (g : field -> B) l : NoDup (map g l) -> NoDup (map g (sort_fl l)).
Proof. apply Permutation_NoDup, Permutation_map, Permutation_sym, sort_fl_perm. Qed.

Lemma decls_of_app a b : decls_of (a ++ b) = decls_of a ++ decls_of b.
Proof. unfold decls_of. apply flat_map_app. Qed.
Lemma decls_of_decls ds : decls_of (map IDecl ds) = ds.
Proof. unfold decls_of. induction ds as [|d r IH]; [reflexivity|]. cbn [map flat_map app]. rewrite IH. reflexivity. Qed.
Lemma decls_of_imports {A} (m tg : A -> string) (j : A -> nat) l : decls_of (map (fun x => IImport (m x) (tg x) (j x)) l) = [].
Proof. unfold decls_of. induction l as [|x r IH]; [reflexivity | exact IH]. Qed.

Lemma unique_b_intro ds :
  NoDup (map dkey (filter (fun d => negb (is_proto d)) ds)) -> NoDup (map dkey (filter is_proto ds)) ->
  unique_b ds = true.
Proof. intros H1 H2. unfold unique_b. rewrite !nodup_keys_NoDup by assumption. reflexivity. Qed.

Definition proto_disp (b : blk) : bool :=
  match b with
  | H_FunctionDeclarationsForUserList | H_FunctionDeclarationsForInternalList
  | H_FunctionDeclarationsForUserListOpMode => true
  | _ => false
  end.

Lemma dispatch_one_kind s i flt b fd :
  is_dispatcher b = true ->
  forallb (fun d => Bool.eqb (is_proto d) (proto_disp b)) (dispatch_one s i flt b fd) = true.
Proof.
  intros Hb. destruct fd as [pth d]. unfold dispatch_one. cbn [fd_def].
  destruct b; try discriminate Hb; clear Hb;
    destruct d as [n v | n ty | n w ms | n x nested fs];
    cbn [dkind_of dispatch dispatch_filtered andb def_blocks expand blocks_of flat_map app leaf fd_path fd_def forallb proto_disp];
    repeat match goal with |- context [if ?c then _ else _] => destruct c end;
    rewrite ?app_nil_r, ?forallb_app, ?forallb_map; cbn [forallb]; rewrite ?forallb_map, ?forallb_true; reflexivity.
Qed.

Lemma filter_by_kind (p : bool) (l : list decl) :
  forallb (fun d => Bool.eqb (is_proto d) p) l = true ->
  filter is_proto l = (if p then l else []) /\ filter (fun d => negb (is_proto d)) l = (if p then [] else l).
Proof.
  intros H. destruct p; split; (apply filter_all || apply filter_none); revert H; apply forallb_impl;
    intros d H; apply eqb_prop in H; rewrite H; reflexivity.
Qed.

Lemma dispatcher_kind s i flt b :
  is_dispatcher b = true ->
  forallb (fun d => Bool.eqb (is_proto d) (proto_disp b)) (dispatcher s i flt b) = true.
Proof.
  intros Hb. unfold dispatcher. rewrite forallb_flat_map. apply forallb_forall. intros fd _.
  apply dispatch_one_kind, Hb.
Qed.

Lemma filter_proto_disp s i flt b : is_dispatcher b = true ->
  filter is_proto (dispatcher s i flt b) = if proto_disp b then dispatcher s i flt b else [].
Proof. intros Hb. apply filter_by_kind, dispatcher_kind, Hb. Qed.

Lemma filter_nonproto_disp s i flt b : is_dispatcher b = true ->
  filter (fun d => negb (is_proto d)) (dispatcher s i flt b) = if proto_disp b then [] else dispatcher s i flt b.
Proof. intros Hb. apply filter_by_kind, dispatcher_kind, Hb. Qed.

Lemma pre_inv L s i : pre L s i = true ->
  NoDup (file_base_keys L s i) /\ NoDup (derived_stems L s i) /\ NoDup (fn_stems L s i) /\
  (forall k, In k (file_base_keys L s i) -> is_reserved L (snd k) = false) /\
  (forall fd, In fd (flat_file (getf s i)) -> field_names_ok L fd = true).
Proof.
  unfold pre. rewrite !andb_true_iff, !forallb_forall. intros [[[[Hb Hst] Hfn] Hres] Hf].
  repeat split; [apply nodup_keys_NoDup_rev, Hb | apply nodup_str_NoDup, Hst | apply nodup_str_NoDup, Hfn | | exact Hf].
  intros k Hk. apply negb_true_iff, Hres, Hk.
Qed.

Definition stems_of (L : lang) (px : string) (fd : fdef) : list string :=
  match L, fd_def fd with
  | LPy, DEnum n _ _ => [upper_case (dname LPy KEnum px (fd_path fd) n)]
  | LPy, _ => []
  | _, DMsg n _ _ _ => [upper_case (snake_case (dname L KMessage px (fd_path fd) n))]
  | _, _ => []
  end.
Definition fns_of (L : lang) (px : string) (fd : fdef) : list string :=
  match fd_def fd with
  | DAlias n _ => [dname L KAlias px (fd_path fd) n]
  | DMsg n _ _ _ => [dname L KMessage px (fd_path fd) n]
  | _ => [] end.

Lemma stems_flat L s i : derived_stems L s i = flat_map (stems_of L (own_px s i L)) (flat_file (getf s i)).
Proof.
  unfold derived_stems, enum_names, msg_names. destruct L; rewrite map_flat_map; apply flat_map_ext; intros fd;
    unfold stems_of; destruct (fd_def fd); reflexivity.
Qed.

Section Owned.
Variables (L : lang) (s : schema) (i : nat).
Hypothesis Hpre : pre L s i = true.
Let fl := flat_file (getf s i).
Let px := own_px s i L.

Lemma base_keys_nodup fd : In fd fl -> NoDup (base_keys L px fd).
Proof.
  intros Hfd. destruct (pre_inv L s i Hpre) as [Hb _]. apply (proj1 (NoDup_flat_map_elim _ _ Hb)), Hfd.
Qed.

Lemma owned_disjoint l1 x l2 y l3 : fl = l1 ++ x :: l2 ++ y :: l3 ->
  (forall k, In k (base_keys L px x) -> ~ In k (base_keys L px y)) /\
  (forall st, In st (stems_of L px x) -> ~ In st (stems_of L px y)) /\
  (forall f, In f (fns_of L px x) -> ~ In f (fns_of L px y)).
Proof.
  intros E. destruct (pre_inv L s i Hpre) as [Hb [Hst [Hfn _]]]. rewrite stems_flat in Hst.
  repeat split; intros a.
  - apply (proj2 (NoDup_flat_map_elim _ _ Hb) l1 x l2 y l3 E).
  - apply (proj2 (NoDup_flat_map_elim _ _ Hst) l1 x l2 y l3 E).
  - apply (proj2 (NoDup_flat_map_elim _ _ Hfn) l1 x l2 y l3 E).
Qed.

Lemma in_file_base_keys fd k : In fd fl -> In k (base_keys L px fd) -> In k (file_base_keys L s i).
Proof. intros Hfd Hk. apply in_flat_map. exists fd. split; assumption. Qed.

Lemma enum_members_nodup pth n w ms :
  In (mkF pth (DEnum n w ms)) fl -> NoDup (map (fun m => dname L KEnumField px pth (fst m)) ms).
Proof.
  intros Hfd. pose proof (base_keys_nodup _ Hfd) as H. unfold base_keys in H. cbn [fd_def fd_path] in H.
  inversion H as [|? ? _ Hms]; subst.
  apply (NoDup_map_transfer (fun m => (ns_macro L, dname L KEnumField px pth (fst m)))); [|exact Hms].
  intros a b E. rewrite E. reflexivity.
Qed.

End Owned.

(* an identifier a definition owns: a base key, a size-constant stem, a function-name stem *)
Inductive owned := OKey (k : key) | OStem (st : string) | OFn (f : string).
Definition owns (L : lang) (px : string) (fd : fdef) (o : owned) : Prop :=
  match o with
  | OKey k => In k (base_keys L px fd)
  | OStem st => In st (stems_of L px fd)
  | OFn f => In f (fns_of L px fd)
  end.

(* Every definition declares its BASE names - the keys the precondition itself speaks about - and
   names DERIVED from identifiers it owns: the image of a token (which template, which payload)
   under a map that is injective on the payloads the guards admit.  Tokens of two definitions
   differ because each is built from an identifier its definition owns by [pre]; no admissible
   base name is a derived name.
   A language supplies the token type [X] with its key ([tkey]) and the identifier it is built
   from ([own_of]), what its guards give about a base name and about a token ([base_adm],
   [tok_adm]), and the tokens of a definition ([toks_of]); the hypotheses are what it has to prove
   (C: [sub_keys_nodup] below; EmitUnique2.names_unique_Py / _Go).  Only the tokens are parametric:
   [stems_of], [fns_of], [pre] and [g_derived] are matches on the three values of [lang]. *)
Section Frame.
Context {X : Type} (L : lang) (s : schema) (i : nat).
Context (tkey : X -> key) (base_adm : key -> Prop) (tok_adm : X -> Prop) (own_of : X -> owned) (toks_of : fdef -> list X).
Hypothesis Hpre : pre L s i = true.
Hypothesis tkey_inj : forall a b, tok_adm a -> tok_adm b -> tkey a = tkey b -> a = b.
Hypothesis apart : forall k x, base_adm k -> tok_adm x -> k <> tkey x.
Hypothesis base_keys_adm : forall k, In k (file_base_keys L s i) -> base_adm k.
Hypothesis toks_of_nodup : forall fd, In fd (flat_file (getf s i)) -> NoDup (toks_of fd).
Hypothesis toks_of_adm : forall fd x, In fd (flat_file (getf s i)) -> In x (toks_of fd) -> tok_adm x.
Hypothesis toks_of_owned : forall fd x, In x (toks_of fd) -> owns L (own_px s i L) fd (own_of x).

Lemma frame_nodup :
  NoDup (flat_map (fun fd => base_keys L (own_px s i L) fd ++ map tkey (toks_of fd)) (flat_file (getf s i))).
Proof.
  apply (NoDup_base_derived _ tkey base_adm tok_adm own_of (owns L (own_px s i L))); try assumption.
  - apply (pre_inv L s i Hpre).
  - intros l1 x l2 y l3 E o. destruct (owned_disjoint L s i Hpre l1 x l2 y l3 E) as [Db [Ds Df]].
    destruct o; [apply Db | apply Ds | apply Df].
  - intros fd k Hfd Hk. apply base_keys_adm, (in_file_base_keys L s i fd k Hfd Hk).
Qed.
End Frame.

Lemma disp_keys s i flt b (h : fdef -> list key) :
  (forall fd, map dkey (dispatch_one s i flt b fd) = h fd) ->
  map dkey (dispatcher s i flt b) = flat_map h (flat_file (getf s i)).
Proof. intros H. unfold dispatcher. rewrite map_flat_map. apply flat_map_ext, H. Qed.

Section Unique.
Variables (s : schema) (i : nat) (flt : list string).
Hypothesis Hwf : wf s = true.
Hypothesis Hi : i < length s.
Hypothesis Hpre : pre LC s i = true.
Hypothesis Hgh : g_helper s i = true.
Hypothesis Hgd : g_derived LC s i = true.

Let fl := flat_file (getf s i).
Let px := own_px s i LC.

Definition toks (fd : fdef) : list tok :=
  let pth := fd_path fd in
  match fd_def fd with
  | DAlias n t =>
      let a := dname LC KAlias px pth n in (if is_arr t then [KPA a; KJA a] else []) ++ [KP a; KJ a]
  | DMsg n _ _ fs =>
      let m := dname LC KMessage px pth n in
      let arrs := filter (fun fld => is_arr (fl_ty fld)) (sort_fl fs) in
      KSize (upper_case (snake_case m)) :: map (fun fld => KPF m (fl_num fld)) arrs
        ++ map (fun fld => KJF m (fl_num fld)) arrs ++ [KI m; KP m; KJ m; KEnc m; KDec m; KJsn m]
  | _ => []
  end.

Definition decl_keys (g : fdef -> list tok) (fd : fdef) : list key := base_keys LC px fd ++ map key_of_tok (g fd).

(* a Permutation, not an equality: for a message the header writes the size macro (a token)
   before the struct tag (a base key), while [decl_keys] lists the base keys first *)
Lemma toks_keys fd :
  Permutation (map dkey (dispatch_one s i flt H_DataStructuresList fd) ++ map dkey (dispatch_one s i flt C_BoundDefinitionList fd))
              (decl_keys toks fd).
Proof.
  destruct fd as [pth d]. unfold decl_keys, toks, base_keys, dispatch_one. cbn [fd_def fd_path].
  destruct d as [n v | n t | n w ms | n x nested fs];
    unfold_dispatch.
  - reflexivity.
  - destruct t; reflexivity.
  - rewrite !app_nil_r. cbn [map dkey mk d_ns d_name]. rewrite !map_map. reflexivity.
  - cbn [map app]. rewrite !map_app, !map_map. cbn [map app dkey mk mkm d_ns d_name key_of_tok]. apply perm_swap.
Qed.

(* which identifier of its definition a token is built from *)
Definition tok_own (t : tok) : owned :=
  match t with
  | KSize st => OStem st
  | KP x | KJ x | KPA x | KJA x | KPF x _ | KJF x _ | KI x | KEnc x | KDec x | KJsn x => OFn x
  end.

Lemma tok_ids fd t : In t (toks fd) -> owns LC px fd (tok_own t).
Proof.
  destruct fd as [pth d]. unfold toks, owns, tok_own, stems_of, fns_of. cbn [fd_def fd_path].
  destruct d as [n v | n ty | n w ms | n x nested fs]; intros H; try contradiction.
  - apply in_app_or in H. destruct H as [H | H]; [destruct (is_arr ty)|];
      repeat (destruct H as [<- | H]; [left; reflexivity|]); contradiction.
  - destruct H as [<- | H]; [left; reflexivity|].
    apply in_app_or in H. destruct H as [H | H]; [apply in_map_iff in H; destruct H as [fld [<- _]]; left; reflexivity|].
    apply in_app_or in H. destruct H as [H | H]; [apply in_map_iff in H; destruct H as [fld [<- _]]; left; reflexivity|].
    repeat (destruct H as [<- | H]; [left; reflexivity|]). contradiction.
Qed.

Lemma in_names_of (g : fdef -> list string) fd x : In fd fl -> In x (g fd) -> In x (flat_map g fl).
Proof. intros H1 H2. apply in_flat_map. exists fd. split; assumption. Qed.

Lemma badm1 k : In k (file_base_keys LC s i) -> badm k.
Proof.
  intros Hk. pose proof Hgd as G. cbn [g_derived] in G.
  rewrite !forallb_app, !andb_true_iff, !forallb_forall in G. destruct G as [[[Gord_a Gord_e] _] Gmac].
  specialize (Gmac k Hk). apply in_flat_map in Hk. destruct Hk as [fd [Hfd Hk]].
  pose proof (fun g x => in_names_of g fd x Hfd) as N.
  destruct k as [[| | | |o] x]; unfold badm; cbn [fst snd] in *; try exact I; [apply negb_true_iff, Gmac|].
  destruct fd as [pth d]. unfold base_keys, ns_macro, ns_ord, ns_tag in Hk. cbn [fd_def fd_path] in *.
  destruct d as [n v | n ty | n w ms | n y nested fs].
  - destruct Hk as [E | []]. discriminate E.
  - destruct Hk as [E | []]. injection E as <-. apply negb_true_iff, Gord_a, N. left. reflexivity.
  - destruct Hk as [E | Hk]; [injection E as <-; apply negb_true_iff, Gord_e, N; left; reflexivity|].
    apply in_map_iff in Hk. destruct Hk as [m [E _]]. discriminate E.
  - destruct Hk as [E | []]. discriminate E.
Qed.

Lemma toks_adm fd t : In fd fl -> In t (toks fd) -> adm t.
Proof.
  intros Hfd Ht.
  pose proof Hgh as G1. unfold g_helper in G1. pose proof Hgd as G2. cbn [g_derived] in G2.
  rewrite forallb_app, andb_true_iff, !forallb_forall in G1.
  rewrite !forallb_app, !andb_true_iff, !forallb_forall in G2.
  destruct G1 as [Gm Ga], G2 as [[_ [Garr_m Garr_a]] _].
  (* the name lists the guards speak about are flat_maps over the definitions of the file *)
  pose proof (fun g x => in_names_of g fd x Hfd) as N.
  destruct fd as [pth d]. unfold toks in Ht. cbn [fd_def fd_path] in *.
  destruct d as [n v | n ty | n w ms | n x nested fs]; try contradiction.
  - apply in_app_or in Ht. destruct Ht as [Ht | Ht].
    + destruct (is_arr ty) eqn:Ea; [|contradiction].
      destruct Ht as [<- | [<- | []]]; apply negb_true_iff, Ga, N; cbn [fd_def]; rewrite Ea; left; reflexivity.
    + destruct Ht as [<- | [<- | []]]; apply negb_true_iff, Garr_a, N; left; reflexivity.
  - assert (Hm : In (dname LC KMessage px pth n) (msg_names LC s i)) by (apply N; left; reflexivity).
    destruct Ht as [<- | Ht]; [exact I|].
    apply in_app_or in Ht. destruct Ht as [Ht | Ht]; [apply in_map_iff in Ht; destruct Ht as [fld [<- _]]; apply negb_true_iff, Gm, Hm|].
    apply in_app_or in Ht. destruct Ht as [Ht | Ht]; [apply in_map_iff in Ht; destruct Ht as [fld [<- _]]; apply negb_true_iff, Gm, Hm|].
    destruct Ht as [<- | [<- | [<- | [<- | [<- | [<- | []]]]]]]; cbn [adm]; try exact I; apply negb_true_iff, Garr_m, Hm.
Qed.

Lemma toks_nodup fd : In fd fl -> NoDup (toks fd).
Proof.
  intros Hfd.
  pose proof (proj1 (proj2 (wf_inv s i Hwf Hi))) as Hfw. unfold fields_wf in Hfw. rewrite forallb_forall in Hfw. specialize (Hfw fd Hfd).
  destruct fd as [pth d]. unfold toks. cbn [fd_def fd_path] in *. destruct d as [n v | n ty | n w ms | n x nested fs]; try constructor.
  - destruct (is_arr ty); cbn [app]; repeat constructor; cbn [In]; intuition discriminate.
  - intros Hin. apply in_app_or in Hin. destruct Hin as [Hin | Hin]; [apply in_map_iff in Hin; destruct Hin as [b [E _]]; discriminate|].
    apply in_app_or in Hin. destruct Hin as [Hin | Hin]; [apply in_map_iff in Hin; destruct Hin as [b [E _]]; discriminate|].
    cbn [In] in Hin. intuition discriminate.
  - apply nodup_str_NoDup in Hfw.
    set (m := dname LC KMessage px pth n). set (arrs := filter (fun fld => is_arr (fl_ty fld)) (sort_fl fs)).
    assert (Hn : NoDup (map (fun fld => dec (fl_num fld)) arrs)).
    { unfold arrs. apply NoDup_map_filter. apply NoDup_map_sort_fl. exact Hfw. }
    apply NoDup_app_intro; [|apply NoDup_app_intro|].
    + apply (NoDup_map_transfer (fun fld => dec (fl_num fld))); [|exact Hn]. intros a b E. injection E as E. rewrite E. reflexivity.
    + apply (NoDup_map_transfer (fun fld => dec (fl_num fld))); [|exact Hn]. intros a b E. injection E as E. rewrite E. reflexivity.
    + repeat constructor; cbn [In]; intuition discriminate.
    + intros t Ht Ht'. apply in_map_iff in Ht. destruct Ht as [a [<- _]]. cbn [In] in Ht'. intuition discriminate.
    + intros t Ht Ht'. apply in_map_iff in Ht. destruct Ht as [a [<- _]]. apply in_app_or in Ht'. destruct Ht' as [Ht' | Ht'].
      { apply in_map_iff in Ht'. destruct Ht' as [b [E _]]. discriminate. }
      { cbn [In] in Ht'. intuition discriminate. }
Qed.

(* the keys of any sub-list of the tokens, with or without the base names *)
Lemma sub_keys_nodup (g : fdef -> list tok) :
  (forall fd, In fd fl -> NoDup (g fd)) -> (forall fd, incl (g fd) (toks fd)) ->
  NoDup (flat_map (decl_keys g) fl) /\ NoDup (flat_map (fun fd => map key_of_tok (g fd)) fl).
Proof.
  intros Hn Hin.
  assert (H : NoDup (flat_map (decl_keys g) fl)); [|split; [exact H | exact (NoDup_flat_map_app_r _ _ _ H)]].
  apply (frame_nodup LC s i key_of_tok badm adm tok_own g Hpre key_of_tok_inj key_apart badm1 Hn).
  - intros fd t Hfd Ht. apply (toks_adm fd t Hfd), Hin, Ht.
  - intros fd t Ht. apply tok_ids, Hin, Ht.
Qed.

Lemma fixed_not_declared (g : fdef -> list tok) k : fixed_macro k -> ~ In k (flat_map (decl_keys g) fl).
Proof.
  intros F H. destruct (fixed_fresh k F) as [B T]. apply in_flat_map in H. destruct H as [fd [Hfd H]].
  apply in_app_or in H. destruct H as [H | H]; [apply B, badm1, (in_file_base_keys LC s i fd k Hfd H)|].
  apply in_map_iff in H. destruct H as [t [E _]]. apply (T t). symmetry. exact E.
Qed.

Definition user_proto_toks (fd : fdef) : list tok :=
  match fd_def fd with
  | DMsg n _ _ _ => let m := dname LC KMessage px (fd_path fd) n in [KEnc m; KDec m; KJsn m]
  | _ => [] end.
Definition internal_proto_toks (fd : fdef) : list tok :=
  match fd_def fd with
  | DAlias n _ => let a := dname LC KAlias px (fd_path fd) n in [KP a; KJ a]
  | DMsg n _ _ _ => let m := dname LC KMessage px (fd_path fd) n in [KP m; KJ m]
  | _ => [] end.

Lemma proto_toks_keys fd :
  Permutation (map dkey (dispatch_one s i flt H_FunctionDeclarationsForUserList fd) ++
               map dkey (dispatch_one s i flt H_FunctionDeclarationsForInternalList fd))
              (map key_of_tok (user_proto_toks fd ++ internal_proto_toks fd)).
Proof.
  destruct fd as [pth d]. unfold user_proto_toks, internal_proto_toks, dispatch_one. cbn [fd_def fd_path].
  destruct d; unfold_dispatch; reflexivity.
Qed.

Lemma proto_toks_incl fd : incl (user_proto_toks fd ++ internal_proto_toks fd) (toks fd).
Proof.
  unfold user_proto_toks, internal_proto_toks, toks. destruct (fd_def fd) as [n v | n ty | n w ms | n x nested fs]; intros t Ht; cbn [app In] in Ht.
  - contradiction.
  - apply in_or_app. right. exact Ht.
  - contradiction.
  - right. apply in_or_app. right. apply in_or_app. right. cbn [In]. intuition.
Qed.

Lemma proto_toks_nodup fd : NoDup (user_proto_toks fd ++ internal_proto_toks fd).
Proof.
  unfold user_proto_toks, internal_proto_toks. destruct (fd_def fd); cbn [app]; repeat constructor; cbn [In]; intuition discriminate.
Qed.

Lemma disp_keys_perm b1 b2 (h : fdef -> list key) :
  (forall fd, Permutation (map dkey (dispatch_one s i flt b1 fd) ++ map dkey (dispatch_one s i flt b2 fd)) (h fd)) ->
  Permutation (map dkey (dispatcher s i flt b1) ++ map dkey (dispatcher s i flt b2)) (flat_map h fl).
Proof.
  intros H. unfold dispatcher. rewrite !map_flat_map, flat_map_app_perm. apply flat_map_perm_ext, H.
Qed.

Lemma tu_decls_eq :
  decls_of (render_items s i TgH flt ++ render_items s i TgC flt) =
  guard_decl s i :: dispatcher s i flt H_DataStructuresList ++ dispatcher s i flt H_FunctionDeclarationsForUserList
             ++ dispatcher s i flt H_FunctionDeclarationsForInternalList ++ dispatcher s i flt C_BoundDefinitionList.
Proof.
  rewrite items_TgH, items_TgC. unfold disp.
  change (h_guard s i :: ?l) with ([h_guard s i] ++ l). change (c_self_include s i :: ?l) with ([c_self_include s i] ++ l).
  rewrite !decls_of_app, !decls_of_decls. unfold h_includes. rewrite decls_of_imports.
  cbn [decls_of flat_map h_guard c_self_include app]. rewrite <- !app_assoc. reflexivity.
Qed.

Lemma guard_fixed : fixed_macro (dkey (guard_decl s i)).
Proof. split; [reflexivity|]. cbn [dkey guard_decl mk d_name snd]. unfold h_guard_macro. apply starts_any_lit. reflexivity. Qed.

(* From the output to the list of [frame_nodup], the same steps for C, Python and Go: [items_Tg*]
   writes the output as fixed items and dispatchers; [decls_of_*] drops the import statements;
   [unique_b_intro] with [filter_(non)proto_disp] separates prototypes from definitions, dispatcher
   by dispatcher; a [*_keys] lemma (by [unfold_dispatch]) reads what a dispatcher declares for one
   definition as base keys ++ keys of tokens, and [disp_keys] / [disp_keys_perm] lifts it to the file. *)
Theorem names_unique_C : unique_b (decls_of (render_items s i TgH flt ++ render_items s i TgC flt)) = true.
Proof.
  rewrite tu_decls_eq. change (guard_decl s i :: ?l) with ([guard_decl s i] ++ l).
  apply unique_b_intro; rewrite !filter_app, ?filter_proto_disp, ?filter_nonproto_disp by reflexivity;
    cbn [proto_disp filter guard_decl mk is_proto d_kind negb app]; rewrite ?app_nil_r.
  - (* defining declarations *)
    pose proof (disp_keys_perm H_DataStructuresList C_BoundDefinitionList _ toks_keys) as P.
    cbn [map]. rewrite map_app. constructor.
    + intros Hin. apply (Permutation_in _ P) in Hin. apply (fixed_not_declared toks _ guard_fixed Hin).
    + apply (Permutation_NoDup (Permutation_sym P)). apply sub_keys_nodup; [exact toks_nodup | intros fd; apply incl_refl].
  - (* prototypes *)
    rewrite map_app. apply (Permutation_NoDup (Permutation_sym (disp_keys_perm _ _ _ proto_toks_keys))).
    apply sub_keys_nodup; [intros fd _; apply proto_toks_nodup | exact proto_toks_incl].
Qed.

(* the -O translation unit (header + source of optimization mode, with any -F list) *)

Definition opmode_proto_toks (fd : fdef) : list tok :=
  match fd_def fd with
  | DMsg n x nested fs =>
      let m := dname LC KMessage px (fd_path fd) n in
      if negb (passes_filter flt (DMsg n x nested fs)) then [] else [KEnc m; KDec m]
  | _ => [] end.
Definition opmode_toks (fd : fdef) : list tok :=
  match fd_def fd with
  | DMsg n _ _ _ => KSize (upper_case (snake_case (dname LC KMessage px (fd_path fd) n))) :: opmode_proto_toks fd
  | _ => [] end.

Lemma opmode_toks_keys fd :
  Permutation (map dkey (dispatch_one s i flt H_DataStructuresList fd) ++ map dkey (dispatch_one s i flt C_BoundDefinitionListOpMode fd))
              (decl_keys opmode_toks fd).
Proof.
  destruct fd as [pth d]. unfold decl_keys, opmode_toks, opmode_proto_toks, base_keys, dispatch_one. cbn [fd_def fd_path].
  destruct d as [n v | n t | n w ms | n x nested fs];
    unfold_dispatch.
  - reflexivity.
  - reflexivity.
  - rewrite !app_nil_r. cbn [map dkey mk d_ns d_name]. rewrite !map_map. reflexivity.
  - destruct (negb (passes_filter flt (DMsg n x nested fs))); apply perm_swap.
Qed.
Lemma opmode_proto_toks_keys fd :
  map dkey (dispatch_one s i flt H_FunctionDeclarationsForUserListOpMode fd) = map key_of_tok (opmode_proto_toks fd).
Proof.
  destruct fd as [pth d]. unfold opmode_proto_toks, dispatch_one. cbn [fd_def fd_path].
  destruct d as [n v | n t | n w ms | n x nested fs];
    unfold_dispatch; try reflexivity.
  destruct (negb (passes_filter flt (DMsg n x nested fs))); reflexivity.
Qed.

Lemma opmode_toks_incl fd : incl (opmode_proto_toks fd) (opmode_toks fd) /\ incl (opmode_toks fd) (toks fd).
Proof.
  unfold opmode_toks, opmode_proto_toks, toks. destruct (fd_def fd) as [n v | n ty | n w ms | n x nested fs];
    split; intros t Ht; try contradiction; [right; exact Ht|].
  destruct Ht as [<- | Ht]; [left; reflexivity|]. right.
  destruct (negb (passes_filter flt (DMsg n x nested fs))); [contradiction|].
  apply in_or_app. right. apply in_or_app. right. cbn [In] in *. intuition.
Qed.

Lemma opmode_toks_nodup fd : NoDup (opmode_toks fd) /\ NoDup (opmode_proto_toks fd).
Proof.
  unfold opmode_toks, opmode_proto_toks. destruct (fd_def fd) as [n v | n ty | n w ms | n x nested fs]; try (split; constructor).
  destruct (negb (passes_filter flt (DMsg n x nested fs))); split; repeat constructor; cbn [In]; intuition discriminate.
Qed.

Lemma tuo_decls_eq :
  decls_of (render_items s i TgHO flt ++ render_items s i TgCO flt) =
  guard_decl s i :: opt_decl :: dispatcher s i flt H_DataStructuresList
             ++ dispatcher s i flt H_FunctionDeclarationsForUserListOpMode ++ dispatcher s i flt C_BoundDefinitionListOpMode.
Proof.
  rewrite items_TgHO, items_TgCO. unfold disp.
  change (h_guard s i :: ?l) with ([h_guard s i] ++ l). change (c_self_include s i :: ?l) with ([c_self_include s i] ++ l).
  change (h_includes s i ++ IDecl ?d :: ?l) with (h_includes s i ++ [IDecl d] ++ l).
  rewrite !decls_of_app, !decls_of_decls. unfold h_includes. rewrite decls_of_imports.
  cbn [decls_of flat_map h_guard c_self_include app]. rewrite <- !app_assoc. reflexivity.
Qed.

Theorem names_unique_CO : unique_b (decls_of (render_items s i TgHO flt ++ render_items s i TgCO flt)) = true.
Proof.
  rewrite tuo_decls_eq. change (guard_decl s i :: opt_decl :: ?l) with ([guard_decl s i; opt_decl] ++ l).
  apply unique_b_intro; rewrite !filter_app, ?filter_proto_disp, ?filter_nonproto_disp by reflexivity;
    cbn [proto_disp filter guard_decl opt_decl mk is_proto d_kind negb app]; rewrite ?app_nil_r.
  - pose proof (disp_keys_perm H_DataStructuresList C_BoundDefinitionListOpMode _ opmode_toks_keys) as P.
    cbn [map]. rewrite map_app. constructor; [|constructor].
    + intros [Hin | Hin]; [discriminate Hin|]. apply (Permutation_in _ P) in Hin.
      apply (fixed_not_declared opmode_toks _ guard_fixed Hin).
    + intros Hin. apply (Permutation_in _ P) in Hin.
      apply (fixed_not_declared opmode_toks (dkey opt_decl) (conj eq_refl eq_refl) Hin).
    + apply (Permutation_NoDup (Permutation_sym P)). apply sub_keys_nodup.
      * intros fd _. apply (proj1 (opmode_toks_nodup fd)).
      * intros fd. apply (proj2 (opmode_toks_incl fd)).
  - rewrite (disp_keys s i flt _ _ opmode_proto_toks_keys). apply sub_keys_nodup.
    + intros fd _. apply (proj2 (opmode_toks_nodup fd)).
    + intros fd t Ht. apply (proj2 (opmode_toks_incl fd)), (proj1 (opmode_toks_incl fd)), Ht.
Qed.

End Unique.
