(* OpMode.v — optimization mode (-O) of the C and Go renderers.

   1. the compile-time copy plan: [leaves] (the recursion over message / array / alias of
      Formatter.format_op_mode_endecode_*, arrays unrolled, alias passes the alias down) and
      [plan_loop] (the (i, j, c) loop; its step size, exit test and the five per-item
      numbers come from BPGen.GenOpMode, regenerated from the compiler on every run);
   2. what each target formatter prints for a plan item ([stmt]: the C little-endian
      byte-pointer statements, the C big-endian value statements, memset, the C sign
      statement, the Go statements), and the --endian / BP_BIG_ENDIAN selection;
   3. what those statements MEAN in C resp. Go ([exec]): explicit integer promotion,
      conversion and wrap-around at exactly the places where the language has them.

   Everything is total and executable; proofs live in OpModeStep.v, OpModeLeaf.v,
   OpModeLeafDec.v, OpModeList.v and OpModeProofs.v. *)
From Coq Require Import ZArith List Bool Lia.
From BP Require Import Bits Schema Spec.
From BPGen Require Import GenOpMode.
Import ListNotations.
Open Scope Z_scope.

(* ---------- field name chains ---------- *)

Inductive sel := SF (n : Z) | SI (k : nat).     (* .field(number)   [index] *)
Definition chain := list sel.

Definition sel_eqb (a b : sel) : bool :=
  match a, b with
  | SF x, SF y => x =? y
  | SI x, SI y => Nat.eqb x y
  | _, _ => false
  end.

Fixpoint chain_eqb (a b : chain) : bool :=
  match a, b with
  | [], [] => true
  | x :: r, y :: s => sel_eqb x y && chain_eqb r s
  | _, _ => false
  end.

(* ---------- scalar types of the target languages ---------- *)

(* bool | unsigned sz-bit | signed sz-bit   (C: bool, uintN_t / unsigned char, intN_t;
   Go: bool, uintN / byte, intN; typedef / named types are resolved by the T1 parsers) *)
Inductive cty := CBool | CU (sz : Z) | CS (sz : Z).

Definition cty_eqb (a b : cty) : bool :=
  match a, b with
  | CBool, CBool => true
  | CU x, CU y => x =? y
  | CS x, CS y => x =? y
  | _, _ => false
  end.

(* what a single-type field is, as far as the formatters look at it *)
Inductive lkind := KBool | KByte | KUint (n : Z) | KInt (n : Z) | KEnum (n : Z).
Record leaf := mkleaf { lk : lkind; lalias : bool }.

(* Formatter.get_nbits_of_integer over Type.nbytes (both translated) *)
Definition storage_bits (n : Z) : Z := storage_bits_of_nbytes (type_nbytes n).

Definition leaf_bits (lf : leaf) : Z :=
  match lk lf with
  | KBool => bool_nbits
  | KByte => byte_nbits
  | KUint n | KInt n | KEnum n => n
  end.

(* format_type: declared type of the struct member (typedefs resolved) *)
Definition leaf_cty (lf : leaf) : cty :=
  match lk lf with
  | KBool => CBool
  | KByte => CU 8
  | KUint n | KEnum n => CU (storage_bits n)
  | KInt n => CS (storage_bits n)
  end.

(* CFormatter._format_unsigned_chain_type *)
Definition leaf_uty (lf : leaf) : cty :=
  match lk lf with
  | KBool => CU 8
  | KByte => CU 8
  | KUint n | KEnum n | KInt n => CU (storage_bits n)
  end.

(* ---------- the recursion over message / array / alias ---------- *)

Definition single_leaf (t : ty) (al : bool) : option leaf :=
  match t with
  | TBool => Some (mkleaf KBool al)
  | TByte => Some (mkleaf KByte al)
  | TUint n => Some (mkleaf (KUint n) al)
  | TInt n => Some (mkleaf (KInt n) al)
  | TEnum n _ => Some (mkleaf (KEnum n) al)
  | _ => None
  end.

Definition one_leaf (t : ty) (al : bool) : list (chain * leaf) :=
  match single_leaf t al with Some lf => [([], lf)] | None => [] end.

Definition pre {A} (s : sel) (x : chain * A) : chain * A := (s :: fst x, snd x).

(* leaves in the order the formatter visits them; the formatter walks
   [sorted_fields()], i.e. this is applied to [norm t] *)
Fixpoint leaves (t : ty) : list (chain * leaf) :=
  match t with
  | TAlias t' =>
      match t' with
      | TArr _ _ _ => leaves t'                 (* format_op_mode_endecode_array(t_, chain) *)
      | _ => one_leaf t' true                   (* single type: the alias itself is passed *)
      end
  | TArr _ cap e => flat_map (fun k => map (pre (SI k)) (leaves e)) (seq 0 cap)
  | TMsg _ fs =>
      (fix go (l : list (Z * ty)) : list (chain * leaf) :=
         match l with
         | [] => []
         | kf :: r => map (pre (SF (fst kf))) (leaves (snd kf)) ++ go r
         end) fs
  | _ => one_leaf t false
  end.

(* the schemas -O accepts and the formatter can walk: no extensible marker anywhere,
   alias targets are base types or arrays, an array element is not directly an array *)
Fixpoint opmode_ok (t : ty) : bool :=
  match t with
  | TAlias t' =>
      match t' with
      | TArr _ _ _ => opmode_ok t'
      | TBool | TByte | TUint _ | TInt _ => true
      | _ => false
      end
  | TArr x _ e => negb x && match e with TArr _ _ _ => false | _ => true end && opmode_ok e
  | TMsg x fs =>
      negb x &&
      (fix go (l : list (Z * ty)) : bool :=
         match l with
         | [] => true
         | kf :: r => opmode_ok (snd kf) && go r
         end) fs
  | _ => true
  end.

(* ---------- the (i, j, c) loop ---------- *)

Fixpoint plan_loop (fuel : nat) (i j n : Z) : list (Z * Z * Z) :=
  match fuel with
  | O => []
  | S f =>
      if plan_continue j n then
        let c := plan_step i j n in (i, j, c) :: plan_loop f (i + c) (j + c) n
      else []
  end.

Definition leaf_plan (i0 n : Z) : list (Z * Z * Z) := plan_loop (Z.to_nat n) i0 0 n.

(* where the cursor i[0] stands after the loop *)
Definition plan_end (i0 : Z) (p : list (Z * Z * Z)) : Z :=
  fold_left (fun a x => a + snd x) p i0.

(* ---------- statements ---------- *)

Inductive goconv := GPlain | GB2B | GB2BCast.
   (* byte(f ..) | bool2byte(f) / byte2bool(..) | bool2byte(bool(f)) / T(byte2bool(..)) *)

(* shifts are signed: sh > 0 is `>> sh`, sh < 0 is `<< -sh`, 0 is no operator *)
Inductive stmt :=
| SEncLE (si : Z) (asg : bool) (ch : chain) (fi sh mask : Z)
    (* s[si] (=||=) (bytes_of(ch)[fi] sh) & mask;     bytes_of(x) is the cast of &x to unsigned char pointer *)
| SDecLE (ch : chain) (fi : Z) (asg : bool) (si sh mask : Z)
    (* bytes_of(ch)[fi] (=||=) (s[si] sh) & mask; *)
| SEncBE (si : Z) (asg : bool) (ut : cty) (ch : chain) (sh mask : Z)
    (* s[si] (=||=) ((ut)(ch) sh) & mask; *)
| SDecBE (ch : chain) (ct : cty) (ut : option cty) (si sh mask fish : Z)
    (* ch |= (ct)((ut)(((unsigned)(s[si]) sh) & mask) << fish);   resp. without (ut) ... << fish *)
| SSignC (ch : chain) (k mask : Z) (special : bool)
    (* if ((ch >> k) & 1) ch |= mask;   special: mask spelled (-9223372036854775807 - 1) *)
| SMemset
    (* memset(m, 0, sizeof( *m)); *)
| SEncGo (si : Z) (cv : goconv) (ch : chain) (bsh sh mask : Z)
    (* s[si] |= (byte(ch >> bsh) sh) & mask *)
| SDecGo (ch : chain) (asg : bool) (ct : cty) (cv : goconv) (si sh mask fish : Z)
    (* ch (=||=) ct(byte(s[si] sh) & mask) << fish *)
| SShlGo (ch : chain) (d : Z)      (* ch <<= d *)
| SShrGo (ch : chain) (d : Z).     (* ch >>= d *)

Inductive lang := CLE | CBE | GO.

Definition go_conv_of (lf : leaf) : goconv :=
  match lk lf with
  | KBool => if lalias lf then GB2BCast else GB2B
  | _ => GPlain
  end.

Definition is_kbool (lf : leaf) : bool := match lk lf with KBool => true | _ => false end.

Definition item (L : lang) (enc : bool) (lf : leaf) (ch : chain) (p : Z * Z * Z) : stmt :=
  let '(i, j, c) := p in
  match L, enc with
  | CLE, true =>
      SEncLE (enc_si i j c) (c_le_enc_assign (enc_r i j c)) ch (enc_fi i j c) (enc_shift i j c) (enc_mask i j c)
  | CLE, false =>
      SDecLE ch (dec_fi i j c) (c_le_dec_assign (dec_r i j c)) (dec_si i j c) (dec_shift i j c) (dec_mask i j c)
  | CBE, true =>
      SEncBE (enc_si i j c) (c_be_enc_assign (enc_r i j c)) (leaf_uty lf) ch
             (c_be_total_shift (enc_fi i j c) (enc_shift i j c)) (enc_mask i j c)
  | CBE, false =>
      let fish := c_be_fi_shift (dec_fi i j c) in
      SDecBE ch (leaf_cty lf) (if c_be_has_fi_shift fish then Some (leaf_uty lf) else None)
             (dec_si i j c) (dec_shift i j c) (dec_mask i j c) (if c_be_has_fi_shift fish then fish else 0)
  | GO, true =>
      SEncGo (enc_si i j c) (go_conv_of lf) ch
             (if go_enc_has_bshift (enc_fi i j c) then go_enc_bshift (enc_fi i j c) else 0)
             (enc_shift i j c) (enc_mask i j c)
  | GO, false =>
      SDecGo ch (is_kbool lf) (leaf_cty lf) (go_conv_of lf) (dec_si i j c) (dec_shift i j c) (dec_mask i j c)
             (if go_dec_has_bshift (dec_fi i j c) then go_dec_bshift (dec_fi i j c) else 0)
  end.

(* post_format_op_mode_endecode_single_type / _int *)
Definition post (L : lang) (enc : bool) (lf : leaf) (ch : chain) : list stmt :=
  match lk lf with
  | KInt n =>
      if enc then [] else
      match L with
      | GO => if go_no_sign_stmt n then [] else
              [SShlGo ch (go_sign_d (storage_bits n) n); SShrGo ch (go_sign_d (storage_bits n) n)]
      | _ => if c_no_sign_stmt n then [] else [SSignC ch (n - 1) (c_sign_mask n) (c_sign_special n)]
      end
  | _ => []
  end.

Definition leaf_stmts (L : lang) (enc : bool) (x : chain * leaf) (i0 : Z) : list stmt :=
  map (item L enc (snd x) (fst x)) (leaf_plan i0 (leaf_bits (snd x))) ++ post L enc (snd x) (fst x).

Fixpoint all_stmts (L : lang) (enc : bool) (ls : list (chain * leaf)) (i : Z) : list stmt :=
  match ls with
  | [] => []
  | x :: r => leaf_stmts L enc x i ++
              all_stmts L enc r (plan_end i (leaf_plan i (leaf_bits (snd x))))
  end.

(* the statement list of Encode<Msg> / Decode<Msg> for message type t *)
Definition stmts (L : lang) (enc : bool) (t : ty) : list stmt := all_stmts L enc (leaves (norm t)) 0.

(* ---------- renderer_c.py: --endian and the preprocessor skeleton ---------- *)

Inductive endian := ELittle | EBig | EBoth.
Inductive cbody :=
| BPlain (l : list stmt)
| BIfndef (le be : list stmt).     (* #ifndef BP_BIG_ENDIAN  le  #else  be  #endif *)

Definition c_le_body (enc : bool) (t : ty) : list stmt := stmts CLE enc t.
Definition c_be_body (enc : bool) (t : ty) : list stmt :=
  (if enc then [] else [SMemset]) ++ stmts CBE enc t.

Definition c_body (e : endian) (enc : bool) (t : ty) : cbody :=
  match e with
  | ELittle => BPlain (c_le_body enc t)
  | EBig => BPlain (c_be_body enc t)
  | EBoth => BIfndef (c_le_body enc t) (c_be_body enc t)
  end.

(* what the preprocessor leaves when BP_BIG_ENDIAN is / is not defined *)
Definition select (macro_defined : bool) (b : cbody) : list stmt :=
  match b with
  | BPlain l => l
  | BIfndef le be => if macro_defined then be else le
  end.

Definition go_body (enc : bool) (t : ty) : list stmt := stmts GO enc t.

(* ---------- memory ---------- *)

(* one scalar object: declared type and bit pattern (0 <= pat < 2^size); on a little-endian
   host byte k of the object is bits [8k, 8k+8) of pat *)
Record cell := mkcell { cty_of : cty; pat : Z }.
Definition mem := list (chain * cell).
Record state := mkst { buf : list Z; objs : mem }.

Fixpoint mem_get (m : mem) (ch : chain) : option cell :=
  match m with
  | [] => None
  | x :: r => if chain_eqb (fst x) ch then Some (snd x) else mem_get r ch
  end.

Fixpoint mem_set (m : mem) (ch : chain) (u : Z) : mem :=
  match m with
  | [] => []
  | x :: r => if chain_eqb (fst x) ch then (fst x, mkcell (cty_of (snd x)) u) :: r
              else x :: mem_set r ch u
  end.

Definition csz (T : cty) : Z := match T with CBool => 8 | CU sz | CS sz => sz end.

(* value of an object of type T holding pattern u *)
Definition sval (T : cty) (u : Z) : Z :=
  match T with
  | CS sz => if u <? 2 ^ (sz - 1) then u else u - 2 ^ sz
  | _ => u
  end.

(* conversion of an integer value to type T, as the pattern stored (C: modular for unsigned,
   implementation-defined = modular for signed (gcc); bool: != 0.  Go: same for integers) *)
Definition upat (T : cty) (z : Z) : Z :=
  match T with
  | CBool => if z =? 0 then 0 else 1
  | CU sz | CS sz => z mod 2 ^ sz
  end.

Definition conv (T : cty) (z : Z) : Z := sval T (upat T z).

Definition get_byte (u fi : Z) : Z := (u / 2 ^ (8 * fi)) mod 256.
Definition set_byte (u fi b : Z) : Z := u - get_byte u fi * 2 ^ (8 * fi) + b * 2 ^ (8 * fi).

Definition bind {A B} (o : option A) (f : A -> option B) : option B :=
  match o with Some a => f a | None => None end.
Notation "x <- e ;; f" := (bind e (fun x => f)) (at level 61, e at next level, right associativity).

Definition rd (s : list Z) (k : Z) : option Z :=
  if k <? 0 then None else nth_error s (Z.to_nat k).
Definition wr (s : list Z) (k : Z) (b : Z) : list Z := upd s (Z.to_nat k) b.

(* C: E sh  for an operand of type T holding value z (z >= 0), after integer promotion.
   Types narrower than int are promoted to 32-bit signed int, where overflow of << is
   undefined behaviour (None); unsigned 32/64-bit operands wrap.  A shift count >= the
   promoted width is undefined. *)
Definition c_shift (T : cty) (z sh : Z) : option Z :=
  let w := Z.max 32 (csz T) in
  if sh =? 0 then Some z
  else if 0 <? sh then (if sh <? w then Some (Z.shiftr z sh) else None)
  else
    let k := - sh in
    if w <=? k then None else
    match T with
    | CU sz => if sz <? 32 then (if z * 2 ^ k <? 2 ^ 31 then Some (z * 2 ^ k) else None)
               else Some ((z * 2 ^ k) mod 2 ^ sz)
    | _ => if (0 <=? z) && (z * 2 ^ k <? 2 ^ (w - 1)) then Some (z * 2 ^ k) else None
    end.

(* C: s[si] = e  /  s[si] |= e  on unsigned char *)
Definition store_byte (asg : bool) (old e : Z) : Z := (if asg then e else Z.lor old e) mod 256.

(* Go: byte-typed shift (8-bit result) *)
Definition go_shift8 (b sh : Z) : Z :=
  if sh <? 0 then (b * 2 ^ (- sh)) mod 256 else Z.shiftr b sh.

Definition is_unsigned (T : cty) : bool := match T with CU _ => true | _ => false end.
Definition is_cbool (T : cty) : bool := match T with CBool => true | _ => false end.

Definition exec (st : state) (x : stmt) : option state :=
  match x with
  | SEncLE si asg ch fi sh mask =>
      c <- mem_get (objs st) ch ;;
      if (0 <=? fi) && (8 * fi <? csz (cty_of c)) then
        e1 <- c_shift (CU 8) (get_byte (pat c) fi) sh ;;
        old <- rd (buf st) si ;;
        Some (mkst (wr (buf st) si (store_byte asg old (Z.land e1 mask))) (objs st))
      else None
  | SDecLE ch fi asg si sh mask =>
      b <- rd (buf st) si ;;
      e1 <- c_shift (CU 8) b sh ;;
      c <- mem_get (objs st) ch ;;
      if (0 <=? fi) && (8 * fi <? csz (cty_of c)) then
        Some (mkst (buf st)
                (mem_set (objs st) ch
                   (set_byte (pat c) fi (store_byte asg (get_byte (pat c) fi) (Z.land e1 mask)))))
      else None
  | SEncBE si asg ut ch sh mask =>
      c <- mem_get (objs st) ch ;;
      if is_unsigned ut then
        e1 <- c_shift ut (upat ut (sval (cty_of c) (pat c))) sh ;;
        old <- rd (buf st) si ;;
        Some (mkst (wr (buf st) si (store_byte asg old (Z.land e1 mask))) (objs st))
      else None
  | SDecBE ch ct ut si sh mask fish =>
      b <- rd (buf st) si ;;
      e1 <- c_shift (CU 32) b sh ;;
      let bv := Z.land e1 mask in
      x3 <- match ut with
            | Some uT => if is_unsigned uT && (0 <? fish) then c_shift uT (upat uT bv) (- fish) else None
            | None => if fish =? 0 then Some bv else None
            end ;;
      c <- mem_get (objs st) ch ;;
      let T := cty_of c in
      Some (mkst (buf st) (mem_set (objs st) ch (upat T (Z.lor (sval T (pat c)) (conv ct x3)))))
  | SSignC ch k mask _ =>
      c <- mem_get (objs st) ch ;;
      let T := cty_of c in
      if (0 <=? k) && (k <? Z.max 32 (csz T)) then
        let v := sval T (pat c) in
        if Z.land (Z.shiftr v k) 1 =? 0 then Some st
        else Some (mkst (buf st) (mem_set (objs st) ch (upat T (Z.lor v mask))))
      else None
  | SMemset =>
      Some (mkst (buf st) (map (fun x => (fst x, mkcell (cty_of (snd x)) 0)) (objs st)))
  | SEncGo si cv ch bsh sh mask =>
      c <- mem_get (objs st) ch ;;
      let T := cty_of c in
      v <- match cv with
           | GPlain => if is_cbool T then None else Some (sval T (pat c))
           | _ => if is_cbool T then Some (if pat c =? 0 then 0 else 1) else None
           end ;;
      if (0 <=? bsh) && (0 <=? mask) && (mask <? 256) then
        let b := (Z.shiftr v bsh) mod 256 in
        old <- rd (buf st) si ;;
        Some (mkst (wr (buf st) si (Z.lor old (Z.land (go_shift8 b sh) mask))) (objs st))
      else None
  | SDecGo ch asg ct cv si sh mask fish =>
      b <- rd (buf st) si ;;
      c <- mem_get (objs st) ch ;;
      let T := cty_of c in
      if (0 <=? fish) && (0 <=? mask) && (mask <? 256) && cty_eqb ct T then
        let bv := Z.land (go_shift8 b sh) mask in
        match cv with
        | GPlain =>
            if is_cbool T then None else
            let x2 := conv T (conv T bv * 2 ^ fish) in
            Some (mkst (buf st)
                    (mem_set (objs st) ch (upat T (if asg then x2 else Z.lor (sval T (pat c)) x2))))
        | _ =>
            if is_cbool T && asg && (fish =? 0) then
              Some (mkst (buf st) (mem_set (objs st) ch (if 0 <? bv then 1 else 0)))
            else None
        end
      else None
  | SShlGo ch d =>
      c <- mem_get (objs st) ch ;;
      let T := cty_of c in
      if is_cbool T || (d <? 0) then None
      else Some (mkst (buf st) (mem_set (objs st) ch (upat T (sval T (pat c) * 2 ^ d))))
  | SShrGo ch d =>
      c <- mem_get (objs st) ch ;;
      let T := cty_of c in
      if is_cbool T || (d <? 0) then None
      else Some (mkst (buf st) (mem_set (objs st) ch (upat T (Z.shiftr (sval T (pat c)) d))))
  end.

Fixpoint run (l : list stmt) (st : state) : option state :=
  match l with
  | [] => Some st
  | x :: r => st' <- exec st x ;; run r st'
  end.

(* ---------- the storage a value tree occupies ---------- *)

Definition leaf_pat (lf : leaf) (v : val) : Z :=
  match lk lf with
  | KBool => match v with VB true => 1 | _ => 0 end
  | _ => zof v mod 2 ^ csz (leaf_cty lf)
  end.

(* the scalar objects of a value tree: chain, what the field is, its value *)
Definition one_cell (t : ty) (al : bool) (v : val) : list (chain * (leaf * val)) :=
  match single_leaf t al with
  | Some lf => [([], (lf, v))]
  | None => []
  end.

Fixpoint cells (t : ty) (v : val) : list (chain * (leaf * val)) :=
  match t with
  | TAlias t' =>
      match t' with
      | TArr _ _ _ => cells t' v
      | _ => one_cell t' true v
      end
  | TArr _ cap e =>
      flat_map (fun k => map (pre (SI k)) (cells e (nth k (vlist v) (VZ 0)))) (seq 0 cap)
  | TMsg _ fs =>
      (fix go (l : list (Z * ty)) : list (chain * (leaf * val)) :=
         match l with
         | [] => []
         | kf :: r => map (pre (SF (fst kf))) (cells (snd kf) (vfield (fst kf) v)) ++ go r
         end) fs
  | _ => one_cell t false v
  end.

Definition cell_of (x : chain * (leaf * val)) : chain * cell :=
  (fst x, mkcell (leaf_cty (fst (snd x))) (leaf_pat (fst (snd x)) (snd (snd x)))).

(* the struct memory holding value v (every member, declared type and bit pattern) *)
Definition store (t : ty) (v : val) : mem := map cell_of (cells t v).

Definition zero_mem (t : ty) : mem :=
  map (fun x => (fst x, mkcell (leaf_cty (snd x)) 0)) (leaves t).

(* the declared member types, in order (compared with the parsed struct declarations) *)
Definition member_types (t : ty) : list (chain * cty) :=
  map (fun x => (fst x, leaf_cty (snd x))) (leaves (norm t)).

(* entry points used by the theorems and by the case files *)
Definition run_encode (l : list stmt) (t : ty) (v : val) : option (list Z) :=
  st <- run l (mkst (zeros (Z.to_nat (nbytes t))) (store (norm t) v)) ;; Some (buf st).

Definition run_decode (l : list stmt) (t : ty) (s : list Z) : option mem :=
  st <- run l (mkst s (zero_mem (norm t))) ;; Some (objs st).

(* decode into a target whose objects hold arbitrary patterns (tie only) *)
Definition run_decode_from (l : list stmt) (m0 : mem) (s : list Z) : option mem :=
  st <- run l (mkst s m0) ;; Some (objs st).

(* ---------- decidable equality on statements (T1 comparison) ---------- *)

Definition sel_eq_dec (a b : sel) : {a = b} + {a <> b}.
Proof. decide equality; [apply Z.eq_dec | apply Nat.eq_dec]. Defined.
Definition cty_eq_dec (a b : cty) : {a = b} + {a <> b}.
Proof. decide equality; apply Z.eq_dec. Defined.
Definition stmt_eq_dec (a b : stmt) : {a = b} + {a <> b}.
Proof.
  decide equality;
    try apply Z.eq_dec; try apply bool_dec; try apply (list_eq_dec sel_eq_dec);
    try apply cty_eq_dec; try (decide equality; apply cty_eq_dec);
    try (decide equality).
Defined.

Definition stmts_eqb (a b : list stmt) : bool :=
  if list_eq_dec stmt_eq_dec a b then true else false.

Definition cbody_eqb (a b : cbody) : bool :=
  match a, b with
  | BPlain x, BPlain y => stmts_eqb x y
  | BIfndef x1 x2, BIfndef y1 y2 => stmts_eqb x1 y1 && stmts_eqb x2 y2
  | _, _ => false
  end.

Fixpoint mtypes_eqb (a b : list (chain * cty)) : bool :=
  match a, b with
  | [], [] => true
  | x :: r, y :: s => chain_eqb (fst x) (fst y) && cty_eqb (snd x) (snd y) && mtypes_eqb r s
  | _, _ => false
  end.

Fixpoint mem_eqb (a b : mem) : bool :=
  match a, b with
  | [], [] => true
  | x :: r, y :: s =>
      chain_eqb (fst x) (fst y) && cty_eqb (cty_of (snd x)) (cty_of (snd y)) &&
      (pat (snd x) =? pat (snd y)) && mem_eqb r s
  | _, _ => false
  end.

Fixpoint zlist_eqb (a b : list Z) : bool :=
  match a, b with
  | [], [] => true
  | x :: r, y :: s => (x =? y) && zlist_eqb r s
  | _, _ => false
  end.

Definition opt_zlist_eqb (a : option (list Z)) (b : list Z) : bool :=
  match a with Some x => zlist_eqb x b | None => false end.

Definition opt_mem_eqb (a : option mem) (b : mem) : bool :=
  match a with Some x => mem_eqb x b | None => false end.

(* the patterns of a memory, in order (what the T2 harness reads back from the struct) *)
Definition mem_pats (m : mem) : list Z := map (fun x => pat (snd x)) m.
Definition opt_pats_eqb (a : option mem) (b : list Z) : bool :=
  match a with Some x => zlist_eqb (mem_pats x) b | None => false end.
