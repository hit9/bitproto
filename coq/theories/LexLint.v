(* LexLint.v — connection of the tokenizer model with the position arithmetic of the cli module
   (Lint.v: col_of = Parser._get_col translated by tools/translate_cli.py; linecol = the reference
   notion of 1-based (line, column) of an offset).  Lint.v works on byte strings; positions only
   depend on WHERE the newlines are, so a text of code points is mapped to its "shadow": same
   length, "\n" where the text has U+000A and "x" elsewhere. *)
From Coq Require Import String Ascii ZArith List Lia.
From BP Require Import TotalBase Lex LexCase LexProofs Lint LintProofs.
Import ListNotations.

Definition shadow_char (c : N) : ascii := if N.eqb c 10 then "010"%char else "x"%char.
Fixpoint shadow (s : list N) : string :=
  match s with [] => EmptyString | c :: r => String (shadow_char c) (shadow r) end.

Lemma shadow_length s : String.length (shadow s) = List.length s.
Proof. induction s as [|c s IH]; cbn [shadow String.length List.length]; [reflexivity|rewrite IH; reflexivity]. Qed.

Lemma shadow_is_nl c : is_nl (shadow_char c) = N.eqb 10 c.
Proof. unfold shadow_char. rewrite (N.eqb_sym 10 c). destruct (N.eqb c 10); reflexivity. Qed.

Lemma shadow_line : forall pos s line col,
  fst (linecol_from (shadow s) pos line col) = (line + LexCase.count_nl (firstn pos s))%Z.
Proof.
  induction pos as [|p IH]; intros s line col.
  - destruct s; cbn [shadow linecol_from firstn fst]; rewrite count_nl_nil; lia.
  - destruct s as [|c r]; [cbn [shadow linecol_from firstn fst]; rewrite count_nl_nil; lia|].
    cbn [shadow linecol_from firstn]. rewrite shadow_is_nl, count_nl_cons.
    destruct (N.eqb 10 c); rewrite IH; lia.
Qed.

(* the lineno the lexer gives a token and the column Parser._get_col computes from its lexpos are the
   1-based (line, column) of the first character of the lexeme *)
Theorem token_linecol uw s its e rem t :
  lex_run uw s = (its, e, rem) -> In t (tokens_of its) ->
  linecol (shadow s) (Z.to_nat (t_pos t)) = (t_line t, col_of (shadow s) (Z.to_nat (t_pos t))).
Proof.
  intros H Hin. destruct (lex_token_position uw s its e rem t H Hin) as (lx & _ & _ & HL & _ & Hp & He).
  assert (Hle : (Z.to_nat (t_pos t) <= String.length (shadow s))%nat).
  { rewrite shadow_length. unfold zlen in He. lia. }
  rewrite (surjective_pairing (linecol (shadow s) (Z.to_nat (t_pos t)))). f_equal.
  - unfold linecol. rewrite shadow_line. rewrite HL. unfold LexCase.prefix. reflexivity.
  - symmetry. apply col_correct. exact Hle.
Qed.
