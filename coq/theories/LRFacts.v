(* LRFacts.v — concrete claims of the language documentation, decided from the CURRENT tables by
   vm_compute (re-evaluated on every run because gen/GenLR.v is regenerated):
     * `;` is optional after every statement, a second `;` is a syntax error, no `;` after `}`;
     * a message field may be named by an IDENTIFIER or by the keyword `type`, by no other token;
       names of messages, enums, constants, aliases, enum members are IDENTIFIERs only;
     * an import / alias / const / proto statement inside a message (and those plus option, enum,
       message, field inside an enum) is PARSED (reduced through `*_item_unsupported`; the
       semantic action then rejects it);
     * calculation expressions: every tree over + - * / printed with minimal parentheses is parsed back to the
       same tree (standard precedence, left associativity): [expr_parsed], by induction over the tree from what
       the driver does in the six states where an expression may start; [expr_facts] is its instance on the
       trees of [expr_domain]. *)
From Coq Require Import List Arith Bool String Lia.
From BP Require Import LR LRProofs LRConcrete.
From BPGen Require Import GenLR.
Import ListNotations.
Local Open Scope string_scope.
Local Open Scope list_scope.

Definition toks (l : list string) : list nat := map term_id l.

Definition accepts (ts : list nat) : bool := match parse ts with Accept _ => true | _ => false end.

Definition rejects_at (ts : list nat) (i : nat) : bool :=
  match parse ts with
  | SyntaxError i' t' _ => Nat.eqb i i' && Nat.eqb t' (nth i ts eof)
  | _ => false
  end.

Definition reduces_by (ts : list nat) (p : nat) : bool :=
  match parse ts with Accept rs => existsb (Nat.eqb p) rs | _ => false end.

Definition example_tokens : list nat :=
  toks ["PROTO"; "IDENTIFIER"; "NEWLINE"; "MESSAGE"; "IDENTIFIER"; "{"; "UINT_TYPE"; "TYPE"; "="; "INT_LITERAL";
        "}"; "NEWLINE"; "CONST"; "IDENTIFIER"; "="; "INT_LITERAL"; "PLUS"; "INT_LITERAL"; "TIMES"; "INT_LITERAL";
        ";"; "NEWLINE"].
Definition example_bad : list nat :=
  toks ["PROTO"; "IDENTIFIER"; "NEWLINE"; "MESSAGE"; "IDENTIFIER"; "{"; "UINT_TYPE"; "CONST"; "="; "INT_LITERAL"; "}"].

Definition head : list nat := toks ["PROTO"; "IDENTIFIER"; "NEWLINE"].

Definition stmts_global : list (list nat) := map toks [
  ["PROTO"; "IDENTIFIER"];
  ["IMPORT"; "STRING_LITERAL"];
  ["IMPORT"; "IDENTIFIER"; "STRING_LITERAL"];
  ["OPTION"; "IDENTIFIER"; "."; "IDENTIFIER"; "="; "INT_LITERAL"];
  ["OPTION"; "IDENTIFIER"; "="; "BOOL_LITERAL"];
  ["OPTION"; "IDENTIFIER"; "="; "STRING_LITERAL"];
  ["OPTION"; "IDENTIFIER"; "="; "IDENTIFIER"];
  ["TYPE"; "IDENTIFIER"; "="; "UINT_TYPE"];
  ["TYPE"; "IDENTIFIER"; "="; "IDENTIFIER"; "."; "IDENTIFIER"; "["; "INT_LITERAL"; "]"; "'"];
  ["TYPE"; "IDENTIFIER"; "="; "BOOL_TYPE"; "["; "IDENTIFIER"; "]"];
  ["TYPEDEF"; "BYTE_TYPE"; "IDENTIFIER"];
  ["CONST"; "IDENTIFIER"; "="; "INT_LITERAL"];
  ["CONST"; "IDENTIFIER"; "="; "HEX_LITERAL"; "PLUS"; "IDENTIFIER"];
  ["CONST"; "IDENTIFIER"; "="; "STRING_LITERAL"];
  ["CONST"; "IDENTIFIER"; "="; "BOOL_LITERAL"];
  ["CONST"; "IDENTIFIER"; "="; "IDENTIFIER"];
  ["CONST"; "IDENTIFIER"; "="; "("; "IDENTIFIER"; ")"]
].
Definition stmts_message : list (list nat) := map toks [
  ["UINT_TYPE"; "IDENTIFIER"; "="; "INT_LITERAL"];
  ["INT_TYPE"; "["; "INT_LITERAL"; "]"; "TYPE"; "="; "INT_LITERAL"];
  ["IDENTIFIER"; "IDENTIFIER"; "="; "INT_LITERAL"];
  ["OPTION"; "IDENTIFIER"; "="; "INT_LITERAL"]
].
Definition stmts_enum : list (list nat) := map toks [
  ["IDENTIFIER"; "="; "INT_LITERAL"];
  ["IDENTIFIER"; "="; "HEX_LITERAL"]
].

Definition semi := term_id ";".
Definition nl := term_id "NEWLINE".

Definition semi_ok (pre post : list nat) (s : list nat) : bool :=
  accepts (pre ++ s ++ [nl] ++ post)
  && accepts (pre ++ s ++ [semi; nl] ++ post)
  && accepts (pre ++ s ++ [semi] ++ s ++ [nl] ++ post)            (* `a; b` on one line *)
  && accepts (pre ++ s ++ post)                                   (* nothing at all before `}` / eof *)
  && rejects_at (pre ++ s ++ [semi; semi; nl] ++ post) (List.length pre + List.length s + 1).

Definition msg_open := toks ["MESSAGE"; "IDENTIFIER"; "{"].
Definition enum_open := toks ["ENUM"; "IDENTIFIER"; ":"; "UINT_TYPE"; "{"].
Definition close := toks ["}"; "NEWLINE"].

Definition semicolon_facts : bool :=
  forallb (semi_ok head []) stmts_global
  && forallb (semi_ok (head ++ msg_open) close) stmts_message
  && forallb (semi_ok (head ++ enum_open) close) stmts_enum
  && rejects_at (head ++ msg_open ++ toks ["}"; ";"; "NEWLINE"]) (List.length head + 4)
  && rejects_at (head ++ enum_open ++ toks ["}"; ";"; "NEWLINE"]) (List.length head + 6)
  && rejects_at (toks [";"]) 0.

Lemma semicolon_facts_ok : semicolon_facts = true.
Proof. vm_cast_no_check (eq_refl true). Qed.

Definition all_terminals : list nat := seq 0 (S n_terms).     (* including one unknown type *)

Definition name_fact (tmpl : nat -> list nat) (allowed : list nat) : bool :=
  forallb (fun x => Bool.eqb (accepts (tmpl x)) (existsb (Nat.eqb x) allowed)) all_terminals.

Definition ident := term_id "IDENTIFIER".

Definition field_name_facts : bool :=
  name_fact (fun x => head ++ msg_open ++ toks ["UINT_TYPE"] ++ [x] ++ toks ["="; "INT_LITERAL"; "}"; "NEWLINE"])
            [ident; term_id "TYPE"]
  && name_fact (fun x => head ++ toks ["MESSAGE"] ++ [x] ++ toks ["{"; "}"; "NEWLINE"]) [ident]
  && name_fact (fun x => head ++ toks ["ENUM"] ++ [x] ++ toks [":"; "UINT_TYPE"; "{"; "}"; "NEWLINE"]) [ident]
  && name_fact (fun x => head ++ enum_open ++ [x] ++ toks ["="; "INT_LITERAL"; "}"; "NEWLINE"]) [ident]
  && name_fact (fun x => head ++ toks ["CONST"] ++ [x] ++ toks ["="; "INT_LITERAL"; "NEWLINE"]) [ident]
  && name_fact (fun x => head ++ toks ["TYPE"] ++ [x] ++ toks ["="; "BOOL_TYPE"; "NEWLINE"]) [ident]
  && name_fact (fun x => toks ["PROTO"] ++ [x] ++ toks ["NEWLINE"]) [ident]
  (* the base of an enum is a uintN token, nothing else *)
  && name_fact (fun x => head ++ toks ["ENUM"; "IDENTIFIER"; ":"] ++ [x] ++ toks ["{"; "}"; "NEWLINE"])
               [term_id "UINT_TYPE"]
  (* a field number / an array capacity literal is a decimal INT_LITERAL; a capacity may be a name *)
  && name_fact (fun x => head ++ msg_open ++ toks ["BOOL_TYPE"; "IDENTIFIER"; "="] ++ [x] ++ toks ["}"; "NEWLINE"])
               [term_id "INT_LITERAL"]
  && name_fact (fun x => head ++ toks ["TYPE"; "IDENTIFIER"; "="; "BOOL_TYPE"; "["] ++ [x] ++ toks ["]"; "NEWLINE"])
               [term_id "INT_LITERAL"; ident].

Lemma field_name_facts_ok : field_name_facts = true.
Proof. vm_cast_no_check (eq_refl true). Qed.

Definition unsup_msg (kind : string) (s : list string) : bool :=
  let ts := head ++ msg_open ++ toks ["NEWLINE"] ++ toks s ++ toks ["NEWLINE"; "}"; "NEWLINE"] in
  reduces_by ts (P "message_item_unsupported" [kind]) && reduces_by ts (P "message_item" ["message_item_unsupported"]).
Definition unsup_enum (kind : string) (s : list string) : bool :=
  let ts := head ++ enum_open ++ toks ["NEWLINE"] ++ toks s ++ toks ["NEWLINE"; "}"; "NEWLINE"] in
  reduces_by ts (P "enum_item_unsupported" [kind]) && reduces_by ts (P "enum_item" ["enum_item_unsupported"]).

Definition unsupported_facts : bool :=
  unsup_msg "import" ["IMPORT"; "STRING_LITERAL"]
  && unsup_msg "import" ["IMPORT"; "IDENTIFIER"; "STRING_LITERAL"]
  && unsup_msg "alias" ["TYPE"; "IDENTIFIER"; "="; "BOOL_TYPE"]
  && unsup_msg "const" ["CONST"; "IDENTIFIER"; "="; "INT_LITERAL"]
  && unsup_msg "proto" ["PROTO"; "IDENTIFIER"]
  && unsup_enum "import" ["IMPORT"; "STRING_LITERAL"]
  && unsup_enum "alias" ["TYPE"; "IDENTIFIER"; "="; "BOOL_TYPE"]
  && unsup_enum "const" ["CONST"; "IDENTIFIER"; "="; "INT_LITERAL"]
  && unsup_enum "proto" ["PROTO"; "IDENTIFIER"]
  && unsup_enum "option" ["OPTION"; "IDENTIFIER"; "="; "INT_LITERAL"]
  && unsup_enum "enum" ["ENUM"; "IDENTIFIER"; ":"; "UINT_TYPE"; "{"; "}"]
  && unsup_enum "message" ["MESSAGE"; "IDENTIFIER"; "{"; "}"]
  && unsup_enum "message_field" ["BOOL_TYPE"; "IDENTIFIER"; "="; "INT_LITERAL"]
  (* but an enum member inside a message, a field or an enum member at file level are syntax errors *)
  && rejects_at (head ++ msg_open ++ toks ["NEWLINE"; "IDENTIFIER"; "="; "INT_LITERAL"; "NEWLINE"; "}"]) (List.length head + 5)
  && rejects_at (head ++ toks ["BOOL_TYPE"; "IDENTIFIER"; "="; "INT_LITERAL"; "NEWLINE"]) (List.length head)
  && rejects_at (head ++ toks ["IDENTIFIER"; "="; "INT_LITERAL"; "NEWLINE"]) (List.length head).

Lemma unsupported_facts_ok : unsupported_facts = true.
Proof. vm_cast_no_check (eq_refl true). Qed.

(* `comment : COMMENT NEWLINE`: at the TOKEN level a sequence ending in COMMENT is never accepted
   (LRConcrete.trailing_comment_rejected, for all sequences).  Parser.parse_string terminates the
   last line (/repo ca58921, the fix of finding comment-at-eof), so the TEXT `... // tail` without a
   final newline reaches the driver with a NEWLINE appended and is accepted. *)
Definition comment_eof_witness : list nat :=
  toks ["PROTO"; "IDENTIFIER"; "NEWLINE"; "MESSAGE"; "IDENTIFIER"; "{"; "}"; "COMMENT"].

Definition comment_eof_facts : bool :=
  rejects_at comment_eof_witness (List.length comment_eof_witness)       (* the tables, unchanged *)
  && accepts (text_tokens comment_eof_witness false)                      (* the text path *)
  && accepts (text_tokens (toks ["PROTO"; "IDENTIFIER"; "COMMENT"]) false)
  && accepts (text_tokens [] false)
  && accepts (text_tokens (toks ["PROTO"; "IDENTIFIER"; "NEWLINE"]) false)   (* blanks after the last newline *)
  && accepts (text_tokens (toks ["PROTO"; "IDENTIFIER"; "NEWLINE"]) true).

Lemma comment_eof_facts_ok : comment_eof_facts = true.
Proof. vm_cast_no_check (eq_refl true). Qed.

Lemma comment_eof_text_accepted : exists rs, parse_text comment_eof_witness false = Accept rs.
Proof. eexists. vm_compute. reflexivity. Qed.

Inductive ex : Type := XInt | XBin (o : nat) (a b : ex).      (* o: 0 + , 1 - , 2 * , 3 / *)

Definition xprec (o : nat) : nat := if Nat.ltb o 2 then 1 else 2.
Definition eprec (e : ex) : nat := match e with XInt => 9 | XBin o _ _ => xprec o end.
Definition op_tok (o : nat) : nat :=
  term_id (match o with 0 => "PLUS" | 1 => "MINUS" | 2 => "TIMES" | _ => "DIVIDE" end).
Definition op_nt (o : nat) : string :=
  match o with 0 => "calculation_expression_plus" | 1 => "calculation_expression_minus"
             | 2 => "calculation_expression_times" | _ => "calculation_expression_divide" end.
Definition op_name (o : nat) : string := match o with 0 => "PLUS" | 1 => "MINUS" | 2 => "TIMES" | _ => "DIVIDE" end.

Definition p_binop : list nat := map (fun o => P (op_nt o) ["calculation_expression"; op_name o; "calculation_expression"]) [0; 1; 2; 3].
Definition p_calc_bin : list nat := map (fun o => P "calculation_expression" [op_nt o]) [0; 1; 2; 3].
Definition p_grp := P "calculation_expression_group" ["("; "calculation_expression"; ")"].
Definition p_calc_grp := P "calculation_expression" ["calculation_expression_group"].
Definition p_intl := P "integer_literal" ["INT_LITERAL"].
Definition p_calc_int := P "calculation_expression" ["integer_literal"].

(* the printer takes the production and token numbers it emits as parameters: they are looked up by
   content once (p_binop ... above), not at every node, and LRExprC13 reuses it with the same numbers *)
Section Expr.
Variables (pb pc : list nat) (pg pcg pi pci tl tr ti : nat) (optoks : list nat).

Definition par (x : list nat * list nat) : list nat * list nat :=
  ((tl :: fst x ++ [tr])%list, (snd x ++ [pg; pcg])%list).

Fixpoint ex_tr (e : ex) : list nat * list nat :=
  match e with
  | XInt => ([ti], [pi; pci])
  | XBin o a b =>
    let ta := if Nat.ltb (eprec a) (xprec o) then par (ex_tr a) else ex_tr a in
    let tb := if Nat.leb (eprec b) (xprec o) then par (ex_tr b) else ex_tr b in
    ((fst ta ++ nth o optoks 0 :: fst tb)%list, (snd ta ++ snd tb ++ [nth o pb 0; nth o pc 0])%list)
  end.
End Expr.

Fixpoint all_ex (d : nat) : list ex :=
  match d with
  | O => [XInt]
  | S d' => let sub := all_ex d' in
            XInt :: flat_map (fun o => flat_map (fun a => map (fun b => XBin o a b) sub) sub) [0; 1; 2; 3]
  end.

(* every tree of depth <= 2 (101 trees: all operator pairs in both groupings, (a.b).(c.d)) and every
   tree of depth 3 with one operand of depth <= 1 (4040 trees: chains of four, mixed nests) *)
Definition expr_domain : list ex :=
  all_ex 2 ++ flat_map (fun o => flat_map (fun a => flat_map (fun b => [XBin o a b; XBin o b a]) (all_ex 1)) (all_ex 2))
                       [0; 1; 2; 3].

Definition expr_ok (pre_t post_t : list nat) (pre_r post_r : list nat) (tr : ex -> list nat * list nat) (e : ex) : bool :=
  let x := tr e in
  match parse (pre_t ++ fst x ++ post_t) with
  | Accept rs => list_nat_eqb rs (pre_r ++ snd x ++ post_r)
  | _ => false
  end.

(* the fixed context: `const K = <e> NEWLINE` as the only statement of a file *)
Definition ctx_pre_t : list nat := toks ["CONST"; "IDENTIFIER"; "="].
Definition ctx_post_t : list nat := toks ["NEWLINE"].
Definition ctx_reds : list nat * list nat :=
  match parse (ctx_pre_t ++ toks ["INT_LITERAL"] ++ ctx_post_t) with
  | Accept rs => (firstn 1 rs, skipn 3 rs)        (* open_global_scope | int, calc | the rest *)
  | _ => ([], [])
  end.

Definition expr_facts : bool :=
  let tr := ex_tr p_binop p_calc_bin p_grp p_calc_grp p_intl p_calc_int (term_id "(") (term_id ")")
                  (term_id "INT_LITERAL") (map op_tok [0; 1; 2; 3]) in
  negb (Nat.eqb (List.length (snd ctx_reds)) 0)
  && forallb (expr_ok ctx_pre_t ctx_post_t (fst ctx_reds) (snd ctx_reds) tr) expr_domain.

Local Open Scope nat_scope.

Fixpoint ops_ok (e : ex) : bool :=
  match e with XInt => true | XBin o a b => Nat.ltb o 4 && ops_ok a && ops_ok b end.

Lemma eprec_pos e : 1 <= eprec e.
Proof. destruct e as [|o a b]; cbn; [lia|]. unfold xprec. destruct (o <? 2); lia. Qed.

(* The argument, for any tables.  [E]: the states in which an expression may start, each with the level of the
   operator it stands behind (0: none); [g s]: the state entered from [s] over a whole expression; [FT]: the
   tokens that may follow an expression, [lv]: their levels (0 for the closing ones).  The hypotheses say what
   the driver does there, whatever lies deeper on the stack and further in the input: an operand standing in
   [s] is parsed up to [g s] on top of [s] with the follower as lookahead, provided the operand binds more
   tightly than [s]'s operator and at least as tightly as the follower (the printer's two tests). *)
Section ExprRuns.
Variable TB : LR.tables.
Variables (pb pc : list nat) (pg pcg pi pci tl tr ti : nat) (optoks : list nat).
Variable E : list (nat * nat).
Variable g : nat -> nat.
Variable FT : list nat.
Variable lv : nat -> nat.

Notation cf := mk_conf.
Notation xtr := (ex_tr pb pc pg pcg pi pci tl tr ti optoks).
Notation otok o := (nth o optoks 0).

Definition ops_follow : Prop := forall o, o < 4 -> In (otok o) FT /\ lv (otok o) = xprec o.
Definition close_follow : Prop := In tr FT /\ lv tr = 0.
(* an INT_LITERAL before a follower: one shift, two reductions *)
Definition atom_rows : Prop :=
  forall s l t st rest pos out, In (s, l) E -> In t FT ->
     reach TB (cf (s :: st) NoLook (ti :: t :: rest) pos out)
              (cf (g s :: s :: st) (Tok t) rest (2 + pos) (pci :: pi :: out)).
(* `(` is shifted into a state [sl] of level 0; `)` behind the inner expression: one shift, two reductions *)
Definition group_rows : Prop :=
  forall s l, In (s, l) E -> exists sl, In (sl, 0) E /\
     (forall st rest pos out,
        reach TB (cf (s :: st) NoLook (tl :: rest) pos out) (cf (sl :: s :: st) NoLook rest (S pos) out)) /\
     (forall t st rest pos out, In t FT ->
        reach TB (cf (g sl :: sl :: s :: st) (Tok tr) (t :: rest) pos out)
                 (cf (g s :: s :: st) (Tok t) rest (S pos) (pcg :: pg :: out))).
(* an operator binding more tightly than [s]'s is shifted into a state [so] of its own level; behind the right
   operand a follower of no higher level makes the two reductions of `e1 op e2` *)
Definition bin_rows : Prop :=
  forall s l o, In (s, l) E -> o < 4 -> l < xprec o -> exists so, In (so, xprec o) E /\
     (forall st rest pos out,
        reach TB (cf (g s :: s :: st) (Tok (otok o)) rest pos out) (cf (so :: g s :: s :: st) NoLook rest pos out)) /\
     (forall t st rest pos out, In t FT -> lv t <= xprec o ->
        reach TB (cf (g so :: so :: g s :: s :: st) (Tok t) rest pos out)
                 (cf (g s :: s :: st) (Tok t) rest pos (nth o pc 0 :: nth o pb 0 :: out))).
Definition fragment_ok : Prop := ops_follow /\ close_follow /\ atom_rows /\ group_rows /\ bin_rows.
Hypothesis Frag : fragment_ok.

(* the driver on the tokens [fst x] of an operand standing in [s] before the follower [t] *)
Definition parses (x : list nat * list nat) (s t : nat) : Prop :=
  forall st rest pos out, exists pos',
    reach TB (cf (s :: st) NoLook (fst x ++ t :: rest) pos out)
             (cf (g s :: s :: st) (Tok t) rest pos' (rev (snd x) ++ out)).

Definition parsed_tree (e : ex) : Prop :=
  forall s l t, In (s, l) E -> l < eprec e -> In t FT -> lv t <= eprec e -> parses (xtr e) s t.

(* in parentheses an operand may stand anywhere *)
Lemma operand e (b : bool) s l t : parsed_tree e -> In (s, l) E -> In t FT ->
  (b = false -> l < eprec e /\ lv t <= eprec e) ->
  parses (if b then par pg pcg tl tr (xtr e) else xtr e) s t.
Proof.
  intros IH Is It Hb. destruct b; [|destruct (Hb eq_refl); eapply IH; eassumption].
  destruct Frag as (_ & [Ir Lr] & _ & Hgroup & _).
  intros st rest pos out. destruct (Hgroup _ _ Is) as (sl & Il & Open & Close).
  destruct (IH sl 0 tr Il (eprec_pos e) Ir ltac:(rewrite Lr; apply Nat.le_0_l)
               (s :: st) (t :: rest) (S pos) out) as [pos' R].
  exists (S pos'). cbn [par fst snd app]. rewrite <- app_assoc. cbn [app].
  eapply reach_trans; [apply Open|]. eapply reach_trans; [exact R|].
  rewrite rev_app_distr. cbn [rev app]. apply Close, It.
Qed.

Theorem tree_parsed e : ops_ok e = true -> parsed_tree e.
Proof.
  destruct Frag as (Hops & _ & Hatom & _ & Hbin).
  induction e as [|o a IHa b IHb]; intros Ho s l t Is Ll It Lt st rest pos out.
  - exists (2 + pos). eapply Hatom; eassumption.
  - cbn [ops_ok] in Ho. apply andb_true_iff in Ho. destruct Ho as [Ho Hb].
    apply andb_true_iff in Ho. destruct Ho as [Ho Ha]. apply Nat.ltb_lt in Ho.
    cbn [eprec] in Ll, Lt. destruct (Hops o Ho) as [Io Lo].
    destruct (Hbin _ _ _ Is Ho Ll) as (so & Iso & Shift & Red).
    cbn [ex_tr]. set (fa := eprec a <? xprec o). set (fb := eprec b <=? xprec o).
    (* the left operand stays bare when eprec a >= xprec o, the right one when eprec b > xprec o *)
    assert (Pa : parses (if fa then par pg pcg tl tr (xtr a) else xtr a) s (otok o)).
    { apply (operand a fa s l); auto. intros F. apply Nat.ltb_ge in F. rewrite Lo. lia. }
    assert (Pb : parses (if fb then par pg pcg tl tr (xtr b) else xtr b) so t).
    { apply (operand b fb so (xprec o)); auto. intros F. apply Nat.leb_gt in F. lia. }
    cbn [fst snd]. rewrite <- app_assoc. cbn [app].
    destruct (Pa st (fst (if fb then par pg pcg tl tr (xtr b) else xtr b) ++ t :: rest) pos out) as [p1 R1].
    destruct (Pb (g s :: s :: st) rest p1 (rev (snd (if fa then par pg pcg tl tr (xtr a) else xtr a)) ++ out))
      as [p2 R2].
    exists p2. eapply reach_trans; [exact R1|]. eapply reach_trans; [apply Shift|].
    eapply reach_trans; [exact R2|].
    rewrite !rev_app_distr. cbn [rev app]. rewrite <- !app_assoc. apply Red; assumption.
Qed.
End ExprRuns.

(* the current tables.  The numbers of the fragment are looked up by name once; the expression states are those
   with a goto on calculation_expression *)
Definition k_pb := Eval vm_compute in p_binop.
Definition k_pc := Eval vm_compute in p_calc_bin.
Definition k_pg := Eval vm_compute in p_grp.
Definition k_pcg := Eval vm_compute in p_calc_grp.
Definition k_pi := Eval vm_compute in p_intl.
Definition k_pci := Eval vm_compute in p_calc_int.
Definition k_tl := Eval vm_compute in term_id "(".
Definition k_tr := Eval vm_compute in term_id ")".
Definition k_ti := Eval vm_compute in term_id "INT_LITERAL".
Definition k_nl := Eval vm_compute in term_id "NEWLINE".
Definition k_ops := Eval vm_compute in map op_tok [0; 1; 2; 3].
Definition k_ce := Eval vm_compute in nt_id "calculation_expression".
(* the level of a token as a follower.  [e_states] reads the level of a STATE off its incoming token, which is
   right while every operator token is infix only: the state behind a prefix MINUS would get the infix level 1 *)
Definition e_lv (t : nat) : nat :=
  if existsb (Nat.eqb t) (firstn 2 k_ops) then 1 else if existsb (Nat.eqb t) (skipn 2 k_ops) then 2 else 0.
Definition e_states : list (nat * nat) := Eval vm_compute in
  map (fun s => (s, e_lv (match incoming hints s with Some (T t) => t | _ => 0 end)))
      (filter (has_goto tables k_ce) (seq 0 n_states)).
Definition e_goto (s : nat) : nat := match goto_of tables s k_ce with Some x => x | None => 0 end.
Definition e_follow : list nat := Eval vm_compute in k_ops ++ [k_tr; k_nl].

Lemma in_each {A} (P : A -> Prop) l : fold_right (fun x Q => P x /\ Q) True l -> forall x, In x l -> P x.
Proof. induction l as [|a l IH]; cbn; intros H x []; [subst; tauto | apply IH; tauto]. Qed.

(* [each l]: a goal [forall x, In x l -> P x] over a closed list becomes one goal [P x] per member ([spine] splits
   the conjunction [in_each] asks for); [pair s l Is]: a goal about the components of a member (s, l) of a list of
   pairs is put in that shape; [ran k]: the driver, run for k steps on a configuration whose stack tail, input tail,
   position and output are variables, arrives where the goal says.  A shift is one step and so is a reduction:
   3 for an atom or `)` (a shift, two reductions), 1 for `(` or an operator, 2 for the reductions of `e1 op e2` *)
Ltac spine := lazymatch goal with |- _ /\ _ => refine (conj _ _); [|spine] | |- True => exact I end.
Ltac each l := refine (in_each _ l _); cbv [fold_right l]; spine.
Ltac pair s l Is := set (sl := (s, l)) in Is; change s with (fst sl); change l with (snd sl); clearbody sl; revert sl Is.
Ltac ran k := exists k; vm_compute; reflexivity.

Lemma lt4 o : o < 4 -> In o [0; 1; 2; 3].
Proof. intros L. do 4 (destruct o as [|o]; [cbn; tauto|]). lia. Qed.

(* One case per (expression state, follower) or (state, operator, follower).  A case that fails names the row of the
   regenerated tables that no longer does what the printer assumes: in the last group, for instance, the state
   behind `e1 op e2` shifting a follower of its own level (associativity) or of a lower one (precedence). *)
Lemma cur_fragment :
  fragment_ok tables k_pb k_pc k_pg k_pcg k_pi k_pci k_tl k_tr k_ti k_ops e_states e_goto e_follow e_lv.
Proof.
  repeat apply conj.
  - intros o Lo. apply lt4 in Lo. revert o Lo. set (ops := [0; 1; 2; 3]) at 1. each ops; vm_compute; tauto.
  - vm_compute. tauto.
  - vm_compute. tauto.
  - intros s l t st rest pos out Is It. revert t It st rest pos out. pair s l Is.
    each e_states; each e_follow; intros; ran 3.
  - intros s l Is. exists (match action_of tables s k_tl with Some (Shift x) => x | _ => 0 end). pair s l Is.
    each e_states; (split; [vm_compute; tauto|]); (split; [intros; ran 1|]);
      intros t st rest pos out It; revert t It st rest pos out; each e_follow; intros; ran 3.
  - intros s l o Is Lo Ll. apply Nat.ltb_lt in Ll. apply lt4 in Lo.
    exists (match action_of tables (e_goto s) (nth o k_ops 0) with Some (Shift x) => x | _ => 0 end).
    revert o Lo Ll. pair s l Is. set (ops := [0; 1; 2; 3]) at 1.
    each e_states; each ops; intros Ll; try (vm_compute in Ll; discriminate Ll); clear Ll;
      (split; [vm_compute; tauto|]); (split; [intros; ran 1|]);
      intros t st rest pos out It Lt; apply Nat.leb_le in Lt; revert t It Lt st rest pos out; each e_follow;
      intros Lt; try (vm_compute in Lt; discriminate Lt); intros; ran 2.
Qed.

Definition cur_tr : ex -> list nat * list nat :=
  ex_tr p_binop p_calc_bin p_grp p_calc_grp p_intl p_calc_int (term_id "(") (term_id ")")
        (term_id "INT_LITERAL") (map op_tok [0; 1; 2; 3]).

Definition s_eq : nat := match e_states with (s, _) :: _ => s | [] => 0 end.

(* the fixed context `const K = <e> NEWLINE`: up to the expression, and from the whole expression to acceptance *)
Lemma ctx_runs : exists st0,
  (forall w, reach tables (init (ctx_pre_t ++ w)) (mk_conf (s_eq :: st0) NoLook w 3 (rev (fst ctx_reds)))) /\
  (forall pos out, run tables 20 (mk_conf (e_goto s_eq :: s_eq :: st0) (Tok k_nl) [] pos out)
                   = Accept (rev (rev (snd ctx_reds) ++ out))).
Proof.
  eexists. split.
  - intros w. exists 4. vm_compute. reflexivity.
  - intros pos out. vm_compute. reflexivity.
Qed.

Theorem expr_parsed e : ops_ok e = true ->
  parse (ctx_pre_t ++ fst (cur_tr e) ++ ctx_post_t) = Accept (fst ctx_reds ++ snd (cur_tr e) ++ snd ctx_reds).
Proof.
  intros Ho. destruct ctx_runs as (st0 & Pre & Post).
  assert (P : parses tables e_goto (cur_tr e) s_eq k_nl).
  { apply (tree_parsed _ _ _ _ _ _ _ _ _ _ _ _ _ _ _ cur_fragment e Ho s_eq 0);
      [vm_compute; tauto | apply eprec_pos | vm_compute; tauto | apply Nat.le_0_l]. }
  destruct (P st0 [] 3 (rev (fst ctx_reds))) as [pos' R].
  destruct (reach_run _ _ _ _ _ (reach_trans _ _ _ _ (Pre _) R) (Post _ _)) as [f Ef].
  rewrite !rev_app_distr, !rev_involutive, <- app_assoc in Ef.
  eapply run_agree; [reflexivity | apply terminates | exact Ef | discriminate].
Qed.

Lemma expr_domain_ops_ok : forallb ops_ok expr_domain = true.
Proof. vm_compute. reflexivity. Qed.

Lemma expr_facts_ok : expr_facts = true.
Proof.
  unfold expr_facts. apply andb_true_iff. split; [vm_compute; reflexivity|].
  apply forallb_forall. intros e I. unfold expr_ok. fold cur_tr.
  rewrite (expr_parsed e (proj1 (forallb_forall _ _) expr_domain_ops_ok e I)). apply list_nat_eqb_refl.
Qed.
