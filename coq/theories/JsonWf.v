(* JsonWf.v — a recogniser [wf_json] for JSON texts: the grammar of RFC 8259 restricted to what
   can occur in the output of bitproto's formatters — no white space, integers without
   leading zeros, true/false, arrays, objects whose keys are strings of unescaped characters.
   Definitions only; JsonText.v proves that it accepts everything print_compact writes
   for a tree whose keys are plain (JsonText.keys_safe). *)
From Coq Require Import ZArith List Bool String Ascii.
Import ListNotations.
Open Scope string_scope.

Definition is_digit (c : ascii) : bool :=
  (48 <=? nat_of_ascii c)%nat && (nat_of_ascii c <=? 57)%nat.

(* ------------------------------------------------------------------------------------ *)
(* a recogniser for JSON texts                                                          *)
(* ------------------------------------------------------------------------------------ *)

(* p ++ r  |->  Some r *)
Fixpoint strip (p s : string) : option string :=
  match p with
  | EmptyString => Some s
  | String a p' =>
      match s with
      | String b s' => if (a =? b)%char then strip p' s' else None
      | EmptyString => None
      end
  end.

(* characters allowed unescaped inside a JSON string (ASCII part): not the double quote
   (34), not the backslash (92), not a control character *)
Definition safe_char (c : ascii) : bool :=
  let n := nat_of_ascii c in
  (32 <=? n)%nat && (n <? 127)%nat && negb (n =? 34)%nat && negb (n =? 92)%nat.

Fixpoint safe_string (s : string) : bool :=
  match s with
  | EmptyString => true
  | String c r => safe_char c && safe_string r
  end.

(* after the opening quote: up to and including the closing quote *)
Fixpoint skip_string_body (s : string) : option string :=
  match s with
  | EmptyString => None
  | String c r =>
      if (c =? """")%char then Some r
      else if safe_char c then skip_string_body r else None
  end.

Fixpoint skip_digits (s : string) : string :=
  match s with
  | EmptyString => EmptyString
  | String c r => if is_digit c then skip_digits r else s
  end.

(* int = zero / ( digit1-9 *DIGIT ) *)
Definition skip_int (s : string) : option string :=
  match s with
  | EmptyString => None
  | String c r =>
      if (c =? "0")%char then Some r
      else if is_digit c then Some (skip_digits r) else None
  end.

(* number = [ minus ] int      (no fraction, no exponent: they never occur) *)
Definition skip_number (s : string) : option string :=
  match s with
  | EmptyString => None
  | String c r => if (c =? "-")%char then skip_int r else skip_int s
  end.

Fixpoint skip_value (fuel : nat) (s : string) {struct fuel} : option string :=
  match fuel with
  | O => None
  | S f =>
      match s with
      | EmptyString => None
      | String c r =>
          if (c =? "[")%char then
            match strip "]" r with Some r' => Some r' | None => skip_elems f r end
          else if (c =? "{")%char then
            match strip "}" r with Some r' => Some r' | None => skip_members f r end
          else match strip "true" s with
               | Some r' => Some r'
               | None => match strip "false" s with
                         | Some r' => Some r'
                         | None => skip_number s
                         end
               end
      end
  end
with skip_elems (fuel : nat) (s : string) {struct fuel} : option string :=
  match fuel with
  | O => None
  | S f =>
      match skip_value f s with
      | Some (String c r) =>
          if (c =? ",")%char then skip_elems f r
          else if (c =? "]")%char then Some r else None
      | _ => None
      end
  end
with skip_members (fuel : nat) (s : string) {struct fuel} : option string :=
  match fuel with
  | O => None
  | S f =>
      match s with
      | String q r =>
          if (q =? """")%char then
            match skip_string_body r with
            | Some (String k r2) =>
                if (k =? ":")%char then
                  match skip_value f r2 with
                  | Some (String c r3) =>
                      if (c =? ",")%char then skip_members f r3
                      else if (c =? "}")%char then Some r3 else None
                  | _ => None
                  end
                else None
            | _ => None
            end
          else None
      | EmptyString => None
      end
  end.

(* the whole text is one JSON value *)
Definition wf_json (s : string) : bool :=
  match skip_value (S (String.length s)) s with
  | Some EmptyString => true
  | _ => false
  end.

