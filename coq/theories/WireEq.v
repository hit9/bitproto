(* WireEq.v — wire-level invariances behind C12, in full generality.
   Only Schema.v / Spec.v / Bits.v (and SchemaFacts.v) are needed: the wire format of a resolved type [ty] does
   not see names, declaration order of fields, aliases, or the absolute field numbers (only
   their order).

   [weq t t' m]: t and t' have the same size and, for EVERY value v, the normalised encoding
   of v at t is the normalised encoding of (m v) at t'.  It is closed under composition and
   under every type context (alias, array element, message field), so sequences of rewrites
   at any depth are covered by induction ([rw_star_weq]). *)
From Coq Require Import ZArith List Lia Permutation.
From BP Require Import Bits Schema Spec.
From BP Require Export SchemaFacts.
Import ListNotations.
Open Scope Z_scope.

(* [norm_fields], [norm_msg], [fields_bits] and [enc_bits_msg] shadow their namesakes of SchemaFacts
   (same bodies, so the two are interchangeable by conversion) *)
Definition norm_fields :=
  fix go (l : list (Z * ty)) : list (Z * ty) :=
    match l with
    | [] => []
    | kf :: r => (fst kf, norm (snd kf)) :: go r
    end.

Lemma norm_msg x fs : norm (TMsg x fs) = TMsg x (sort_fields (norm_fields fs)).
Proof. reflexivity. Qed.

Lemma norm_fields_map fs : norm_fields fs = map (fun kf => (fst kf, norm (snd kf))) fs.
Proof. induction fs as [|kf r IH]; [reflexivity|]. cbn [norm_fields map]. now rewrite IH. Qed.

Definition fields_bits (v : val) :=
  fix go (l : list (Z * ty)) : list bool :=
    match l with
    | [] => []
    | kf :: r => enc_bits (snd kf) (vfield (fst kf) v) ++ go r
    end.

Lemma enc_bits_msg x fs v :
  enc_bits (TMsg x fs) v =
  (if x then bits_of 16 (nbits (TMsg x fs)) else []) ++ fields_bits v fs.
Proof. reflexivity. Qed.

Lemma fields_bits_app v l1 l2 : fields_bits v (l1 ++ l2) = fields_bits v l1 ++ fields_bits v l2.
Proof.
  induction l1 as [|kf r IH]; [reflexivity|].
  cbn [app fields_bits]. fold (fields_bits v). rewrite IH. now rewrite app_assoc.
Qed.

Lemma fields_nbits_norm fs : fields_nbits (norm_fields fs) = fields_nbits fs.
Proof.
  induction fs as [|kf r IH]; [reflexivity|].
  cbn [norm_fields]. unfold fields_nbits in *. cbn [fold_right snd]. rewrite nbits_norm, IH. reflexivity.
Qed.

Lemma insert_field_comm {A} (a b : Z * A) l :
  fst a <> fst b ->
  insert_field a (insert_field b l) = insert_field b (insert_field a l).
Proof.
  intros Hab. induction l as [|h r IH].
  - cbn [insert_field]. destruct (fst a <? fst b) eqn:E1, (fst b <? fst a) eqn:E2; try reflexivity; lia.
  - cbn [insert_field].
    destruct (fst b <? fst h) eqn:Eb, (fst a <? fst h) eqn:Ea; cbn [insert_field];
      rewrite ?Ea, ?Eb;
      destruct (fst a <? fst b) eqn:E1, (fst b <? fst a) eqn:E2; try reflexivity; try lia;
      rewrite ?IH; reflexivity.
Qed.

Lemma sort_fields_perm {A} (l l' : list (Z * A)) :
  Permutation l l' -> NoDup (map fst l) -> sort_fields l = sort_fields l'.
Proof.
  induction 1 as [| x l l' HP IH | x y l | l l' l'' HP1 IH1 HP2 IH2]; intros ND.
  - reflexivity.
  - cbn [sort_fields]. rewrite IH; [reflexivity|]. cbn [map] in ND. now inversion ND.
  - cbn [sort_fields]. apply insert_field_comm.
    cbn [map] in ND. inversion ND as [|? ? Hn _]; subst. intros E. apply Hn. left. now symmetry.
  - rewrite IH1 by assumption. apply IH2.
    eapply Permutation_NoDup; [|exact ND]. now apply Permutation_map.
Qed.

Lemma insert_field_map {A B} (g : Z -> A -> B) kf (l : list (Z * A)) :
  insert_field (fst kf, g (fst kf) (snd kf)) (map (fun h => (fst h, g (fst h) (snd h))) l) =
  map (fun h => (fst h, g (fst h) (snd h))) (insert_field kf l).
Proof.
  induction l as [|h r IH]; [reflexivity|].
  cbn [map insert_field fst]. destruct (fst kf <? fst h); cbn [map fst snd]; [reflexivity|].
  now rewrite <- IH.
Qed.

Lemma sort_fields_map {A B} (g : Z -> A -> B) (l : list (Z * A)) :
  sort_fields (map (fun h => (fst h, g (fst h) (snd h))) l) =
  map (fun h => (fst h, g (fst h) (snd h))) (sort_fields l).
Proof.
  induction l as [|h r IH]; [reflexivity|].
  cbn [map sort_fields]. rewrite IH. apply (insert_field_map g h).
Qed.

Lemma insert_field_renumber {A} (f : Z -> Z) kf (l : list (Z * A)) :
  (forall h, In h l -> (fst kf <? fst h) = (f (fst kf) <? f (fst h))) ->
  insert_field (f (fst kf), snd kf) (map (fun h => (f (fst h), snd h)) l) =
  map (fun h => (f (fst h), snd h)) (insert_field kf l).
Proof.
  induction l as [|h r IH]; intros Hm; [reflexivity|].
  cbn [map insert_field fst]. rewrite <- (Hm h (or_introl eq_refl)).
  destruct (fst kf <? fst h); cbn [map fst snd]; [reflexivity|].
  rewrite <- IH; [reflexivity|]. intros h' Hh'. apply Hm. now right.
Qed.

Definition mono_on (f : Z -> Z) (keys : list Z) : Prop :=
  forall a b, In a keys -> In b keys -> a < b -> f a < f b.

Lemma mono_on_ltb f keys a b : mono_on f keys -> In a keys -> In b keys -> (a <? b) = (f a <? f b).
Proof.
  intros Hm Ha Hb. destruct (Z.ltb_spec a b) as [L|G].
  - symmetry. apply Z.ltb_lt. now apply Hm.
  - symmetry. apply Z.ltb_ge. destruct (Z.eq_dec a b) as [->|N]; [lia|].
    assert (b < a) by lia. specialize (Hm b a Hb Ha H). lia.
Qed.

Lemma sort_fields_renumber {A} (f : Z -> Z) (l : list (Z * A)) :
  mono_on f (map fst l) ->
  sort_fields (map (fun h => (f (fst h), snd h)) l) =
  map (fun h => (f (fst h), snd h)) (sort_fields l).
Proof.
  induction l as [|h r IH]; intros Hm; [reflexivity|].
  cbn [map sort_fields]. rewrite IH.
  - apply (insert_field_renumber f h). intros h' Hh'.
    apply (mono_on_ltb f (map fst (h :: r))); [exact Hm|now left|].
    right. apply in_map. apply (proj1 (sort_fields_in r h')). exact Hh'.
  - intros a b Ha Hb. apply Hm; now right.
Qed.

Lemma insert_field_rel {A B} (R : Z * A -> Z * B -> Prop) a b l l' :
  (forall x y, R x y -> fst x = fst y) ->
  R a b -> Forall2 R l l' -> Forall2 R (insert_field a l) (insert_field b l').
Proof.
  intros Hk Hab H. induction H as [|x y l l' Hxy Hl IH]; cbn [insert_field].
  - constructor; [exact Hab|constructor].
  - rewrite <- (Hk _ _ Hab), <- (Hk _ _ Hxy). destruct (fst a <? fst x).
    + constructor; [exact Hab|]. constructor; assumption.
    + constructor; assumption.
Qed.

Lemma sort_fields_rel {A B} (R : Z * A -> Z * B -> Prop) l l' :
  (forall x y, R x y -> fst x = fst y) ->
  Forall2 R l l' -> Forall2 R (sort_fields l) (sort_fields l').
Proof.
  intros Hk H. induction H as [|x y l l' Hxy Hl IH]; [constructor|].
  cbn [sort_fields]. now apply insert_field_rel.
Qed.

Definition weq (t t' : ty) (m : val -> val) : Prop :=
  nbits t = nbits t' /\ forall v, enc_bits (norm t) v = enc_bits (norm t') (m v).

Theorem weq_wire t t' m : weq t t' m -> forall v, wire t v = wire t' (m v).
Proof. intros [_ H] v. unfold wire. now rewrite H. Qed.

Lemma weq_refl t : weq t t (fun v => v).
Proof. split; reflexivity. Qed.

Lemma weq_trans t1 t2 t3 m1 m2 :
  weq t1 t2 m1 -> weq t2 t3 m2 -> weq t1 t3 (fun v => m2 (m1 v)).
Proof. intros [N1 H1] [N2 H2]. split; [congruence|]. intros v. now rewrite H1, H2. Qed.

Lemma weq_ext t t' m m' : (forall v, m v = m' v) -> weq t t' m -> weq t t' m'.
Proof. intros E [N H]. split; [exact N|]. intros v. now rewrite <- E. Qed.

Lemma weq_alias_intro t : weq t (TAlias t) (fun v => v).
Proof. split; reflexivity. Qed.

Lemma weq_alias_elim t : weq (TAlias t) t (fun v => v).
Proof. split; reflexivity. Qed.

Lemma weq_alias_cong t t' m : weq t t' m -> weq (TAlias t) (TAlias t') m.
Proof. intros [N H]. split; [exact N|]. intros v. cbn [norm enc_bits]. apply H. Qed.

Definition map_list (m : val -> val) (v : val) : val := VL (map m (vlist v)).

Lemma weq_arr_cong x c e e' m : weq e e' m -> weq (TArr x c e) (TArr x c e') (map_list m).
Proof.
  intros [N H]. split; [cbn [nbits]; now rewrite N|].
  intros v. cbn [norm enc_bits]. f_equal. unfold map_list. cbn [vlist].
  induction (vlist v) as [|a r IH]; [reflexivity|].
  cbn [map flat_map]. now rewrite H, IH.
Qed.

(* Messages.  The normalised encoding of a message depends only on the size and on the bits of
   its sorted, normalised field list: the one place where that encoding is opened. *)
Lemma weq_msg_core x fs fs' m :
  fields_nbits fs = fields_nbits fs' ->
  (forall v, fields_bits v (sort_fields (norm_fields fs)) = fields_bits (m v) (sort_fields (norm_fields fs'))) ->
  weq (TMsg x fs) (TMsg x fs') m.
Proof.
  intros N H. split; [rewrite !nbits_msg; now rewrite N|].
  intros v. rewrite !norm_msg, !enc_bits_msg, <- !norm_msg, !nbits_norm, !nbits_msg, N. now rewrite H.
Qed.

Lemma weq_msg_perm x fs fs' :
  Permutation fs fs' -> NoDup (map fst fs) -> weq (TMsg x fs) (TMsg x fs') (fun v => v).
Proof.
  intros HP ND. apply weq_msg_core; [now apply fields_nbits_perm|].
  intros v. f_equal. apply sort_fields_perm.
  - rewrite !norm_fields_map. now apply Permutation_map.
  - rewrite norm_fields_map, map_map. cbn [fst]. exact ND.
Qed.

Definition upd_field (k : Z) (m : val -> val) (v : val) : val :=
  VM ((k, m (vfield k v)) :: match v with VM vs => vs | _ => [] end).

Lemma vfield_upd_same k m v : vfield k (upd_field k m v) = m (vfield k v).
Proof. unfold upd_field, vfield at 1. cbn [lookup fst snd]. now rewrite Z.eqb_refl. Qed.

Lemma vfield_upd_other k j m v : j <> k -> vfield j (upd_field k m v) = vfield j v.
Proof.
  intros N. unfold upd_field, vfield. cbn [lookup fst snd].
  destruct (Z.eqb_spec k j) as [->|_]; [congruence|]. destruct v; reflexivity.
Qed.

Lemma fields_bits_rel v v' l l' :
  Forall2 (fun a b : Z * ty =>
             fst a = fst b /\ enc_bits (snd a) (vfield (fst a) v) = enc_bits (snd b) (vfield (fst b) v')) l l' ->
  fields_bits v l = fields_bits v' l'.
Proof.
  induction 1 as [|a b l l' [_ Hab] _ IH]; [reflexivity|].
  cbn [fields_bits]. fold (fields_bits v) (fields_bits v'). now rewrite Hab, IH.
Qed.

Lemma weq_msg_pointwise x fs fs' m :
  Forall2 (fun a b : Z * ty =>
             fst a = fst b /\ nbits (snd a) = nbits (snd b) /\
             forall v, enc_bits (norm (snd a)) (vfield (fst a) v) = enc_bits (norm (snd b)) (vfield (fst b) (m v)))
          fs fs' ->
  weq (TMsg x fs) (TMsg x fs') m.
Proof.
  intros H. apply weq_msg_core.
  - unfold fields_nbits. induction H as [|a b l l' [_ [N _]] _ IH]; [reflexivity|]. cbn [fold_right]. now rewrite N, IH.
  - intros v. apply fields_bits_rel, sort_fields_rel; [now intros ? ? [E _]|].
    induction H as [|a b l l' [E [_ Hv]] _ IH]; [constructor|]. cbn [norm_fields]. constructor; [|exact IH].
    cbn [fst snd]. auto.
Qed.

Lemma weq_msg_field_cong x fs1 fs2 k t t' m :
  ~ In k (map fst (fs1 ++ fs2)) ->
  weq t t' m ->
  weq (TMsg x (fs1 ++ (k, t) :: fs2)) (TMsg x (fs1 ++ (k, t') :: fs2)) (upd_field k m).
Proof.
  intros Hk [N H]. rewrite map_app, in_app_iff in Hk. apply weq_msg_pointwise.
  (* the other fields do not see the update *)
  assert (Ho : forall l : list (Z * ty), ~ In k (map fst l) ->
            Forall2 (fun a b : Z * ty =>
                       fst a = fst b /\ nbits (snd a) = nbits (snd b) /\
                       forall v, enc_bits (norm (snd a)) (vfield (fst a) v) =
                                 enc_bits (norm (snd b)) (vfield (fst b) (upd_field k m v))) l l).
  { induction l as [|a l IH]; intros Hl; constructor.
    - repeat split. intros v. rewrite vfield_upd_other; [reflexivity|]. intros E. apply Hl. now left.
    - apply IH. intros Hin. apply Hl. now right. }
  apply Forall2_app; [apply Ho; tauto|]. constructor; [|apply Ho; tauto].
  cbn [fst snd]. repeat split; [exact N|]. intros v. rewrite vfield_upd_same. apply H.
Qed.

Lemma weq_msg_fields x : forall fs2 fs2' fs1,
  Forall2 (fun a b : Z * ty => fst a = fst b /\ exists m, weq (snd a) (snd b) m) fs2 fs2' ->
  NoDup (map fst (fs1 ++ fs2)) ->
  exists M, weq (TMsg x (fs1 ++ fs2)) (TMsg x (fs1 ++ fs2')) M.
Proof.
  intros fs2 fs2' fs1 H. revert fs1. induction H as [|a b r r' [Ek [m Hm]] _ IH]; intros fs1 ND.
  - eexists. apply weq_refl.
  - destruct a as [k t], b as [k' t']. cbn [fst snd] in *. subst k'.
    assert (Hnk : ~ In k (map fst (fs1 ++ r))).
    { rewrite map_app in *. cbn [map fst] in ND. apply NoDup_remove_2 in ND. now rewrite in_app_iff in *. }
    pose proof (weq_msg_field_cong x fs1 r k t t' m Hnk Hm) as H1.
    destruct (IH (fs1 ++ [(k, t')])) as [M2 H2].
    { rewrite <- app_assoc. cbn [app]. rewrite map_app in *. cbn [map fst] in *. exact ND. }
    rewrite <- !app_assoc in H2. cbn [app] in H2.
    eexists. eapply weq_trans; [exact H1|exact H2].
Qed.

(* order-preserving renumbering of the fields of a message; the value is mapped through
   the rewrite (rebuilt under the new numbers) *)
Definition renumber_fields (f : Z -> Z) (fs : list (Z * ty)) : list (Z * ty) :=
  map (fun h => (f (fst h), snd h)) fs.

Definition renumber_val (f : Z -> Z) (fs : list (Z * ty)) (v : val) : val :=
  VM (map (fun h => (f (fst h), vfield (fst h) v)) fs).

Lemma lookup_renumbered f (fs : list (Z * ty)) v k :
  In k (map fst fs) ->
  (forall a b, In a (map fst fs) -> In b (map fst fs) -> f a = f b -> a = b) ->
  lookup (f k) (map (fun h => (f (fst h), vfield (fst h) v)) fs) = Some (vfield k v).
Proof.
  intros Hin Hinj. induction fs as [|h r IH]; [destruct Hin|].
  cbn [map lookup fst snd]. destruct (Z.eqb_spec (f (fst h)) (f k)) as [E|NE].
  - f_equal. f_equal. apply Hinj; [now left|exact Hin|exact E].
  - apply IH.
    + destruct Hin as [E|Hin]; [subst k; congruence|exact Hin].
    + intros a b Ha Hb. apply Hinj; now right.
Qed.

Lemma mono_on_inj f keys : mono_on f keys ->
  forall a b, In a keys -> In b keys -> f a = f b -> a = b.
Proof.
  intros Hm a b Ha Hb E. destruct (Z.lt_trichotomy a b) as [L|[->|G]]; [|reflexivity|].
  - specialize (Hm a b Ha Hb L). lia.
  - specialize (Hm b a Hb Ha G). lia.
Qed.

Lemma weq_msg_renumber x fs f :
  mono_on f (map fst fs) ->
  weq (TMsg x fs) (TMsg x (renumber_fields f fs)) (renumber_val f fs).
Proof.
  intros Hm. apply weq_msg_core.
  { unfold renumber_fields, fields_nbits. clear Hm. induction fs as [|h r IH]; [reflexivity|].
    cbn [map fold_right snd]. now rewrite IH. }
  intros v.
  assert (E : norm_fields (renumber_fields f fs) = renumber_fields f (norm_fields fs)).
  { unfold renumber_fields. rewrite (norm_fields_map fs), (norm_fields_map (map (fun h => (f (fst h), snd h)) fs)), !map_map. reflexivity. }
  rewrite E. unfold renumber_fields at 1.
  assert (Hm' : mono_on f (map fst (norm_fields fs))).
  { rewrite norm_fields_map, map_map. exact Hm. }
  rewrite (sort_fields_renumber f _ Hm').
  assert (Hsub : forall h, In h (sort_fields (norm_fields fs)) -> In (fst h) (map fst fs)).
  { intros h Hh. apply (proj1 (sort_fields_in _ _)) in Hh. rewrite norm_fields_map in Hh.
    apply in_map_iff in Hh. destruct Hh as [h0 [<- Hh0]]. cbn [fst]. now apply in_map. }
  set (s := sort_fields (norm_fields fs)) in *. clearbody s. clear E Hm'.
  revert Hsub. induction s as [|h r IH]; intros Hsub; [reflexivity|].
  cbn [map fields_bits fst snd]. fold (fields_bits v) (fields_bits (renumber_val f fs v)).
  rewrite IH by (intros h' Hh'; apply Hsub; now right). f_equal.
  f_equal. unfold renumber_val, vfield at 2.
  rewrite lookup_renumbered; [reflexivity| |].
  - apply Hsub. now left.
  - now apply mono_on_inj.
Qed.

(* rewrite steps on resolved types, closed under contexts and sequences *)

Inductive rw_step : ty -> ty -> (val -> val) -> Prop :=
| RwAliasIntro t : rw_step t (TAlias t) (fun v => v)
| RwAliasInline t : rw_step (TAlias t) t (fun v => v)
| RwReorder x fs fs' :
    Permutation fs fs' -> NoDup (map fst fs) -> rw_step (TMsg x fs) (TMsg x fs') (fun v => v)
| RwRenumber x fs f :
    mono_on f (map fst fs) -> rw_step (TMsg x fs) (TMsg x (renumber_fields f fs)) (renumber_val f fs)
| RwInAlias t t' m : rw_step t t' m -> rw_step (TAlias t) (TAlias t') m
| RwInArr x c e e' m : rw_step e e' m -> rw_step (TArr x c e) (TArr x c e') (map_list m)
| RwInField x fs1 fs2 k t t' m :
    ~ In k (map fst (fs1 ++ fs2)) -> rw_step t t' m ->
    rw_step (TMsg x (fs1 ++ (k, t) :: fs2)) (TMsg x (fs1 ++ (k, t') :: fs2)) (upd_field k m).

Inductive rw_star : ty -> ty -> (val -> val) -> Prop :=
| RwNil t : rw_star t t (fun v => v)
| RwCons t1 t2 t3 m1 m2 : rw_step t1 t2 m1 -> rw_star t2 t3 m2 -> rw_star t1 t3 (fun v => m2 (m1 v)).

Theorem rw_step_weq t t' m : rw_step t t' m -> weq t t' m.
Proof.
  induction 1.
  - apply weq_alias_intro.
  - apply weq_alias_elim.
  - now apply weq_msg_perm.
  - now apply weq_msg_renumber.
  - now apply weq_alias_cong.
  - now apply weq_arr_cong.
  - now apply weq_msg_field_cong.
Qed.

Theorem rw_star_weq t t' m : rw_star t t' m -> weq t t' m.
Proof.
  induction 1 as [t|t1 t2 t3 m1 m2 H1 _ IH].
  - apply weq_refl.
  - eapply weq_trans; [apply rw_step_weq; exact H1|exact IH].
Qed.

Theorem rw_star_wire t t' m : rw_star t t' m -> forall v, wire t v = wire t' (m v).
Proof. intros H. apply weq_wire. now apply rw_star_weq. Qed.

(* aliases can be erased everywhere *)
Fixpoint strip (t : ty) : ty :=
  match t with
  | TAlias t => strip t
  | TArr x c e => TArr x c (strip e)
  | TMsg x fs =>
      TMsg x ((fix go (l : list (Z * ty)) : list (Z * ty) :=
                 match l with
                 | [] => []
                 | kf :: r => (fst kf, strip (snd kf)) :: go r
                 end) fs)
  | _ => t
  end.

Definition strip_fields :=
  fix go (l : list (Z * ty)) : list (Z * ty) :=
    match l with
    | [] => []
    | kf :: r => (fst kf, strip (snd kf)) :: go r
    end.

Lemma strip_msg x fs : strip (TMsg x fs) = TMsg x (strip_fields fs).
Proof. reflexivity. Qed.

Lemma strip_fields_map fs : strip_fields fs = map (fun kf => (fst kf, strip (snd kf))) fs.
Proof. induction fs as [|kf r IH]; [reflexivity|]. cbn [strip_fields map]. now rewrite IH. Qed.

Lemma weq_strip t : weq (strip t) t (fun v => v).
Proof.
  induction t as [| | n | n | n ms | t IH | x c e IH | x fs IH] using ty_ind'; try apply weq_refl.
  - cbn [strip]. exact (weq_trans _ _ _ _ _ IH (weq_alias_intro t)).
  - cbn [strip]. destruct IH as [N H]. split; [cbn [nbits]; now rewrite N|].
    intros v. cbn [norm enc_bits]. f_equal.
    induction (vlist v) as [|a r IHr]; [reflexivity|]. cbn [flat_map]. now rewrite H, IHr.
  - rewrite strip_msg. apply weq_msg_pointwise.
    induction fs as [|kf r IHr]; [constructor|]. inversion IH as [|? ? [N H] Hr]; subst.
    cbn [strip_fields]. constructor; [|now apply IHr]. cbn [fst snd]. repeat split; [exact N|]. intros v. apply H.
Qed.

Theorem wire_strip t v : wire (strip t) v = wire t v.
Proof. exact (weq_wire _ _ _ (weq_strip t) v). Qed.

Corollary wire_alias_insensitive t t' : strip t = strip t' -> forall v, wire t v = wire t' v.
Proof. intros E v. rewrite <- (wire_strip t), <- (wire_strip t'), E. reflexivity. Qed.
