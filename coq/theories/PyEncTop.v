(* PyEncTop.v — top-level statements for C01: the model of Msg.encode() returns exactly
   Spec.wire, plus the layout facts the property text lists (proved in PyEncShapeTop.v and
   SchemaFacts.v from the specification alone). *)
From Coq Require Import ZArith List Lia.
From BP Require Import Bits Schema Spec PyRt PyEncProofs.
From BP Require PyEncShapeTop.
Import ListNotations.
Open Scope Z_scope.

Definition is_msg (t : ty) : bool := match t with TMsg _ _ => true | _ => false end.

Lemma is_msg_norm t : is_msg t = true -> exists x fs, norm t = TMsg x fs.
Proof. destruct t; try discriminate. cbn [norm]. eauto. Qed.

(* integer leaves may hold ANY integer: wire reads each leaf modulo 2^width (C07) *)
Theorem py_encode_any_ints t v :
  is_msg t = true -> wf (norm t) = true -> shape_ty (norm t) v = true ->
  py_encode t v = Ok (wire t v).
Proof.
  intros Hm Hw Ht. unfold py_encode, py_encode_proc.
  destruct (wire_at_0 t v Hw Ht) as [Hlen8 Hch].
  pose proof (PyEncShapeTop.wire_length t v Hw Ht) as Hlen.
  pose proof (nbits_nonneg _ Hw) as Hnn.
  (* the top-level call has no enclosing message: field number -1 is bp.py's NIL data indexer
     and nil_cls the empty accessor table; a message type needs neither *)
  assert (Hreach : reach (norm t) nil_cls v (-1) [] v) by (destruct t; try discriminate; reflexivity).
  (* the fresh buffer is the finished one cut at 0, the returned one is it cut after its last bit *)
  replace (zeros (Z.to_nat (nbytes t))) with (cut (wire t v) 0)
    by (rewrite cut_0; f_equal; unfold nbytes; lia).
  rewrite (enc_ok_all _ nil_cls v (-1) [] v (wire t v) 0 Hw Ht Hreach (Z.le_refl 0) Hlen8 Hch).
  cbn [bind cs]. f_equal. apply cut_full; [apply pack_bytes_ok|].
  unfold wire. rewrite bufZ_pack, Z.add_0_l, <- (enc_bits_length_shape _ v Hw Ht). apply Z_of_bits_range.
Qed.

Theorem py_encode_is_wire t v :
  is_msg t = true -> wf (norm t) = true -> has_ty (norm t) v = true ->
  py_encode t v = Ok (wire t v).
Proof. intros Hm Hw Ht. apply py_encode_any_ints; [assumption..|now apply has_ty_shape]. Qed.

Theorem wire_length t v :
  wf (norm t) = true -> has_ty (norm t) v = true ->
  Z.of_nat (length (wire t v)) = (nbits t + 7) / 8.
Proof. intros Hw Ht. apply PyEncShapeTop.wire_length; [assumption|now apply has_ty_shape]. Qed.

Theorem wire_padding_zero t v k :
  wf (norm t) = true -> has_ty (norm t) v = true -> nbits t <= k ->
  Z.testbit (nth (Z.to_nat (k / 8)) (wire t v) 0) (k mod 8) = false.
Proof. intros Hw Ht. apply PyEncShapeTop.wire_padding_zero; [assumption|now apply has_ty_shape]. Qed.

Theorem enc_bits_nbits t v :
  wf (norm t) = true -> has_ty (norm t) v = true ->
  Z.of_nat (length (enc_bits (norm t) v)) = nbits t.
Proof. intros Hw Ht. apply PyEncShapeTop.enc_bits_nbits; [assumption|now apply has_ty_shape]. Qed.

Fixpoint sorted_keys {A} (l : list (Z * A)) : Prop :=
  match l with
  | [] => True
  | h :: r => (forall x, In x r -> fst h <= fst x) /\ sorted_keys r
  end.

Theorem norm_msg_sorted x fs fs' : norm (TMsg x fs) = TMsg x fs' -> sorted_keys fs'.
(* this file's sorted_keys and PyEncShapeTop's have the same body, hence are convertible *)
Proof. exact (PyEncShapeTop.norm_msg_sorted x fs fs'). Qed.
