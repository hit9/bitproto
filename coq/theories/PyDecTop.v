(* PyDecTop.v — top-level statements for C02: decode(encode(v)) is v (field by field, in
   schema order), re-encoding reproduces the bytes, neither direction raises. *)
From Coq Require Import ZArith List Bool.
From BP Require Import Schema Spec PyRt Eqb PyEncProofs PyEncTop PyDecProofs PyEvolveTop.
Import ListNotations.
Open Scope Z_scope.

(* decoding with the encoder's own schema is forward compatibility with t2 = t1 *)
Theorem py_decode_wire t v :
  is_msg t = true -> wf (norm t) = true -> dec_guard (norm t) = true -> has_ty (norm t) v = true ->
  py_decode t (wire t v) = Ok (canon (norm t) v).
Proof.
  intros Hm Hw Hg Ht. rewrite <- (proj_canon _ _ Ht).
  apply py_forward_compat; auto using evolvesb_refl.
Qed.

Lemma lookup_canon_fields v fs k ft :
  keys_distinct (map fst fs) = true -> In (k, ft) fs ->
  lookup k (canon_fields v fs) = Some (canon ft (vfield k v)).
Proof. exact (lookup_map_fields (fun k t => canon t (vfield k v)) fs k ft). Qed.

Lemma canon_leaf_enc t v : is_leaf t = true -> has_ty t v = true -> enc_bits t (canon t v) = enc_bits t v.
Proof. destruct t, v; cbn; intros; try discriminate; reflexivity. Qed.

Theorem enc_bits_canon t : forall v,
  wf t = true -> has_ty t v = true -> enc_bits t (canon t v) = enc_bits t v.
Proof.
  induction t as [| | n | n | n ms | t IH | x c e IH | x fs IH] using ty_ind'; intros v Hw Ht;
    try (apply canon_leaf_enc; [reflexivity|assumption]).
  - cbn [enc_bits canon wf has_ty] in *. apply IH; assumption.
  - cbn [enc_bits canon wf has_ty vlist] in *.
    rewrite !andb_true_iff in Hw. destruct Hw as [_ He].
    destruct v as [?|?|l|?]; try discriminate.
    rewrite andb_true_iff in Ht. destruct Ht as [_ Hall]. rewrite forallb_forall in Hall.
    cbn [vlist]. f_equal. rewrite flat_map_concat_map, map_map, <- flat_map_concat_map.
    clear - IH He Hall. induction l as [|a r IHl]; [reflexivity|].
    cbn [flat_map]. rewrite IH by (try assumption; apply Hall; now left).
    f_equal. apply IHl. intros y Hy. apply Hall. now right.
  - rewrite canon_msg, !enc_bits_msg. f_equal. pose proof Hw as Hw'.
    rewrite wf_msg in Hw. rewrite !andb_true_iff in Hw. destruct Hw as [[Hd _] _].
    destruct v as [?|?|?|vvs]; try discriminate. rewrite has_ty_msg, fields_has_ty_In in Ht.
    apply fields_bits_ext. intros k ft Hin. destruct (Ht k ft Hin) as (fv & Hl & Hty).
    unfold vfield. rewrite (lookup_canon_fields (VM vvs) fs k ft Hd Hin). unfold vfield. rewrite Hl.
    apply (proj1 (Forall_forall _ _) IH _ Hin); [apply (wf_msg_In _ _ _ _ Hw' Hin)|exact Hty].
Qed.

(* forward compatibility's typing lemma at t2 := t1 *)
Theorem has_ty_canon t : forall v,
  wf t = true -> has_ty t v = true -> has_ty t (canon t v) = true.
Proof.
  intros v Hw Ht. rewrite <- (proj_canon t v Ht). exact (proj_has_ty t t v (evolvesb_refl t) Hw Ht).
Qed.

Lemma val_sim_leaf t v : is_leaf t = true -> has_ty t v = true -> val_sim t (canon t v) v = true.
Proof.
  destruct t, v; cbn; intros; try discriminate; try apply Z.eqb_refl.
  destruct b; reflexivity.
Qed.

Theorem val_sim_canon t : forall v,
  wf t = true -> has_ty t v = true -> val_sim t (canon t v) v = true.
Proof.
  induction t as [| | n | n | n ms | t IH | x c e IH | x fs IH] using ty_ind'; intros v Hw Ht;
    try (apply val_sim_leaf; [reflexivity|assumption]).
  - cbn [canon wf has_ty val_sim] in *. apply IH; assumption.
  - cbn [canon wf has_ty val_sim] in *.
    rewrite !andb_true_iff in Hw. destruct Hw as [_ He].
    destruct v as [?|?|l|?]; try discriminate.
    rewrite andb_true_iff in Ht. destruct Ht as [_ Hall]. rewrite forallb_forall in Hall.
    cbn [vlist]. clear - IH He Hall. induction l as [|a r IHl]; [reflexivity|].
    cbn [map]. rewrite IH by (try assumption; apply Hall; now left). cbn [andb].
    apply IHl. intros y Hy. apply Hall. now right.
  - rewrite canon_msg. pose proof Hw as Hw'.
    rewrite wf_msg in Hw. rewrite !andb_true_iff in Hw. destruct Hw as [[Hd _] _].
    destruct v as [?|?|?|vvs]; try discriminate. rewrite has_ty_msg, fields_has_ty_In in Ht.
    change (forallb (fun kf => match lookup (fst kf) (canon_fields (VM vvs) fs), lookup (fst kf) vvs with
                               | Some x, Some y => val_sim (snd kf) x y
                               | _, _ => false
                               end) fs = true).
    apply forallb_forall. intros [k ft] Hin. cbn [fst snd]. destruct (Ht k ft Hin) as (fv & Hl & Hty).
    rewrite (lookup_canon_fields (VM vvs) fs k ft Hd Hin). unfold vfield. rewrite Hl.
    apply (proj1 (Forall_forall _ _) IH _ Hin); [apply (wf_msg_In _ _ _ _ Hw' Hin)|exact Hty].
Qed.

Theorem py_reencode t v :
  is_msg t = true -> wf (norm t) = true -> has_ty (norm t) v = true ->
  py_encode t (canon (norm t) v) = Ok (wire t v).
Proof.
  intros Hm Hw Ht.
  rewrite (py_encode_is_wire t _ Hm Hw (has_ty_canon _ v Hw Ht)).
  unfold wire. now rewrite (enc_bits_canon _ v Hw Ht).
Qed.

Lemma roundtrip_all t v :
  is_msg t = true -> wf (norm t) = true -> dec_guard (norm t) = true ->
  has_ty (norm t) v = true ->
  exists b v',
    py_encode t v = Ok b /\ py_decode t b = Ok v' /\
    val_sim (norm t) v' v = true /\ py_encode t v' = Ok b.
Proof.
  intros Hm Hw Hg Ht. exists (wire t v), (canon (norm t) v). repeat split.
  - now apply py_encode_is_wire.
  - now apply py_decode_wire.
  - now apply val_sim_canon.
  - now apply py_reencode.
Qed.

(* a schema outside dec_guard on which the decoder does return a different value: an enum whose
   first declared member is not 0 and a field holding 0 *)
Definition ex_enum_default : ty := TMsg false [(1, TEnum 2 [1; 0])].
Lemma enum_default_refuted :
  exists t v, is_msg t = true /\ wf (norm t) = true /\ has_ty (norm t) v = true /\
              dec_guard (norm t) = false /\
              py_decode t (wire t v) = Ok (VM [(1, VZ 1)]) /\ v = VM [(1, VZ 0)].
Proof. exists ex_enum_default, (VM [(1, VZ 0)]). vm_compute. repeat split; reflexivity. Qed.
