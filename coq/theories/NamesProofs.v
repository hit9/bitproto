(* NamesProofs.v — lemmas about the naming model (Names.v; the [snake_case] of EmitNames.v and
   of Lint.v are other definitions, of which nothing here speaks), for ALL strings, by induction:
   split / join; pascal_case; snake_case (the two camel passes are together a local
   three-character-window insertion, [ins3]; on digit-free tokens the digit passes do nothing;
   on tokens joined with "_" the clean-up passes do nothing, [tidy]); the converters on the
   style-guide languages; definition names (nesting, prefixes, size constants, file names); the
   identifiers declared for a whole schema. *)
From Coq Require Import List Bool NArith Ascii String Lia Arith.
From BP Require Import ListFacts NamesBase Names NamesSpec NamesChars.
From BPGen Require Import GenNames.
Import ListNotations.
Open Scope list_scope.

Definition no_us (w : str) : bool := forallb (fun c => negb (is_us c)) w.

Lemma is_chr_95 c : is_chr 95 c = is_us c.
Proof. reflexivity. Qed.

Lemma split_on_nonnil : forall ch s, split_on ch s <> [].
Proof.
  intros ch s. destruct s as [|c r]; cbn [split_on]; [discriminate|].
  destruct (is_chr ch c); [discriminate|]. destruct (split_on ch r); discriminate.
Qed.

Lemma split_cons_us : forall c r, is_us c = true -> words (c :: r) = [] :: words r.
Proof. intros c r H. unfold words. cbn [split_on]. rewrite is_chr_95, H. reflexivity. Qed.

Lemma split_cons_other : forall c r, is_us c = false ->
  words (c :: r) = match words r with p :: ps => (c :: p) :: ps | [] => [[c]] end.
Proof. intros c r H. unfold words. cbn [split_on]. rewrite is_chr_95, H. reflexivity. Qed.

Lemma words_nonnil : forall s, words s <> [].
Proof. intros s. apply split_on_nonnil. Qed.

Lemma join_us_cons2 : forall a b r, join_us (a :: b :: r) = a ++ us :: join_us (b :: r).
Proof. reflexivity. Qed.

Lemma join_words : forall s, join_us (words s) = s.
Proof.
  induction s as [|c r IH]; [reflexivity|].
  destruct (is_us c) eqn:E.
  - rewrite split_cons_us by exact E.
    destruct (words r) as [|p ps] eqn:W; [destruct (words_nonnil r W)|].
    rewrite join_us_cons2, IH. cbn [app]. f_equal. symmetry. apply is_us_eq, E.
  - rewrite split_cons_other by exact E.
    destruct (words r) as [|p ps] eqn:W; [destruct (words_nonnil r W)|].
    destruct ps as [|q qs].
    + cbn [join_us join_with] in *. rewrite IH. reflexivity.
    + rewrite join_us_cons2 in *. cbn [app]. rewrite IH. reflexivity.
Qed.

Lemma words_no_us : forall w, no_us w = true -> words w = [w].
Proof.
  induction w as [|c r IH]; [reflexivity|].
  cbn [no_us forallb]. intros H. apply andb_true_iff in H. destruct H as [H1 H2].
  apply negb_true_iff in H1. rewrite split_cons_other by exact H1.
  fold (no_us r) in H2. rewrite (IH H2). reflexivity.
Qed.

Lemma words_app_us : forall a b, words (a ++ us :: b) = words a ++ words b.
Proof.
  induction a as [|c r IH]; intros b.
  - cbn [app]. rewrite split_cons_us by reflexivity. reflexivity.
  - cbn [app]. destruct (is_us c) eqn:E.
    + rewrite !split_cons_us by exact E. rewrite IH. reflexivity.
    + rewrite !split_cons_other by exact E. rewrite IH.
      destruct (words r) as [|p ps] eqn:W; [destruct (words_nonnil r W)|]. reflexivity.
Qed.

Lemma words_join : forall ws, ws <> [] -> forallb no_us ws = true -> words (join_us ws) = ws.
Proof.
  induction ws as [|a r IH]; [congruence|]. intros _ H.
  cbn [forallb] in H. apply andb_true_iff in H. destruct H as [Ha Hr].
  destruct r as [|b r'].
  - cbn [join_us join_with]. apply words_no_us, Ha.
  - rewrite join_us_cons2, words_app_us, (words_no_us a Ha), IH by (congruence || exact Hr).
    reflexivity.
Qed.

Lemma join_us_app : forall a b, a <> [] -> b <> [] -> join_us (a ++ b) = join_us a ++ us :: join_us b.
Proof.
  induction a as [|x a IH]; [congruence|]. intros b _ Hb.
  destruct a as [|y a'].
  - cbn [app]. destruct b as [|z b']; [congruence|]. reflexivity.
  - change ((x :: y :: a') ++ b) with (x :: y :: (a' ++ b)).
    rewrite !join_us_cons2. change (y :: a' ++ b) with ((y :: a') ++ b).
    rewrite IH by (congruence || exact Hb). rewrite <- app_assoc. reflexivity.
Qed.

Lemma words_pieces_no_us : forall s, forallb no_us (words s) = true.
Proof.
  induction s as [|c r IH]; [reflexivity|].
  destruct (is_us c) eqn:E.
  - rewrite split_cons_us by exact E. cbn [forallb]. rewrite IH. reflexivity.
  - rewrite split_cons_other by exact E.
    destruct (words r) as [|p ps] eqn:W; [destruct (words_nonnil r W)|].
    cbn [forallb] in *. apply andb_true_iff in IH. destruct IH as [I1 I2].
    cbn [no_us forallb]. rewrite E. cbn [negb andb]. fold (no_us p). rewrite I1, I2. reflexivity.
Qed.

Lemma join_us_concat : forall LL, forallb (fun l => match l with [] => false | _ => true end) LL = true ->
  join_us (map join_us LL) = join_us (List.concat LL).
Proof.
  induction LL as [|l r IH]; [reflexivity|]. intros H. cbn [forallb] in H.
  apply andb_true_iff in H. destruct H as [Hl Hr]. specialize (IH Hr).
  destruct r as [|l2 r'].
  - cbn [map List.concat]. rewrite app_nil_r. reflexivity.
  - cbn [map] in *. rewrite join_us_cons2, IH.
    change (List.concat (l :: l2 :: r')) with (l ++ List.concat (l2 :: r')).
    symmetry. apply join_us_app.
    + destruct l; [discriminate|congruence].
    + cbn [forallb] in Hr. apply andb_true_iff in Hr. destruct Hr as [Hl2 _].
      destruct l2; [discriminate|]. cbn [List.concat app]. congruence.
Qed.

Lemma pascal_case_words : forall s, pascal_case s = List.concat (map pascal_part (words s)).
Proof. reflexivity. Qed.

Lemma pascal_case_app_us : forall a b, pascal_case (a ++ us :: b) = pascal_case a ++ pascal_case b.
Proof. intros a b. rewrite !pascal_case_words, words_app_us, map_app, concat_app. reflexivity. Qed.

Lemma pascal_case_join : forall ws, forallb no_us ws = true ->
  pascal_case (join_us ws) = List.concat (map pascal_part ws).
Proof.
  intros ws H. destruct ws as [|a r]; [reflexivity|].
  rewrite pascal_case_words, words_join by (congruence || exact H). reflexivity.
Qed.

Lemma lower_word_no_us : forall w, forallb is_lower w = true -> no_us w = true.
Proof. intros w. apply forallb_impl. intros c H. rewrite (lower_not_us c H). reflexivity. Qed.
Lemma upper_word_no_us : forall w, forallb is_upper w = true -> no_us w = true.
Proof. intros w. apply forallb_impl. intros c H. rewrite (upper_not_us c H). reflexivity. Qed.

Lemma all_lower_no_upper : forall w, forallb is_lower w = true -> existsb is_upper w = false.
Proof. intros w. apply forallb_existsb_false, lower_not_upper. Qed.

Lemma pascal_part_cap_word : forall w, cap_word w = true -> pascal_part w = w.
Proof.
  intros [|u r]; [reflexivity|]. cbn [cap_word pascal_part]. intros H.
  apply andb_true_iff in H. destruct H as [Hu Hr].
  unfold py_isupper. rewrite (all_lower_no_upper r Hr). cbn [andb]. rewrite andb_false_r.
  rewrite (to_upper_id u (upper_not_lower u Hu)). reflexivity.
Qed.

Lemma hump_cap_word : forall h, is_hump h = true -> cap_word h = true.
Proof. intros [|u [|l r]]; cbn [is_hump cap_word]; try discriminate. auto. Qed.

Lemma pascal_part_lower_word : forall w, forallb is_lower w = true -> pascal_part w = cap w.
Proof.
  intros [|c r]; [reflexivity|]. cbn [forallb pascal_part cap]. intros H.
  apply andb_true_iff in H. destruct H as [_ Hr].
  unfold py_isupper. rewrite (all_lower_no_upper r Hr). cbn [andb]. rewrite andb_false_r. reflexivity.
Qed.

Lemma cap_lower_word_is_cap_word : forall w, lower_word w = true -> cap_word (cap w) = true.
Proof.
  intros [|c r]; [discriminate|]. unfold lower_word. cbn [nonempty andb forallb cap cap_word].
  intros H. apply andb_true_iff in H. destruct H as [H1 H2].
  rewrite (to_upper_lower_is_upper c H1), H2. reflexivity.
Qed.

Lemma concat_humps : forall s, List.concat (humps s) = s.
Proof.
  induction s as [|c r IH]; [reflexivity|].
  cbn [humps]. destruct r as [|y r']; [reflexivity|].
  destruct (is_upper y).
  - cbn [List.concat app]. rewrite IH. reflexivity.
  - destruct (humps (y :: r')) as [|h hs] eqn:H.
    + rewrite <- IH. reflexivity.
    + cbn [List.concat app] in *. rewrite IH. reflexivity.
Qed.

Lemma humps_nonnil : forall s, s <> [] -> humps s <> [].
Proof.
  intros [|c r] H; [congruence|]. cbn [humps]. destruct r as [|y r']; [discriminate|].
  destruct (is_upper y); [discriminate|]. destruct (humps (y :: r')); discriminate.
Qed.

Lemma is_pascal_nonempty : forall s, is_pascal s = true -> s <> [].
Proof. intros [|c r] H; [discriminate|congruence]. Qed.

Lemma is_pascal_humps : forall s, is_pascal s = true ->
  forallb is_hump (humps s) = true /\ humps s <> [] /\ List.concat (humps s) = s.
Proof.
  intros s H. split; [|split; [apply humps_nonnil, is_pascal_nonempty, H | apply concat_humps]].
  unfold is_pascal in H. apply andb_true_iff in H. apply H.
Qed.

Lemma cap_word_no_us : forall w, cap_word w = true -> no_us w = true.
Proof.
  intros [|u r]; [reflexivity|]. cbn [cap_word no_us forallb]. intros H.
  apply andb_true_iff in H. destruct H as [Hu Hr]. rewrite (upper_not_us u Hu). cbn [negb andb].
  apply lower_word_no_us, Hr.
Qed.

Lemma no_us_concat : forall ws, forallb no_us ws = true -> no_us (List.concat ws) = true.
Proof.
  induction ws as [|a r IH]; [reflexivity|]. cbn [forallb List.concat]. intros H.
  apply andb_true_iff in H. destruct H as [H1 H2]. unfold no_us. rewrite forallb_app.
  fold (no_us a). fold (no_us (List.concat r)). rewrite H1, (IH H2). reflexivity.
Qed.

Lemma pascal_case_concat : forall ws,
  forallb no_us ws = true -> (forall w, In w ws -> pascal_part w = w) ->
  pascal_case (join_us ws) = List.concat ws.
Proof.
  intros ws H1 H2. rewrite pascal_case_join by exact H1. f_equal.
  rewrite <- (map_id ws) at 2. apply map_ext_in, H2.
Qed.

Lemma pascal_no_us : forall s, is_pascal s = true -> no_us s = true.
Proof.
  intros s H. destruct (is_pascal_humps s H) as [Hh [_ Hc]]. rewrite <- Hc.
  apply no_us_concat. eapply forallb_impl; [|exact Hh]. intros h Hh'. apply cap_word_no_us, hump_cap_word, Hh'.
Qed.

Lemma pascal_part_pascal : forall s, is_pascal s = true -> pascal_part s = s.
Proof.
  intros s H. destruct (is_pascal_humps s H) as [Hh [Hne Hc]].
  destruct (humps s) as [|h hs] eqn:E; [congruence|].
  cbn [forallb] in Hh. apply andb_true_iff in Hh. destruct Hh as [Hh1 Hh2].
  destruct h as [|u [|l r]]; cbn [is_hump] in Hh1; try discriminate.
  apply andb_true_iff in Hh1. destruct Hh1 as [Hu Hl]. cbn [forallb] in Hl.
  apply andb_true_iff in Hl. destruct Hl as [Hl _].
  rewrite <- Hc. cbn [List.concat app pascal_part].
  unfold py_isupper.
  assert (X : existsb is_lower ((l :: r) ++ List.concat hs) = true).
  { cbn [app existsb]. rewrite Hl. reflexivity. }
  cbn [app] in X. rewrite X. cbn [negb]. rewrite andb_false_r, andb_false_r.
  rewrite (to_upper_id u (upper_not_lower u Hu)). reflexivity.
Qed.

Lemma pascal_case_identity : forall s, is_pascal s = true -> pascal_case s = s.
Proof.
  intros s H. rewrite pascal_case_words, (words_no_us s (pascal_no_us s H)).
  cbn [map List.concat]. rewrite app_nil_r. apply pascal_part_pascal, H.
Qed.

Definition lowdig (c : ascii) : bool := is_lower c || is_digit c.

(* where the two camel passes of [snake_token] together put a separator between x and y
   ([zl]: the character after y is a small letter) *)
Definition sep3 (x y : ascii) (zl : bool) : bool :=
  (negb (is_nl x) && is_upper y && zl) || (lowdig x && is_upper y).

Fixpoint ins3 (s : str) : str :=
  match s with
  | [] => []
  | x :: r =>
      match r with
      | [] => [x]
      | y :: r2 => if sep3 x y (first_is is_lower r2) then x :: us :: ins3 r else x :: ins3 r
      end
  end.

Lemma ins3_cons2 x y r : ins3 (x :: y :: r) =
  if sep3 x y (first_is is_lower r) then x :: us :: ins3 (y :: r) else x :: ins3 (y :: r).
Proof. reflexivity. Qed.

Definition b2 (t : str) : str := sub_pair b2_left b2_right t.
Definition P2 (x y : ascii) : bool := lowdig x && is_upper y.

Lemma upper_not_lowdig c : is_upper c = true -> lowdig c = false.
Proof. intros H. unfold lowdig. rewrite (upper_not_lower c H), (upper_not_digit c H). reflexivity. Qed.

Lemma b2_nil : b2 [] = [].
Proof. reflexivity. Qed.
Lemma b2_single x : b2 [x] = [x].
Proof. reflexivity. Qed.

Lemma b2_local : forall x y X,
  b2 (x :: y :: X) = if P2 x y then x :: us :: b2 (y :: X) else x :: b2 (y :: X).
Proof.
  intros x y X. unfold b2 at 1. cbn [sub_pair]. rewrite b2_left_eq, b2_right_eq.
  fold (lowdig x). fold (P2 x y). destruct (P2 x y) eqn:E; [|reflexivity].
  unfold P2 in E. apply andb_true_iff in E. destruct E as [_ Hy].
  unfold b2. destruct X as [|z X']; cbn [sub_pair]; [reflexivity|].
  rewrite (b2_left_eq y). fold (lowdig y). rewrite (upper_not_lowdig y Hy). reflexivity.
Qed.

Lemma sub_b1_eq : forall run t,
  sub_b1 run t =
  match t with
  | [] => []
  | c :: r =>
      if run && is_lower c then c :: sub_b1 true r
      else
        match r with
        | u :: ((l :: _) as r') =>
            if negb (is_nl c) && is_upper u && is_lower l
            then c :: us :: u :: sub_b1 true r'
            else c :: sub_b1 false r
        | _ => c :: sub_b1 false r
        end
  end.
Proof.
  intros run [|c r]; [reflexivity|]. cbn [sub_b1]. rewrite b1_run_eq.
  destruct r as [|u [|l r3]]; try reflexivity. rewrite b1_first_eq, b1_head_eq, b1_run_eq. reflexivity.
Qed.

Lemma sub_b1_head : forall run c r, exists t, sub_b1 run (c :: r) = c :: t.
Proof.
  intros run c r. rewrite sub_b1_eq. destruct (run && is_lower c); [eexists; reflexivity|].
  destruct r as [|u [|l r3]]; try (eexists; reflexivity).
  destruct (negb (is_nl c) && is_upper u && is_lower l); eexists; reflexivity.
Qed.

Lemma us_not_lowdig : lowdig us = false. Proof. reflexivity. Qed.
Lemma us_not_upper' : is_upper us = false. Proof. reflexivity. Qed.

Lemma camel_passes_local : forall n s, (List.length s <= n)%nat -> forall run, b2 (sub_b1 run s) = ins3 s.
Proof.
  induction n as [|n IH]; intros s Hlen run.
  - destruct s; [reflexivity | cbn [List.length] in Hlen; lia].
  - destruct s as [|c r]; [reflexivity|]. cbn [List.length] in Hlen.
    assert (IHr : forall run', b2 (sub_b1 run' r) = ins3 r) by (intros; apply IH; lia).
    rewrite sub_b1_eq.
    destruct (run && is_lower c) eqn:EA.
    + (* inside a greedy run: c is consumed *)
      apply andb_true_iff in EA. destruct EA as [_ Hc].
      destruct r as [|y r2]; [reflexivity|].
      destruct (sub_b1_head true y r2) as [t Ht].
      specialize (IHr true). rewrite Ht in *. rewrite b2_local, IHr.
      cbn [ins3]. unfold sep3, P2, lowdig. rewrite Hc. cbn [orb andb].
      destruct (is_upper y), (first_is is_lower r2), (is_nl c); reflexivity.
    + destruct r as [|u r1]; [reflexivity|].
      assert (NoMatch : b2 (c :: sub_b1 false (u :: r1)) =
                        if P2 c u then c :: us :: ins3 (u :: r1) else c :: ins3 (u :: r1)).
      { destruct (sub_b1_head false u r1) as [t Ht]. specialize (IHr false).
        rewrite Ht in *. rewrite b2_local, IHr. reflexivity. }
      destruct r1 as [|l r3].
      * rewrite NoMatch. cbn [ins3 first_is]. unfold sep3. rewrite andb_false_r. reflexivity.
      * destruct (negb (is_nl c) && is_upper u && is_lower l) eqn:EM.
        -- (* a match: c _ u, then the run starting at l *)
           apply andb_true_iff in EM. destruct EM as [EM Hl]. apply andb_true_iff in EM.
           destruct EM as [Hnl Hu].
           destruct (sub_b1_head true l r3) as [t Ht].
           assert (IH2 : b2 (sub_b1 true (l :: r3)) = ins3 (l :: r3)).
           { apply IH. cbn [List.length] in *. lia. }
           rewrite Ht in *.
           rewrite b2_local. unfold P2 at 1. rewrite us_not_upper', andb_false_r.
           rewrite b2_local. unfold P2 at 1. rewrite us_not_lowdig. cbn [andb].
           rewrite b2_local. unfold P2 at 1. rewrite (lower_not_upper l Hl), andb_false_r.
           rewrite IH2.
           rewrite (ins3_cons2 c u (l :: r3)).
           cbn [first_is]. unfold sep3 at 1. rewrite Hnl, Hu, Hl. cbn [andb orb].
           rewrite (ins3_cons2 u l r3).
           unfold sep3. rewrite (lower_not_upper l Hl), !andb_false_r. reflexivity.
        -- rewrite NoMatch.
           rewrite (ins3_cons2 c u (l :: r3)).
           cbn [first_is]. unfold sep3. fold (P2 c u).
           assert (X : negb (is_nl c) && is_upper u && is_lower l || P2 c u = P2 c u)
             by (rewrite EM; reflexivity).
           rewrite X. reflexivity.
Qed.

Lemma camel_passes : forall t, b2 (sub_b1 false t) = ins3 t.
Proof. intros t. apply (camel_passes_local (List.length t)). lia. Qed.

Definition no_digit (s : str) : bool := forallb (fun c => negb (is_digit c)) s.

Lemma sub_pair_no_right : forall L R t,
  forallb (fun c => negb (in_class R c)) t = true -> sub_pair L R t = t.
Proof.
  intros L R. induction t as [|x r IH]; [reflexivity|]. intros H.
  cbn [forallb] in H. apply andb_true_iff in H. destruct H as [_ Hr].
  cbn [sub_pair]. destruct r as [|y r']; [reflexivity|].
  pose proof Hr as Hr'. cbn [forallb] in Hr'. apply andb_true_iff in Hr'. destruct Hr' as [Hy _].
  apply negb_true_iff in Hy. rewrite Hy, andb_false_r. rewrite (IH Hr). reflexivity.
Qed.

Lemma sub_pair_no_left : forall L R t,
  forallb (fun c => negb (in_class L c)) t = true -> sub_pair L R t = t.
Proof.
  intros L R. induction t as [|x r IH]; [reflexivity|]. intros H.
  cbn [forallb] in H. apply andb_true_iff in H. destruct H as [Hx Hr].
  cbn [sub_pair]. destruct r as [|y r']; [reflexivity|].
  apply negb_true_iff in Hx. rewrite Hx. cbn [andb]. rewrite (IH Hr). reflexivity.
Qed.

Lemma digit_passes_id : forall t, no_digit t = true ->
  sub_pair d2a_left d2a_right (sub_pair a2d_left a2d_right t) = t.
Proof.
  intros t H.
  assert (A : sub_pair a2d_left a2d_right t = t).
  { apply sub_pair_no_right. eapply forallb_impl; [|exact H]. intros c Hc. cbn beta in *.
    rewrite a2d_right_eq. exact Hc. }
  rewrite A. apply sub_pair_no_left. eapply forallb_impl; [|exact H]. intros c Hc. cbn beta in *.
  rewrite d2a_left_eq. exact Hc.
Qed.

Lemma ins3_no_digit : forall t, no_digit t = true -> no_digit (ins3 t) = true.
Proof.
  induction t as [|x r IH]; [reflexivity|]. intros H.
  pose proof H as H'. cbn [no_digit forallb] in H'. apply andb_true_iff in H'. destruct H' as [Hx Hr].
  fold (no_digit r) in Hr. cbn [ins3]. destruct r as [|y r2]; [exact H|].
  destruct (sep3 x y (first_is is_lower r2)); cbn [no_digit forallb]; rewrite Hx; cbn [andb];
    [change (negb (is_digit us)) with true; cbn [andb]|]; apply IH, Hr.
Qed.

Lemma snake_token_no_digit : forall b t, no_digit t = true -> snake_token b t = ins3 t.
Proof.
  intros b t H. unfold snake_token. fold (b2 (sub_b1 false t)). rewrite camel_passes.
  destruct (negb b && negb (all_upper_or_digits (ins3 t))); [|reflexivity].
  apply digit_passes_id, ins3_no_digit, H.
Qed.

Definition letters (t : str) : bool := nonempty t && forallb is_letter t.

Lemma ins3_no_us_words : forall t, letters t = true -> nonempty (ins3 t) = true.
Proof.
  intros [|x [|y r]] H; [discriminate | reflexivity|]. rewrite ins3_cons2.
  destruct (sep3 x y (first_is is_lower r)); reflexivity.
Qed.

Definition dash_map (c : ascii) : ascii := if is_chr dash_char c then sepc else c.

Lemma snake_case_nonempty : forall word, word <> [] ->
  snake_case word =
  let s := map dash_map word in
  let pre := leading_us s in
  let rest := skipn (List.length pre) s in
  let suf := trailing_us rest in
  let core := firstn (List.length rest - List.length suf) rest in
  let respect := existsb (is_chr sep_char) word && mixed_case word in
  let parts := map (snake_token respect) (filter nonempty (words core)) in
  let core_snake := lower (strip_chr sep_char (sub_multi false (join_us parts))) in
  pre ++ core_snake ++ suf.
Proof. intros [|c r] H; [congruence|reflexivity]. Qed.

Lemma letters_no_us : forall t, letters t = true -> no_us t = true.
Proof.
  intros t H. unfold letters in H. apply andb_true_iff in H. destruct H as [_ H].
  eapply forallb_impl; [|exact H]. intros c Hc. cbn beta. rewrite (letter_not_us c Hc). reflexivity.
Qed.
Lemma letters_no_digit : forall t, letters t = true -> no_digit t = true.
Proof.
  intros t H. unfold letters in H. apply andb_true_iff in H. destruct H as [_ H].
  eapply forallb_impl; [|exact H]. intros c Hc. cbn beta. rewrite (letter_not_digit c Hc). reflexivity.
Qed.
Lemma letters_inv t : letters t = true -> forallb is_letter t = true /\ t <> [].
Proof. intros H. apply andb_true_iff in H. destruct t; [destruct H; discriminate | split; [apply H | discriminate]]. Qed.

Lemma at_end_drop : forall s z, is_us z = false -> is_nl z = false ->
  at_end (drop_while (in_class trailing_class) (s ++ [z])) = false.
Proof.
  induction s as [|c r IH]; intros z Hz Hn.
  - cbn [app drop_while]. rewrite trailing_eq, Hz. cbn [at_end]. exact Hn.
  - cbn [app drop_while]. destruct (in_class trailing_class c); [apply IH; assumption|].
    cbn [at_end]. destruct r; reflexivity.
Qed.

Lemma trailing_none : forall s z, is_us z = false -> is_nl z = false -> trailing_us (s ++ [z]) = [].
Proof.
  induction s as [|c r IH]; intros z Hz Hn.
  - cbn [app trailing_us]. rewrite trailing_eq, Hz. reflexivity.
  - change ((c :: r) ++ [z]) with (c :: (r ++ [z])).
    cbn [trailing_us].
    change (c :: r ++ [z]) with ((c :: r) ++ [z]).
    rewrite (at_end_drop (c :: r) z Hz Hn), andb_false_r. apply IH; assumption.
Qed.

(* what the tokens of a name, split and joined again, look like: (q+ "_")* q+ for a class [q]
   of characters without "_", "-" and newline ([mid]: a [q] came just before).  On such
   strings the clean-up passes of snake_case (dashes, leading and trailing underscores, "__+",
   strip) do nothing. *)
Section Tidy.
Variable q : ascii -> bool.
Hypothesis q_us : forall c, q c = true -> is_us c = false.
Hypothesis q_dash : forall c, q c = true -> is_chr dash_char c = false.
Hypothesis q_nl : forall c, q c = true -> is_nl c = false.

Fixpoint tidy (mid : bool) (s : str) : bool :=
  match s with
  | [] => mid
  | c :: r => if q c then tidy true r else is_us c && mid && tidy false r
  end.

Lemma tidy_cons b c s : q c = true -> tidy b (c :: s) = tidy true s.
Proof. cbn [tidy]. intros ->. reflexivity. Qed.

Lemma tidy_us s : tidy true (us :: s) = tidy false s.
Proof. cbn [tidy]. destruct (q us) eqn:E; [apply q_us in E; discriminate E | reflexivity]. Qed.

Lemma tidy_app : forall t b r, tidy b t = true -> tidy b (t ++ r) = tidy true r.
Proof.
  induction t as [|c t IH]; intros b r H; cbn [app tidy] in *; [rewrite H; reflexivity|].
  destruct (q c); [apply IH, H|].
  apply andb_true_iff in H. destruct H as [H1 H2]. rewrite H1. cbn [andb]. apply IH, H2.
Qed.

Lemma tidy_join : forall ts, ts <> [] -> forallb (tidy false) ts = true -> tidy false (join_us ts) = true.
Proof.
  induction ts as [|a r IH]; [congruence|]. intros _ H. cbn [forallb] in H.
  apply andb_true_iff in H. destruct H as [Ha Hr]. destruct r as [|b r']; [exact Ha|].
  rewrite join_us_cons2, tidy_app, tidy_us by exact Ha.
  apply IH; [congruence | exact Hr].
Qed.

Lemma tidy_ins3 : forall t b, forallb q t = true -> t <> [] -> tidy b (ins3 t) = true.
Proof.
  induction t as [|x r IH]; intros b H Hne; [congruence|]. cbn [forallb] in H.
  apply andb_true_iff in H. destruct H as [Hx Hr].
  destruct r as [|y r2]; [cbn [ins3 tidy]; rewrite Hx; reflexivity|]. rewrite ins3_cons2.
  destruct (sep3 x y (first_is is_lower r2)); rewrite (tidy_cons _ _ _ Hx), ?tidy_us; apply IH; (exact Hr || discriminate).
Qed.

Lemma tidy_word : forall t b, forallb q t = true -> t <> [] -> tidy b t = true.
Proof.
  induction t as [|x r IH]; intros b H Hne; [congruence|]. cbn [forallb tidy] in *.
  apply andb_true_iff in H. destruct H as [Hx Hr]. rewrite Hx.
  destruct r; [reflexivity | apply IH; [exact Hr | discriminate]].
Qed.

Lemma tidy_first : forall s, tidy false s = true -> exists c r, s = c :: r /\ q c = true.
Proof.
  intros [|c r]; [discriminate|]. cbn [tidy]. destruct (q c) eqn:E; [eauto|].
  rewrite andb_false_r. discriminate.
Qed.

Lemma tidy_last : forall s b, tidy b s = true -> s <> [] -> exists w z, s = w ++ [z] /\ q z = true.
Proof.
  induction s as [|c r IH]; intros b H Hne; [congruence|]. cbn [tidy] in H. destruct r as [|d r'].
  - exists [], c. split; [reflexivity|]. destruct (q c); [reflexivity|].
    cbn [tidy] in H. rewrite andb_false_r in H. discriminate.
  - assert (X : exists b', tidy b' (d :: r') = true).
    { destruct (q c); [eauto|]. apply andb_true_iff in H. destruct H; eauto. }
    destruct X as [b' X]. destruct (IH b' X ltac:(discriminate)) as [w [z [E Hz]]].
    exists (c :: w), z. rewrite E. split; [reflexivity | exact Hz].
Qed.

Lemma tidy_no_dash : forall s b, tidy b s = true -> map dash_map s = s.
Proof.
  induction s as [|c r IH]; intros b H; [reflexivity|]. cbn [tidy map] in *. unfold dash_map at 1.
  destruct (q c) eqn:E.
  - rewrite (q_dash c E), (IH _ H). reflexivity.
  - apply andb_true_iff in H. destruct H as [H1 H2]. apply andb_true_iff in H1.
    rewrite (us_not_dash c (proj1 H1)), (IH _ H2). reflexivity.
Qed.

Lemma tidy_leading s : tidy false s = true -> leading_us s = [].
Proof.
  intros H. destruct (tidy_first s H) as [c [r [-> Hc]]]. cbn [leading_us take_while].
  rewrite leading_eq, (q_us c Hc). reflexivity.
Qed.

Lemma tidy_multi : forall s b, tidy b s = true -> sub_multi false s = s.
Proof.
  induction s as [|c r IH]; intros b H; [reflexivity|]. cbn [tidy] in H. cbn [sub_multi]. rewrite multi_eq.
  destruct (q c) eqn:E.
  - rewrite (q_us c E), (IH _ H). reflexivity.
  - apply andb_true_iff in H. destruct H as [H1 H2]. apply andb_true_iff in H1. rewrite (proj1 H1).
    destruct (tidy_first r H2) as [d [r' [-> Hd]]]. cbv beta iota.
    rewrite multi_eq, (q_us d Hd), (IH _ H2). reflexivity.
Qed.

Lemma tidy_strip : forall s, tidy false s = true -> strip_chr sep_char s = s.
Proof.
  intros s H. destruct (tidy_first s H) as [c [r [E Hc]]].
  destruct (tidy_last s false H) as [w [z [E' Hz]]]; [rewrite E; discriminate|]. unfold strip_chr.
  rewrite E at 1. cbn [drop_while]. rewrite sep_eq, (q_us c Hc), <- E, E', rev_app_distr.
  cbn [rev app drop_while]. rewrite sep_eq, (q_us z Hz). cbn [rev]. rewrite rev_involutive. reflexivity.
Qed.

Lemma tidy_trailing : forall s, tidy false s = true -> trailing_us s = [].
Proof.
  intros s H. destruct (tidy_last s false H) as [w [z [E Hz]]]; [intros ->; discriminate|]. rewrite E.
  apply trailing_none; [apply q_us | apply q_nl]; exact Hz.
Qed.

Theorem snake_case_tokens : forall ts, ts <> [] ->
  forallb (fun t => nonempty t && forallb q t) ts = true ->
  let r := existsb (is_chr sep_char) (join_us ts) && mixed_case (join_us ts) in
  forallb (fun t => tidy false (snake_token r t)) ts = true ->
  snake_case (join_us ts) = lower (join_us (map (snake_token r) ts)).
Proof.
  intros ts Hne Hl r Hr. subst r.
  assert (T0 : tidy false (join_us ts) = true).
  { apply tidy_join; [exact Hne|]. eapply forallb_impl; [|exact Hl]. intros t Ht.
    apply andb_true_iff in Ht. apply tidy_word; [apply Ht | destruct t; [destruct Ht; discriminate | congruence]]. }
  assert (T1 : tidy false (join_us (map (snake_token
    (existsb (is_chr sep_char) (join_us ts) && mixed_case (join_us ts))) ts)) = true).
  { apply tidy_join; [destruct ts; [congruence | discriminate]|]. rewrite forallb_map. exact Hr. }
  rewrite snake_case_nonempty by (destruct (tidy_first _ T0) as [c [w [-> _]]]; discriminate).
  cbv zeta. rewrite (tidy_no_dash _ _ T0), (tidy_leading _ T0). cbn [List.length skipn].
  rewrite (tidy_trailing _ T0). cbn [List.length].
  rewrite Nat.sub_0_r, firstn_all.
  rewrite words_join, filter_all.
  - rewrite (tidy_multi _ _ T1), (tidy_strip _ T1). cbn [app]. apply app_nil_r.
  - eapply forallb_impl; [|exact Hl]. intros t Ht. apply andb_true_iff in Ht. apply Ht.
  - exact Hne.
  - eapply forallb_impl; [|exact Hl]. intros t Ht. apply andb_true_iff in Ht.
    eapply forallb_impl; [|apply Ht]. intros c Hc. cbn beta. rewrite (q_us c Hc). reflexivity.
Qed.
End Tidy.

Theorem snake_case_letters : forall ts, ts <> [] -> forallb letters ts = true ->
  snake_case (join_us ts) = lower (join_us (map ins3 ts)).
Proof.
  intros ts Hne Hl.
  rewrite (snake_case_tokens is_letter letter_not_us letter_not_dash letter_not_nl ts Hne Hl).
  - f_equal. f_equal. eapply map_ext_forallb; [|exact Hl].
    intros t Ht. apply snake_token_no_digit, letters_no_digit, Ht.
  - eapply forallb_impl; [|exact Hl]. intros t Ht.
    rewrite (snake_token_no_digit _ t (letters_no_digit t Ht)).
    apply (tidy_ins3 is_letter letter_not_us); apply (letters_inv t Ht).
Qed.

Lemma snake_case_single t : letters t = true -> snake_case t = lower (ins3 t).
Proof.
  intros H. change t with (join_us [t]) at 1. rewrite snake_case_letters; [reflexivity | congruence |].
  cbn [forallb]. rewrite H. reflexivity.
Qed.

Lemma ins3_tail_no_upper : forall ls x, existsb is_upper ls = false -> ins3 (x :: ls) = x :: ls.
Proof.
  induction ls as [|l ls IH]; intros x H; [reflexivity|].
  cbn [existsb] in H. apply orb_false_iff in H. destruct H as [Hl Hls].
  rewrite (ins3_cons2 x l ls).
  unfold sep3. rewrite Hl, !andb_false_r. cbn [orb]. rewrite (IH l Hls). reflexivity.
Qed.

Lemma ins3_no_upper : forall t, existsb is_upper t = false -> ins3 t = t.
Proof.
  intros [|x ls] H; [reflexivity|]. cbn [existsb] in H. apply orb_false_iff in H.
  apply ins3_tail_no_upper. tauto.
Qed.

Lemma ins3_all_upper : forall t, forallb is_upper t = true -> ins3 t = t.
Proof.
  induction t as [|x r IH]; [reflexivity|]. intros H. cbn [forallb] in H.
  apply andb_true_iff in H. destruct H as [Hx Hr]. destruct r as [|y r2]; [reflexivity|].
  rewrite (ins3_cons2 x y r2).
  rewrite (IH Hr). unfold sep3. rewrite (upper_not_lowdig x Hx). cbn [andb orb].
  assert (Z : first_is is_lower r2 = false).
  { cbn [forallb] in Hr. apply andb_true_iff in Hr. destruct Hr as [_ Hr2].
    destruct r2 as [|z r3]; [reflexivity|]. cbn [forallb] in Hr2. apply andb_true_iff in Hr2.
    cbn [first_is]. apply upper_not_lower. tauto. }
  rewrite Z, andb_false_r. reflexivity.
Qed.

Lemma ins3_lowers_then : forall ls x u2 R',
  forallb is_lower ls = true -> is_upper u2 = true ->
  (ls <> [] \/ lowdig x = true \/ (is_nl x = false /\ first_is is_lower R' = true)) ->
  ins3 (x :: ls ++ u2 :: R') = x :: ls ++ us :: ins3 (u2 :: R').
Proof.
  induction ls as [|l ls IH]; intros x u2 R' Hls Hu Hc.
  - cbn [app].
    rewrite (ins3_cons2 x u2 R').
    assert (S3 : sep3 x u2 (first_is is_lower R') = true).
    { unfold sep3. rewrite Hu. destruct Hc as [Hc|[Hc|[Hc1 Hc2]]]; [congruence| |].
      - rewrite Hc. cbn [andb]. apply orb_true_r.
      - rewrite Hc1, Hc2. reflexivity. }
    rewrite S3. reflexivity.
  - cbn [forallb] in Hls. apply andb_true_iff in Hls. destruct Hls as [Hl Hls].
    change (x :: (l :: ls) ++ u2 :: R') with (x :: l :: (ls ++ u2 :: R')).
    rewrite (ins3_cons2 x l (ls ++ u2 :: R')).
    unfold sep3 at 1. rewrite (lower_not_upper l Hl), !andb_false_r. cbn [orb].
    rewrite (IH l u2 R' Hls Hu); [reflexivity|]. right. left. unfold lowdig. rewrite Hl. reflexivity.
Qed.

Lemma cap_word_inv : forall w, cap_word w = true ->
  exists u ls, w = u :: ls /\ is_upper u = true /\ forallb is_lower ls = true.
Proof.
  intros [|u ls] H; [discriminate|]. cbn [cap_word] in H. apply andb_true_iff in H.
  exists u, ls. tauto.
Qed.

Lemma ins3_capwords : forall cws,
  forallb cap_word cws = true -> no_adjacent_singles cws = true ->
  ins3 (List.concat cws) = join_us cws.
Proof.
  induction cws as [|w rest IH]; [reflexivity|]. intros Hc Hs.
  cbn [forallb] in Hc. apply andb_true_iff in Hc. destruct Hc as [Hw Hrest].
  destruct (cap_word_inv w Hw) as [u [ls [Ew [Hu Hls]]]]. subst w.
  destruct rest as [|w2 rest'].
  - cbn [List.concat]. rewrite app_nil_r. apply ins3_tail_no_upper, all_lower_no_upper, Hls.
  - pose proof Hrest as Hrest'. cbn [forallb] in Hrest'. apply andb_true_iff in Hrest'.
    destruct Hrest' as [Hw2 _].
    destruct (cap_word_inv w2 Hw2) as [u2 [ls2 [Ew2 [Hu2 Hls2]]]]. subst w2.
    cbn [no_adjacent_singles] in Hs. apply andb_true_iff in Hs. destruct Hs as [Hs1 Hs2].
    rewrite join_us_cons2. rewrite <- (IH Hrest Hs2).
    change (List.concat ((u :: ls) :: (u2 :: ls2) :: rest'))
      with (u :: ls ++ u2 :: (ls2 ++ List.concat rest')).
    change (List.concat ((u2 :: ls2) :: rest')) with (u2 :: (ls2 ++ List.concat rest')).
    rewrite ins3_lowers_then; [reflexivity|exact Hls|exact Hu2|].
    destruct ls as [|l ls']; [|left; congruence]. right. right.
    split; [apply upper_not_nl, Hu|].
    cbn [single andb] in Hs1. destruct ls2 as [|l2 ls2']; [discriminate|].
    cbn [forallb] in Hls2. apply andb_true_iff in Hls2. cbn [app first_is]. tauto.
Qed.

Lemma nas_cons2 : forall a b r,
  no_adjacent_singles (a :: b :: r) = negb (single a && single b) && no_adjacent_singles (b :: r).
Proof. reflexivity. Qed.

Lemma nas_nosingle : forall b, forallb (fun w => negb (single w)) b = true -> no_adjacent_singles b = true.
Proof.
  induction b as [|x r IH]; [reflexivity|]. intros H. cbn [forallb] in H.
  apply andb_true_iff in H. destruct H as [Hx Hr]. destruct r as [|y r']; [reflexivity|].
  rewrite nas_cons2, (IH Hr). apply negb_true_iff in Hx. rewrite Hx. reflexivity.
Qed.

Lemma hump_not_single : forall h, is_hump h = true -> negb (single h) = true.
Proof. intros [|u [|l r]] H; try discriminate. reflexivity. Qed.

Lemma humps_no_singles : forall hs, forallb is_hump hs = true -> no_adjacent_singles hs = true.
Proof. intros hs H. apply nas_nosingle. exact (forallb_impl _ _ _ hump_not_single H). Qed.

Lemma ins3_pascal : forall s, is_pascal s = true -> ins3 s = join_us (humps s).
Proof.
  intros s H. destruct (is_pascal_humps s H) as [Hh [_ Hc]].
  rewrite <- Hc at 1. apply ins3_capwords; [|apply humps_no_singles, Hh].
  eapply forallb_impl; [|exact Hh]. apply hump_cap_word.
Qed.

Lemma upper_app a b : upper (a ++ b) = upper a ++ upper b.
Proof. apply map_app. Qed.

Lemma map_join_us (f : ascii -> ascii) ws : f us = us -> map f (join_us ws) = join_us (map (map f) ws).
Proof.
  intros Hf. induction ws as [|a r IH]; [reflexivity|]. destruct r as [|b r']; [reflexivity|].
  rewrite join_us_cons2. cbn [map]. rewrite join_us_cons2, map_app. cbn [map]. rewrite Hf, IH. reflexivity.
Qed.
Lemma lower_join ws : lower (join_us ws) = join_us (map lower ws).
Proof. apply map_join_us. reflexivity. Qed.
Lemma upper_join ws : upper (join_us ws) = join_us (map upper ws).
Proof. apply map_join_us. reflexivity. Qed.

Lemma upper_lower : forall s, upper (lower s) = upper s.
Proof. intros s. unfold upper, lower. rewrite map_map. apply map_ext, to_upper_after_lower. Qed.

Lemma lower_all_lower w : forallb is_lower w = true -> lower w = w.
Proof. apply map_id_forallb. intros c H. apply to_lower_id, lower_not_upper, H. Qed.
Lemma upper_all_upper w : forallb is_upper w = true -> upper w = w.
Proof. apply map_id_forallb. intros c H. apply to_upper_id, upper_not_lower, H. Qed.

Lemma lower_word_all w : lower_word w = true -> forallb is_lower w = true.
Proof. intros H. apply andb_true_iff in H. apply H. Qed.
Lemma upper_word_all w : upper_word w = true -> forallb is_upper w = true.
Proof. intros H. apply andb_true_iff in H. apply H. Qed.

Lemma lower_word_letters : forall w, lower_word w = true -> letters w = true.
Proof.
  intros w H. unfold lower_word in H. apply andb_true_iff in H. destruct H as [Hn Hl].
  unfold letters. rewrite Hn. cbn [andb]. eapply forallb_impl; [|exact Hl].
  intros c Hc. unfold is_letter. rewrite Hc. apply orb_true_r.
Qed.
Lemma upper_word_letters : forall w, upper_word w = true -> letters w = true.
Proof.
  intros w H. unfold upper_word in H. apply andb_true_iff in H. destruct H as [Hn Hl].
  unfold letters. rewrite Hn. cbn [andb]. eapply forallb_impl; [|exact Hl].
  intros c Hc. unfold is_letter. rewrite Hc. reflexivity.
Qed.
Lemma cap_word_letters : forall w, cap_word w = true -> letters w = true.
Proof.
  intros w H. destruct (cap_word_inv w H) as [u [ls [E [Hu Hl]]]]. subst w.
  unfold letters. cbn [nonempty andb forallb]. unfold is_letter at 1. rewrite Hu. cbn [orb andb].
  eapply forallb_impl; [|exact Hl]. intros c Hc. unfold is_letter. rewrite Hc. apply orb_true_r.
Qed.
Lemma concat_letters : forall ws, ws <> [] -> forallb letters ws = true -> letters (List.concat ws) = true.
Proof.
  induction ws as [|a r IH]; [congruence|]. intros _ H. cbn [forallb] in H.
  apply andb_true_iff in H. destruct H as [Ha Hr]. unfold letters in *.
  apply andb_true_iff in Ha. destruct Ha as [Hn Hl]. cbn [List.concat]. rewrite forallb_app, Hl.
  destruct a; [discriminate|]. cbn [app nonempty andb]. destruct r as [|b r']; [reflexivity|].
  specialize (IH ltac:(congruence) Hr). apply andb_true_iff in IH. tauto.
Qed.
Lemma pascal_letters : forall s, is_pascal s = true -> letters s = true.
Proof.
  intros s H. destruct (is_pascal_humps s H) as [Hh [Hne Hc]]. rewrite <- Hc.
  apply concat_letters; [exact Hne|]. eapply forallb_impl; [|exact Hh].
  intros h Hh'. apply cap_word_letters, hump_cap_word, Hh'.
Qed.

Theorem snake_case_identity : forall s, is_lower_snake s = true -> snake_case s = s.
Proof.
  intros s H. unfold is_lower_snake in H. rewrite <- (join_words s) at 1.
  rewrite snake_case_letters; [|apply words_nonnil|eapply forallb_impl; [|exact H]; apply lower_word_letters].
  rewrite lower_join, map_map.
  rewrite (map_id_forallb (fun w => lower (ins3 w)) lower_word); [apply join_words| |exact H].
  intros w Hw. apply lower_word_all in Hw.
  rewrite (ins3_no_upper w (all_lower_no_upper w Hw)). apply lower_all_lower, Hw.
Qed.

Theorem upper_snake_identity : forall s, is_upper_snake s = true ->
  upper_case s = s /\ upper_case (snake_case s) = s.
Proof.
  intros s H. unfold is_upper_snake in H. unfold upper_case.
  assert (U : upper s = s).
  { rewrite <- (join_words s), upper_join.
    rewrite (map_id_forallb upper upper_word); [reflexivity| |exact H].
    intros w Hw. apply upper_all_upper, upper_word_all, Hw. }
  split; [exact U|].
  rewrite <- (join_words s) at 1.
  rewrite snake_case_letters; [|apply words_nonnil|eapply forallb_impl; [|exact H]; apply upper_word_letters].
  rewrite upper_lower.
  rewrite (map_id_forallb ins3 upper_word); [rewrite join_words; exact U| |exact H].
  intros w Hw. apply ins3_all_upper, upper_word_all, Hw.
Qed.

Lemma snake_case_capwords C : C <> [] -> forallb cap_word C = true -> no_adjacent_singles C = true ->
  snake_case (List.concat C) = join_us (map lower C).
Proof.
  intros NC CW NS. rewrite snake_case_single.
  - rewrite ins3_capwords by assumption. apply lower_join.
  - apply concat_letters; [exact NC|]. eapply forallb_impl; [|exact CW]. apply cap_word_letters.
Qed.

Theorem snake_case_of_pascal : forall s, is_pascal s = true ->
  snake_case s = join_us (map lower (humps s)).
Proof.
  intros s H. destruct (is_pascal_humps s H) as [Hh [Hne Hc]]. rewrite <- Hc at 1.
  apply snake_case_capwords; [exact Hne | | apply humps_no_singles, Hh].
  eapply forallb_impl; [|exact Hh]. apply hump_cap_word.
Qed.

Lemma delim_inner_us : forall l, Str (delim_inner l) = [us].
Proof. intros []; reflexivity. Qed.

Lemma inner_name_eq : forall l p encl n,
  inner_name l p encl n = name_prefix l p ++ join_us (encl ++ [n]).
Proof.
  intros l p [|e encl] n; [reflexivity|]. unfold inner_name. rewrite delim_inner_us. reflexivity.
Qed.

Lemma def_name_eq : forall l k p encl n,
  def_name l k p encl n = apply_styles (case_table l k) (name_prefix l p ++ join_us (encl ++ [n])).
Proof. intros. unfold def_name, format_case_style. rewrite inner_name_eq. reflexivity. Qed.

Lemma name_prefix_c p : name_prefix LC p = p. Proof. reflexivity. Qed.
Lemma name_prefix_go p : name_prefix LGo p = []. Proof. reflexivity. Qed.
Lemma name_prefix_py p : name_prefix LPy p = []. Proof. reflexivity. Qed.

Lemma pascal_part_no_us : forall w, no_us w = true -> no_us (pascal_part w) = true.
Proof.
  intros [|c r] H; [reflexivity|]. cbn [no_us forallb] in H. apply andb_true_iff in H.
  destruct H as [Hc Hr]. apply negb_true_iff in Hc. cbn [pascal_part].
  destruct (nonempty r && py_isupper r); cbn [no_us forallb]; rewrite to_upper_us_iff, Hc; cbn [negb andb].
  - unfold lower. rewrite forallb_map. eapply forallb_impl; [|exact Hr]. intros x Hx. cbn beta in *.
    rewrite to_lower_us_iff. exact Hx.
  - exact Hr.
Qed.

Lemma pascal_case_no_us : forall s, no_us (pascal_case s) = true.
Proof.
  intros s. rewrite pascal_case_words. apply no_us_concat. rewrite forallb_map.
  eapply forallb_impl; [|apply words_pieces_no_us]. intros w Hw. apply pascal_part_no_us, Hw.
Qed.

Lemma pascal_lint_inv : forall w, pascal_case w = w -> no_us w = true /\ pascal_part w = w.
Proof.
  intros w H. assert (N : no_us w = true) by (rewrite <- H; apply pascal_case_no_us).
  split; [exact N|]. rewrite pascal_case_words, (words_no_us w N) in H.
  cbn [map List.concat] in H. rewrite app_nil_r in H. exact H.
Qed.

(* [pascal_case w = w] is what the linter accepts as PascalCase *)
Theorem pascal_case_nested : forall ws, (forall w, In w ws -> pascal_case w = w) ->
  pascal_case (join_us ws) = List.concat ws.
Proof.
  intros ws H. apply pascal_case_concat.
  - apply forallb_forall. intros w Hw. apply (pascal_lint_inv w (H w Hw)).
  - intros w Hw. apply (pascal_lint_inv w (H w Hw)).
Qed.

Theorem pascal_case_prefix : forall q x,
  pascal_case ((q ++ [us]) ++ x) = pascal_case (q ++ [us]) ++ pascal_case x.
Proof.
  intros q x. rewrite <- app_assoc. cbn [app]. rewrite !pascal_case_app_us.
  change (pascal_case []) with (@nil ascii). rewrite app_nil_r. reflexivity.
Qed.

Definition pascal_kind (l : lang) (k : kind) : bool :=
  match case_table l k with [SPascal] => true | _ => false end.
Definition keep_kind (l : lang) (k : kind) : bool :=
  match case_table l k with [SKeep] => true | _ => false end.
Lemma def_name_pascal_kind : forall l k p encl n, pascal_kind l k = true ->
  def_name l k p encl n = pascal_case (name_prefix l p ++ join_us (encl ++ [n])).
Proof.
  intros l k p encl n H. rewrite def_name_eq. unfold pascal_kind in H.
  destruct (case_table l k) as [|[] [|? ?]]; try discriminate. reflexivity.
Qed.
Lemma def_name_keep_kind : forall l k p encl n, keep_kind l k = true ->
  def_name l k p encl n = name_prefix l p ++ join_us (encl ++ [n]).
Proof.
  intros l k p encl n H. rewrite def_name_eq. unfold keep_kind in H.
  destruct (case_table l k) as [|[] [|? ?]]; try discriminate. reflexivity.
Qed.

Lemma is_prefix_name_prefix l p : is_prefix p = true -> is_prefix (name_prefix l p) = true.
Proof. destruct l; [exact (fun H => H) | reflexivity | reflexivity]. Qed.

Lemma prefix_ok_inv : forall ws, prefix_ok ws = true ->
  exists pw, ws = pw ++ [[]] /\ forallb pword pw = true.
Proof.
  induction ws as [|w r IH]; [discriminate|]. intros H. destruct r as [|w2 r'].
  - cbn [prefix_ok] in H. destruct w; [|discriminate]. exists []. split; reflexivity.
  - change (prefix_ok (w :: w2 :: r')) with (pword w && prefix_ok (w2 :: r')) in H.
    apply andb_true_iff in H. destruct H as [Hw Hr]. destruct (IH Hr) as [pw [E F]].
    exists (w :: pw). rewrite E. split; [reflexivity|]. cbn [forallb]. rewrite Hw, F. reflexivity.
Qed.

Lemma nas_app_l : forall a b, no_adjacent_singles (a ++ b) = true -> no_adjacent_singles a = true.
Proof.
  induction a as [|x a IH]; intros b H; [reflexivity|]. destruct a as [|y a']; [reflexivity|].
  change ((x :: y :: a') ++ b) with (x :: y :: (a' ++ b)) in H. rewrite nas_cons2 in *.
  apply andb_true_iff in H. destruct H as [H1 H2]. rewrite H1. cbn [andb].
  apply (IH b). exact H2.
Qed.

Lemma is_prefix_inv : forall p, is_prefix p = true ->
  forallb pword (prefix_words p) = true /\ no_adjacent_singles (prefix_words p) = true /\
  (p = [] /\ prefix_words p = [] \/
   prefix_words p <> [] /\ p = join_us (prefix_words p) ++ [us]).
Proof.
  intros p H. destruct p as [|c r]; [repeat split; left; split; reflexivity|].
  unfold is_prefix in H. apply andb_true_iff in H. destruct H as [H1 H2].
  destruct (prefix_ok_inv _ H1) as [pw [E F]]. unfold prefix_words. rewrite E in *.
  rewrite removelast_last. split; [exact F|]. split; [apply (nas_app_l pw [[]]), H2|]. right.
  assert (P : c :: r = join_us (pw ++ [[]])) by (rewrite <- E; symmetry; apply join_words).
  destruct pw as [|w pw'].
  - cbn in P. discriminate.
  - split; [congruence|]. rewrite P. rewrite join_us_app by congruence. reflexivity.
Qed.

Lemma prefix_join : forall p X, is_prefix p = true -> X <> [] ->
  p ++ join_us X = join_us (prefix_words p ++ X).
Proof.
  intros p X H HX. destruct (is_prefix_inv p H) as [_ [_ [[E1 E2]|[N E]]]].
  - rewrite E2, E1. reflexivity.
  - rewrite E at 1. rewrite <- app_assoc. cbn [app]. symmetry. apply join_us_app; assumption.
Qed.

Lemma join_us_flatten_last : forall a b, b <> [] -> join_us (a ++ [join_us b]) = join_us (a ++ b).
Proof.
  intros a b Hb. destruct a as [|x a']; [reflexivity|].
  rewrite (join_us_app (x :: a') [join_us b]) by congruence.
  rewrite (join_us_app (x :: a') b) by congruence. reflexivity.
Qed.

Lemma words_upper_snake_nonnil s : words s <> []. Proof. apply words_nonnil. Qed.

Lemma pword_cases : forall w, pword w = true ->
  lower_word w = true \/ cap_word w = true \/ upper_word w = true.
Proof.
  intros w H. unfold pword in H. apply orb_true_iff in H. destruct H as [H|H]; [|tauto].
  apply orb_true_iff in H. tauto.
Qed.

Lemma pword_letters : forall w, pword w = true -> letters w = true.
Proof.
  intros w H. destruct (pword_cases w H) as [L|[C|U]];
    [apply lower_word_letters|apply cap_word_letters|apply upper_word_letters]; assumption.
Qed.

Lemma pword_no_us : forall w, pword w = true -> no_us w = true.
Proof. intros w H. apply letters_no_us, pword_letters, H. Qed.

Lemma ins3_pword : forall w, pword w = true -> ins3 w = w.
Proof.
  intros w H. destruct (pword_cases w H) as [L|[C|U]].
  - apply ins3_no_upper, all_lower_no_upper, lower_word_all, L.
  - destruct (cap_word_inv w C) as [u [ls [E [_ Hl]]]]. subst w.
    apply ins3_tail_no_upper, all_lower_no_upper, Hl.
  - apply ins3_all_upper, upper_word_all, U.
Qed.

Lemma map_ins3_tokens : forall pw encl mw,
  forallb pword pw = true -> forallb is_pascal encl = true -> forallb upper_word mw = true ->
  map ins3 (pw ++ encl ++ mw) =
  map join_us (map (fun w => [w]) pw ++ map humps encl ++ map (fun w => [w]) mw).
Proof.
  intros pw encl mw H1 H2 H3. rewrite !map_app, !map_map. f_equal; [|f_equal].
  - eapply map_ext_forallb; [|exact H1]. intros w Hw. cbn [join_us join_with].
    apply ins3_pword, Hw.
  - eapply map_ext_forallb; [|exact H2]. intros w Hw. apply ins3_pascal, Hw.
  - eapply map_ext_forallb; [|exact H3]. intros w Hw. cbn [join_us join_with].
    apply ins3_all_upper, upper_word_all, Hw.
Qed.

Lemma concat_singletons : forall {A} (l : list A), List.concat (map (fun w => [w]) l) = l.
Proof. induction l as [|a r IH]; [reflexivity|]. cbn [map List.concat app]. rewrite IH. reflexivity. Qed.

Lemma tokens_letters : forall pw encl mw,
  forallb pword pw = true -> forallb is_pascal encl = true -> forallb upper_word mw = true ->
  forallb letters (pw ++ encl ++ mw) = true.
Proof.
  intros pw encl mw H1 H2 H3. rewrite !forallb_app.
  rewrite (forallb_impl _ _ _ pword_letters H1), (forallb_impl _ _ _ pascal_letters H2),
    (forallb_impl _ _ _ upper_word_letters H3). reflexivity.
Qed.

(* the humps of the enclosing message names come out as separate words *)
Theorem enum_member_name : forall l p encl m,
  is_prefix p = true -> forallb is_pascal encl = true -> is_upper_snake m = true ->
  def_name l KEnumField p encl m =
  upper (name_prefix l p) ++ join_us (map upper (flat_map humps encl) ++ words m).
Proof.
  intros l p encl m Hp He Hm.
  rewrite def_name_eq. replace (case_table l KEnumField) with [SSnake; SUpper] by (destruct l; reflexivity).
  cbn [apply_styles fold_left convert]. fold (upper (snake_case (name_prefix l p ++ join_us (encl ++ [m])))).
  set (P := name_prefix l p).
  pose proof (is_prefix_name_prefix l p Hp) as HP. fold P in HP.
  clearbody P. clear Hp p.
  unfold is_upper_snake in Hm.
  destruct (is_prefix_inv P HP) as [Hpw [_ _]].
  set (pw := prefix_words P) in *. set (mw := words m) in *.
  assert (Hmw : mw <> []) by apply words_nonnil.
  assert (E1 : P ++ join_us (encl ++ [m]) = join_us (pw ++ encl ++ mw)).
  { rewrite prefix_join by (exact HP || (destruct encl; discriminate)).
    fold pw. rewrite <- (join_words m) at 1. fold mw.
    rewrite (app_assoc pw encl [join_us mw]), join_us_flatten_last by exact Hmw.
    rewrite <- app_assoc. reflexivity. }
  rewrite E1.
  rewrite snake_case_letters;
    [|destruct pw, encl, mw; try discriminate; congruence|apply tokens_letters; assumption].
  rewrite upper_lower, (map_ins3_tokens pw encl mw Hpw He Hm).
  rewrite join_us_concat.
  2:{ rewrite !forallb_app, !forallb_map. repeat (apply andb_true_iff; split).
      - apply forallb_forall. reflexivity.
      - apply forallb_forall. intros e Hin.
        pose proof (proj1 (forallb_forall _ _) He e Hin) as Pe.
        destruct (humps e) eqn:Eh; [|reflexivity].
        exfalso. exact (humps_nonnil e (is_pascal_nonempty e Pe) Eh).
      - apply forallb_forall. reflexivity. }
  rewrite !concat_app, !concat_singletons. rewrite <- flat_map_concat_map.
  assert (X : flat_map humps encl ++ mw <> []) by (destruct (flat_map humps encl), mw; try discriminate; congruence).
  subst pw. rewrite <- (prefix_join P _ HP X), upper_app, upper_join, map_app.
  rewrite (map_id_forallb upper upper_word mw); [reflexivity| |exact Hm].
  intros w Hw. apply upper_all_upper, upper_word_all, Hw.
Qed.

Lemma concat_flat_humps : forall X, List.concat (flat_map humps X) = List.concat X.
Proof.
  induction X as [|x r IH]; [reflexivity|]. cbn [flat_map List.concat].
  rewrite concat_app, concat_humps, IH. reflexivity.
Qed.

Lemma nas_app_nosingle : forall a b, no_adjacent_singles a = true ->
  forallb (fun w => negb (single w)) b = true -> no_adjacent_singles (a ++ b) = true.
Proof.
  induction a as [|x a IH]; intros b Ha Hb; [apply nas_nosingle, Hb|].
  destruct a as [|y a'].
  - destruct b as [|z b']; [reflexivity|]. change ([x] ++ z :: b') with (x :: z :: b').
    rewrite nas_cons2, (nas_nosingle _ Hb). cbn [forallb] in Hb. apply andb_true_iff in Hb.
    destruct Hb as [Hz _]. apply negb_true_iff in Hz. rewrite Hz, andb_false_r. reflexivity.
  - change ((x :: y :: a') ++ b) with (x :: y :: (a' ++ b)). rewrite nas_cons2 in *.
    apply andb_true_iff in Ha. destruct Ha as [H1 H2]. rewrite H1. cbn [andb].
    apply (IH b H2 Hb).
Qed.

Lemma single_cap : forall w, single (cap w) = single w.
Proof. intros [|c [|d r]]; reflexivity. Qed.

Lemma nas_map (f : str -> str) ws : (forall w, single (f w) = single w) ->
  no_adjacent_singles (map f ws) = no_adjacent_singles ws.
Proof.
  intros Hf. induction ws as [|a r IH]; [reflexivity|]. destruct r as [|b r']; [reflexivity|].
  cbn [map] in *. rewrite !nas_cons2, IH, !Hf. reflexivity.
Qed.

Lemma flat_humps_are_humps : forall X, forallb is_pascal X = true ->
  forallb is_hump (flat_map humps X) = true.
Proof.
  induction X as [|x r IH]; [reflexivity|]. intros H. cbn [forallb] in H.
  apply andb_true_iff in H. destruct H as [Hx Hr]. cbn [flat_map]. rewrite forallb_app, (IH Hr).
  destruct (is_pascal_humps x Hx) as [Hh _]. rewrite Hh. reflexivity.
Qed.

Lemma upper_cap : forall w, upper (cap w) = upper w.
Proof.
  intros [|c r]; [reflexivity|]. cbn [cap upper map]. f_equal. apply to_upper_after_upper.
Qed.

Lemma flat_humps_nonnil : forall X, X <> [] -> forallb is_pascal X = true -> flat_map humps X <> [].
Proof.
  intros [|x r] H1 H2; [congruence|]. cbn [forallb] in H2. apply andb_true_iff in H2.
  destruct H2 as [Hx _]. cbn [flat_map]. pose proof (humps_nonnil x (is_pascal_nonempty x Hx)) as N.
  destruct (humps x); [congruence|discriminate].
Qed.

Lemma all_upper_isupper : forall r, nonempty r = true -> forallb is_upper r = true -> py_isupper r = true.
Proof.
  intros [|c r] Hn H; [discriminate|]. unfold py_isupper.
  rewrite (forallb_existsb_false _ _ _ upper_not_lower H). cbn [forallb] in H. apply andb_true_iff in H.
  cbn [existsb]. rewrite (proj1 H). reflexivity.
Qed.

Lemma pascal_part_pword : forall w, pword w = true -> pascal_part w = capw w.
Proof.
  intros w H. destruct (pword_cases w H) as [L|[C|U]].
  - unfold lower_word in L. apply andb_true_iff in L. destruct L as [Hn Hl].
    rewrite (pascal_part_lower_word w Hl). destruct w as [|c r]; [reflexivity|]. cbn [cap capw].
    cbn [forallb] in Hl |- *. apply andb_true_iff in Hl. destruct Hl as [Hc _].
    rewrite (lower_not_upper c Hc). cbn [andb]. rewrite andb_false_r. reflexivity.
  - rewrite (pascal_part_cap_word w C). destruct (cap_word_inv w C) as [u [ls [E [Hu Hl]]]]. subst w.
    cbn [capw]. destruct ls as [|l ls']; [cbn [nonempty andb]; rewrite (to_upper_id u (upper_not_lower u Hu)); reflexivity|].
    cbn [forallb] in Hl |- *. apply andb_true_iff in Hl. destruct Hl as [Hl _].
    rewrite (lower_not_upper l Hl), andb_false_r, andb_false_r.
    rewrite (to_upper_id u (upper_not_lower u Hu)). reflexivity.
  - unfold upper_word in U. apply andb_true_iff in U. destruct U as [Hn Hu].
    destruct w as [|c r]; [discriminate|]. cbn [pascal_part capw]. rewrite Hu, andb_true_r.
    cbn [forallb] in Hu. apply andb_true_iff in Hu. destruct Hu as [Hc Hr].
    destruct r as [|d r']; [cbn [nonempty andb]; reflexivity|].
    rewrite (all_upper_isupper (d :: r') eq_refl Hr). cbn [nonempty andb].
    rewrite (to_upper_id c (upper_not_lower c Hc)). reflexivity.
Qed.

Lemma lower_all_upper_is_lower : forall r, forallb is_upper r = true -> forallb is_lower (lower r) = true.
Proof. intros r. unfold lower. rewrite forallb_map. apply forallb_impl, to_lower_upper_is_lower. Qed.

Lemma capw_is_cap_word : forall w, pword w = true -> cap_word (capw w) = true.
Proof.
  intros w H. rewrite <- (pascal_part_pword w H). destruct (pword_cases w H) as [L|[C|U]].
  - unfold lower_word in L. pose proof L as L'. apply andb_true_iff in L'. destruct L' as [_ Hl].
    rewrite (pascal_part_lower_word w Hl). apply cap_lower_word_is_cap_word, L.
  - rewrite (pascal_part_cap_word w C). exact C.
  - rewrite (pascal_part_pword w H). unfold upper_word in U. apply andb_true_iff in U. destruct U as [Hn Hu].
    destruct w as [|c r]; [discriminate|]. cbn [capw]. rewrite Hu, andb_true_r.
    cbn [forallb] in Hu. apply andb_true_iff in Hu. destruct Hu as [Hc Hr].
    destruct r as [|d r']; [cbn [nonempty cap_word forallb]; rewrite (to_upper_id c (upper_not_lower c Hc)), Hc; reflexivity|].
    cbn [nonempty cap_word]. rewrite Hc. apply lower_all_upper_is_lower, Hr.
Qed.

Lemma single_capw : forall w, single (capw w) = single w.
Proof.
  intros [|c [|d r]]; try reflexivity. cbn [capw]. destruct (nonempty (d :: r) && forallb is_upper (c :: d :: r)); reflexivity.
Qed.

Lemma upper_capw : forall w, upper (capw w) = upper w.
Proof.
  intros [|c r]; [reflexivity|]. cbn [capw]. destruct (nonempty r && forallb is_upper (c :: r)).
  - change (upper (c :: lower r)) with (to_upper c :: upper (lower r)). rewrite upper_lower. reflexivity.
  - cbn [upper map]. f_equal. apply to_upper_after_upper.
Qed.

Lemma lower_word_no_us' : forall w, lower_word w = true -> no_us w = true.
Proof. intros w H. apply lower_word_no_us, lower_word_all, H. Qed.

Lemma message_name_capwords : forall l p encl n,
  pascal_kind l KMessage = true -> is_prefix p = true -> forallb is_pascal (encl ++ [n]) = true ->
  def_name l KMessage p encl n =
  List.concat (map capw (prefix_words (name_prefix l p)) ++ flat_map humps (encl ++ [n])).
Proof.
  intros l p encl n Hk Hp HX. rewrite def_name_pascal_kind by exact Hk.
  set (P := name_prefix l p).
  pose proof (is_prefix_name_prefix l p Hp) as HP. fold P in HP.
  destruct (is_prefix_inv P HP) as [Hpw [_ _]].
  rewrite prefix_join by (exact HP || (destruct encl; discriminate)).
  rewrite pascal_case_join.
  2:{ rewrite forallb_app. rewrite (forallb_impl _ _ _ pword_no_us Hpw).
      rewrite (forallb_impl _ _ _ pascal_no_us HX). reflexivity. }
  rewrite map_app, !concat_app, concat_flat_humps. f_equal.
  - f_equal. eapply map_ext_forallb; [|exact Hpw]. intros w Hw. apply pascal_part_pword, Hw.
  - f_equal. eapply map_id_forallb; [|exact HX]. apply pascal_part_pascal.
Qed.

Theorem size_const_name : forall l p encl n,
  pascal_kind l KMessage = true -> lang_eqb l LPy = false ->
  is_prefix p = true -> forallb is_pascal (encl ++ [n]) = true ->
  size_const l (def_name l KMessage p encl n) =
  Str size_const_prefix ++ upper (name_prefix l p) ++
  join_us (map upper (flat_map humps (encl ++ [n]))).
Proof.
  intros l p encl n Hk Hl Hp HX. rewrite (message_name_capwords l p encl n Hk Hp HX).
  set (P := name_prefix l p).
  pose proof (is_prefix_name_prefix l p Hp) as HP. fold P in HP.
  destruct (is_prefix_inv P HP) as [Hpw [Hnas _]].
  set (pw := prefix_words P) in *. set (Y := flat_map humps (encl ++ [n])).
  assert (HY : forallb is_hump Y = true) by (apply flat_humps_are_humps, HX).
  assert (NY : Y <> []) by (apply flat_humps_nonnil; [destruct encl; discriminate|exact HX]).
  set (C := map capw pw ++ Y).
  assert (SC : size_const l (List.concat C) = Str size_const_prefix ++ upper (snake_case (List.concat C)))
    by (destruct l; [reflexivity|reflexivity|discriminate]).
  rewrite SC. f_equal.
  assert (CW : forallb cap_word C = true).
  { unfold C. rewrite forallb_app, forallb_map.
    rewrite (forallb_impl _ _ _ capw_is_cap_word Hpw).
    rewrite (forallb_impl _ _ _ hump_cap_word HY). reflexivity. }
  assert (NC : C <> []) by (unfold C; destruct (map capw pw), Y; try discriminate; congruence).
  rewrite snake_case_capwords; [|exact NC|exact CW|].
  2:{ unfold C. apply nas_app_nosingle; [rewrite (nas_map capw _ single_capw); exact Hnas|].
      eapply forallb_impl; [|exact HY]. apply hump_not_single. }
  rewrite <- lower_join, upper_lower, upper_join. unfold C. rewrite map_app, map_map.
  rewrite (map_ext _ upper upper_capw pw).
  rewrite <- map_app, <- upper_join. subst pw.
  rewrite <- (prefix_join P Y HP NY), upper_app, upper_join. reflexivity.
Qed.

Lemma lower_cap_lower_word : forall w, lower_word w = true -> lower (cap w) = w.
Proof.
  intros [|c r] H; [reflexivity|]. unfold lower_word in H. cbn [nonempty andb forallb] in H.
  apply andb_true_iff in H. destruct H as [Hc Hr]. cbn [cap lower map]. fold (lower r).
  rewrite (to_lower_to_upper_eq c Hc), (lower_all_lower r Hr). reflexivity.
Qed.

Theorem go_field_and_tag : forall n, go_tag_ok n = true ->
  field_name LGo n = List.concat (map cap (words n)) /\ go_tag (field_name LGo n) = n.
Proof.
  intros n H. unfold go_tag_ok in H. apply andb_true_iff in H. destruct H as [Hs Hnas].
  unfold is_lower_snake in Hs.
  assert (F : field_name LGo n = List.concat (map cap (words n))).
  { change (field_name LGo n) with (pascal_case n). rewrite pascal_case_words. f_equal.
    eapply map_ext_forallb; [|exact Hs]. intros w Hw. apply pascal_part_lower_word, lower_word_all, Hw. }
  split; [exact F|]. rewrite F. change (go_tag ?x) with (snake_case x).
  rewrite snake_case_capwords.
  - rewrite map_map, (map_id_forallb (fun w => lower (cap w)) lower_word _ lower_cap_lower_word Hs). apply join_words.
  - pose proof (words_nonnil n). destruct (words n); [congruence | discriminate].
  - rewrite forallb_map. eapply forallb_impl; [|exact Hs]. apply cap_lower_word_is_cap_word.
  - rewrite (nas_map cap _ single_cap). exact Hnas.
Qed.

Definition style_ok (k : kind) (n : str) : bool :=
  match k with
  | KConstant | KEnumField => is_upper_snake n
  | KAlias | KEnum | KMessage => is_pascal n
  | KMessageField => is_lower_snake n
  end.

Theorem top_level_identity : forall l k n, style_ok k n = true ->
  def_name l k [] [] n = match l, k with LGo, KMessageField => pascal_case n | _, _ => n end.
Proof.
  intros l k n H. rewrite def_name_eq.
  replace (name_prefix l [] ++ join_us ([] ++ [n])) with n by (destruct l; reflexivity).
  destruct k; cbn [style_ok] in H; destruct l; cbn [case_table apply_styles fold_left convert keep_case];
    try reflexivity; try (apply pascal_case_identity, H); apply (upper_snake_identity n H).
Qed.

Theorem nested_names : forall p encl n,
  (forall w, In w (encl ++ [n]) -> pascal_case w = w) ->
  (* C: struct / typedef names are the concatenation *)
  (forall k, pascal_kind LC k = true -> def_name LC k [] encl n = List.concat (encl ++ [n])) /\
  (* Go: messages and aliases concatenate, enums keep the "_" *)
  (forall k, pascal_kind LGo k = true -> def_name LGo k p encl n = List.concat (encl ++ [n])) /\
  def_name LGo KEnum p encl n = join_us (encl ++ [n]) /\
  (* Python: joined with "_" *)
  (forall k, keep_kind LPy k = true -> def_name LPy k p encl n = join_us (encl ++ [n])).
Proof.
  intros p encl n H. split; [|split; [|split]].
  - intros k Hk. rewrite def_name_pascal_kind by exact Hk. apply pascal_case_nested, H.
  - intros k Hk. rewrite def_name_pascal_kind by exact Hk. apply pascal_case_nested, H.
  - rewrite def_name_keep_kind by reflexivity. reflexivity.
  - intros k Hk. rewrite def_name_keep_kind by exact Hk. reflexivity.
Qed.

Theorem prefix_on_types : forall k q encl n, pascal_kind LC k = true ->
  def_name LC k (q ++ [us]) encl n = pascal_case (q ++ [us]) ++ def_name LC k [] encl n.
Proof.
  intros k q encl n Hk. rewrite !def_name_pascal_kind by exact Hk. rewrite !name_prefix_c.
  apply pascal_case_prefix.
Qed.

Theorem prefix_on_constants : forall p encl n,
  def_name LC KConstant p encl n = upper p ++ def_name LC KConstant [] encl n.
Proof.
  intros p encl n. rewrite !def_name_eq. apply upper_app.
Qed.

Theorem prefix_on_enum_members : forall p encl m,
  is_prefix p = true -> forallb is_pascal encl = true -> is_upper_snake m = true ->
  def_name LC KEnumField p encl m = upper p ++ def_name LC KEnumField [] encl m.
Proof.
  intros p encl m Hp He Hm. rewrite (enum_member_name LC p encl m Hp He Hm).
  rewrite (enum_member_name LC [] encl m eq_refl He Hm). reflexivity.
Qed.

Theorem prefix_on_size_const : forall p encl n,
  is_prefix p = true -> forallb is_pascal (encl ++ [n]) = true ->
  size_const LC (def_name LC KMessage p encl n) =
  Str size_const_prefix ++ upper p ++
  skipn (List.length (Str size_const_prefix)) (size_const LC (def_name LC KMessage [] encl n)).
Proof.
  intros p encl n Hp HX.
  rewrite (size_const_name LC p encl n eq_refl eq_refl Hp HX).
  rewrite (size_const_name LC [] encl n eq_refl eq_refl eq_refl HX).
  rewrite name_prefix_c. change (upper (name_prefix LC [])) with (@nil ascii). cbn [app].
  now rewrite skipn_app_l.
Qed.

Theorem prefix_ignored_elsewhere : forall l k p encl n, lang_eqb l LC = false ->
  def_name l k p encl n = def_name l k [] encl n.
Proof. intros [] k p encl n H; try discriminate; rewrite !def_name_eq; reflexivity. Qed.

Lemma last_dot_cut_none : forall x, existsb is_dot x = false -> last_dot_cut x = None.
Proof.
  induction x as [|c r IH]; [reflexivity|]. cbn [existsb]. intros H. apply orb_false_iff in H.
  destruct H as [Hc Hr]. cbn [last_dot_cut]. rewrite (IH Hr), Hc. reflexivity.
Qed.

Lemma last_dot_cut_app : forall b d x, is_dot d = true -> existsb is_dot x = false ->
  last_dot_cut (b ++ d :: x) = Some (b, d :: x).
Proof.
  induction b as [|c b IH]; intros d x Hd Hx.
  - cbn [app last_dot_cut]. rewrite (last_dot_cut_none x Hx), Hd. reflexivity.
  - cbn [app last_dot_cut]. rewrite (IH d x Hd Hx). reflexivity.
Qed.

Theorem out_filename_of_bitproto_file : forall base ext,
  forallb is_dot base = false ->
  out_filename (base ++ Str ".bitproto") ext = base ++ Str "_bp" ++ Str ext.
Proof.
  intros base ext H. unfold out_filename, splitext_root.
  change (Str ".bitproto") with (chr 46 :: Str "bitproto").
  rewrite last_dot_cut_app by reflexivity. rewrite H. reflexivity.
Qed.

(* Go and Python output does not depend on option c.name_prefix at all: they name no prefix
   option, [name_prefix l _] computes to "", and the two namers are convertible *)
Theorem proto_idents_prefix_irrelevant : forall l opt p q ds, lang_eqb l LC = false ->
  proto_idents l opt {| p_prefix := p; p_decls := ds |} =
  proto_idents l opt {| p_prefix := q; p_decls := ds |}.
Proof. intros [] opt p q ds Hl; [discriminate Hl | reflexivity | reflexivity]. Qed.

Definition is_field_ident (i : ident) : bool := match fst i with IField _ => true | _ => false end.
Definition field_names_of (ids : list ident) : list str := map snd (filter is_field_ident ids).

Lemma field_names_of_app a b : field_names_of (a ++ b) = field_names_of a ++ field_names_of b.
Proof. unfold field_names_of. rewrite filter_app, map_app. reflexivity. Qed.

Lemma field_names_of_none : forall ids, forallb (fun i => negb (is_field_ident i)) ids = true ->
  field_names_of ids = [].
Proof. intros ids H. unfold field_names_of. rewrite (filter_none _ _ H). reflexivity. Qed.

Lemma field_names_of_fields : forall l N owner fields,
  field_names_of (flat_map (field_idents l N owner) fields) = map (fun f => nm_field N (f_name f)) fields.
Proof.
  intros l N owner. induction fields as [|f r IH]; [reflexivity|]. cbn [flat_map map].
  rewrite field_names_of_app, IH. f_equal. unfold field_idents.
  rewrite !field_names_of_app. cbn [field_names_of filter map is_field_ident fst snd app].
  rewrite (field_names_of_none (match nm_tref N (f_type f) with Some t => _ | None => [] end))
    by (destruct (nm_tref N (f_type f)); reflexivity).
  rewrite (field_names_of_none (match l with LGo => _ | _ => [] end)) by (destruct l; reflexivity).
  reflexivity.
Qed.

Lemma field_names_message : forall l opt N n fields,
  field_names_of (message_idents l opt N n fields) = map (fun f => nm_field N (f_name f)) fields.
Proof.
  intros l opt N n fields. unfold message_idents. rewrite field_names_of_app, field_names_of_fields.
  rewrite field_names_of_none; [reflexivity|].
  destruct l; [|reflexivity|
    rewrite forallb_app, forallb_map; apply andb_true_iff; split;
    [reflexivity|apply forallb_forall; reflexivity]]. rewrite forallb_app. cbn [forallb is_field_ident fst negb andb].
  destruct opt; [reflexivity|]. rewrite forallb_app. cbn [forallb is_field_ident fst negb andb].
  rewrite forallb_flat_map. apply forallb_forall. intros f _. destruct (is_array (f_type f)); reflexivity.
Qed.

Lemma fn_const : forall l opt N encl n, field_names_of (decl_idents l opt N encl (DConst n)) = [].
Proof. intros [] opt N encl n; reflexivity. Qed.

Lemma fn_alias : forall l opt N encl n t, field_names_of (decl_idents l opt N encl (DAlias n t)) = [].
Proof.
  intros l opt N encl n t. cbn [decl_idents]. apply field_names_of_none. rewrite forallb_app.
  apply andb_true_iff. split; [|destruct (nm_tref N t); reflexivity].
  destruct l; [|reflexivity|reflexivity]. destruct opt; [reflexivity|]. destruct (is_array t); reflexivity.
Qed.

Lemma fn_enum : forall l opt N encl n ms, field_names_of (decl_idents l opt N encl (DEnum n ms)) = [].
Proof.
  intros l opt N encl n ms. cbn [decl_idents]. apply field_names_of_none. rewrite forallb_app.
  apply andb_true_iff. split; [destruct l; reflexivity|].
  rewrite forallb_flat_map. apply forallb_forall. intros m _. destruct l; reflexivity.
Qed.

Fixpoint decl_fields (d : decl) : list str :=
  match d with
  | DMessage _ nested fields => flat_map decl_fields nested ++ map f_name fields
  | _ => []
  end.

Lemma decl_field_names : forall l opt N d encl,
  field_names_of (decl_idents l opt N encl d) = map (nm_field N) (decl_fields d).
Proof.
  intros l opt N. fix IH 1. intros [n|n t|n ms|n nested fields] encl.
  - apply fn_const.
  - apply fn_alias.
  - apply fn_enum.
  - cbn [decl_idents decl_fields]. rewrite field_names_of_app, field_names_message, map_app, map_map.
    f_equal. induction nested as [|d ds IHds]; [reflexivity|]. cbn [flat_map].
    rewrite field_names_of_app, map_app, (IH d (encl ++ [n])), IHds. reflexivity.
Qed.

Lemma proto_field_names : forall l opt p,
  field_names_of (proto_idents l opt p) = map (field_name l) (flat_map decl_fields (p_decls p)).
Proof.
  intros l opt p. unfold proto_idents. induction (p_decls p) as [|d r IH]; [reflexivity|].
  cbn [flat_map]. rewrite field_names_of_app, map_app, IH, decl_field_names. reflexivity.
Qed.

Theorem proto_field_names_prefix_irrelevant : forall l opt p q ds,
  field_names_of (proto_idents l opt {| p_prefix := p; p_decls := ds |}) =
  field_names_of (proto_idents l opt {| p_prefix := q; p_decls := ds |}).
Proof.
  intros l opt p q ds. rewrite !proto_field_names. reflexivity.
Qed.

Theorem api_names : forall n,
  c_encode_fn n = Str "Encode" ++ n /\ c_decode_fn n = Str "Decode" ++ n /\
  c_json_fn n = Str "Json" ++ n /\
  size_const LC n = Str "BYTES_LENGTH_" ++ upper_case (snake_case n) /\
  size_const LGo n = Str "BYTES_LENGTH_" ++ upper_case (snake_case n) /\
  (Str go_encode_method, Str go_decode_method, Str go_size_method) = (Str "Encode", Str "Decode", Str "Size") /\
  size_const LPy n = Str "BYTES_LENGTH" /\
  (Str py_encode_method, Str py_decode_method, Str py_to_json_method, Str py_to_dict_method) =
  (Str "encode", Str "decode", Str "to_json", Str "to_dict").
Proof. intros n. repeat split. Qed.

Theorem api_names_declared : forall p n fields,
  (forall opt, In (IFunc, Str "Encode" ++ n) (message_idents LC opt (model_namer LC p) n fields) /\
               In (IFunc, Str "Decode" ++ n) (message_idents LC opt (model_namer LC p) n fields) /\
               In (IMacro, size_const LC n) (message_idents LC opt (model_namer LC p) n fields) /\
               In (IStruct, n) (message_idents LC opt (model_namer LC p) n fields)) /\
  In (IFunc, Str "Json" ++ n) (message_idents LC false (model_namer LC p) n fields) /\
  (forall opt, In (IMethod n, Str "Encode") (message_idents LGo opt (model_namer LGo p) n fields) /\
               In (IMethod n, Str "Decode") (message_idents LGo opt (model_namer LGo p) n fields) /\
               In (IMethod n, Str "Size") (message_idents LGo opt (model_namer LGo p) n fields) /\
               In (IConst, size_const LGo n) (message_idents LGo opt (model_namer LGo p) n fields) /\
               In (IType, n) (message_idents LGo opt (model_namer LGo p) n fields)) /\
  (forall opt, In (IMethod n, Str "encode") (message_idents LPy opt (model_namer LPy p) n fields) /\
               In (IMethod n, Str "decode") (message_idents LPy opt (model_namer LPy p) n fields) /\
               In (IMethod n, Str "to_json") (message_idents LPy opt (model_namer LPy p) n fields) /\
               In (IMethod n, Str "to_dict") (message_idents LPy opt (model_namer LPy p) n fields) /\
               In (IAttr n, Str "BYTES_LENGTH") (message_idents LPy opt (model_namer LPy p) n fields) /\
               In (IClass, n) (message_idents LPy opt (model_namer LPy p) n fields)).
Proof.
  intros p n fields. unfold message_idents.
  cbn [nm_size nm_encode nm_decode nm_json nm_menc nm_mdec nm_msize nm_mextra model_namer map].
  split; [|split; [|split]].
  - intros opt. repeat split; apply in_or_app; left; apply in_or_app; left; cbn [In]; tauto.
  - apply in_or_app; left; apply in_or_app; right. cbn [app In]. tauto.
  - intros opt. repeat split; apply in_or_app; left; cbn [In]; tauto.
  - intros opt. repeat split; apply in_or_app; left; cbn [In app]; tauto.
Qed.

Theorem out_file_constants :
  (out_suffix, ext_c_h, ext_c_c, ext_go, ext_py) = ("_bp", ".h", ".c", ".go", ".py")%string.
Proof. reflexivity. Qed.

(* a definition imported from another proto is qualified by the import name in Go and
   Python when it is a top-level definition of that proto, never in C *)
Theorem cross_proto_reference : forall l k p encl n alias,
  ref_name l k p encl n true (Some alias) =
  (if supports_import l then alias ++ Str "." ++ def_name l k p encl n else def_name l k p encl n) /\
  ref_name l k p encl n false (Some alias) = def_name l k p encl n /\
  (forall b, ref_name l k p encl n b None = def_name l k p encl n) /\
  (supports_import LC, supports_import LGo, supports_import LPy) = (false, true, true).
Proof.
  intros l k p encl n alias. unfold ref_name. repeat split; destruct l; reflexivity.
Qed.

Lemma name_by_member_key : forall members k id,
  In (k, id) members -> NoDup (map snd members) -> name_by_member members id = Some k.
Proof.
  induction members as [|[k' i'] r IH]; intros k id Hin Hnd; [destruct Hin|].
  cbn [name_by_member]. cbn [map snd] in Hnd. inversion Hnd as [|x l Hni Hnd']; subst.
  destruct (i' =? id)%N eqn:E.
  - apply N.eqb_eq in E. subst i'. destruct Hin as [Hin|Hin]; [congruence|].
    exfalso. apply Hni. change id with (snd (k, id)). apply in_map, Hin.
  - destruct Hin as [Hin|Hin]; [inversion Hin; subst; rewrite N.eqb_refl in E; discriminate|].
    apply IH; assumption.
Qed.

(* a member object registered under key k is referred to as k — whatever its own name is, and
   whatever other keys the scope has (one of them may well BE that own name) *)
Theorem definition_name_is_key : forall members k id own,
  In (k, id) members -> NoDup (map snd members) -> definition_name members id own = k.
Proof.
  intros members k id own Hin Hnd. unfold definition_name.
  rewrite (name_by_member_key members k id Hin Hnd). reflexivity.
Qed.
