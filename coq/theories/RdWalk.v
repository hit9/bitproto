(* RdWalk.v — ONE walk over the type tree for every runtime whose decoder has the shape of
   bitproto's processors: alias = its target; array = optional 16-bit prefix, element loop, skip;
   message = accessor, optional prefix, field loop, store back, skip.  A runtime supplies its
   decoder D (as a function of the type), the three node equations, what its prefix reader, its
   two skips and its accessor pair do, where its tables address a field, and its leaves; the
   theorem says that D computes the reader RdSpec.rd on every buffer that is long enough. *)
From Coq Require Import ZArith List Bool Lia.
From BP Require Import Bits Schema SchemaFacts PyRt PyEncProofs PyDecStep PyDecProofs RdSpec.
Import ListNotations.
Open Scope Z_scope.

(* what a decoder starts from: every leaf 0 / false *)
Fixpoint zero (t : ty) : val :=
  match t with
  | TBool => VB false
  | TByte | TUint _ | TInt _ | TEnum _ _ => VZ 0
  | TAlias t' => zero t'
  | TArr _ cap e => VL (repeat (zero e) cap)
  | TMsg _ fs =>
      VM ((fix go (l : list (Z * ty)) : list (Z * val) :=
             match l with
             | [] => []
             | kf :: r => (fst kf, zero (snd kf)) :: go r
             end) fs)
  end.

Definition zero_val_fields :=
  fix go (l : list (Z * ty)) : list (Z * val) :=
    match l with
    | [] => []
    | kf :: r => (fst kf, zero (snd kf)) :: go r
    end.

Lemma zero_msg x fs : zero (TMsg x fs) = VM (zero_val_fields fs).
Proof. reflexivity. Qed.

(* the decoder owns cap slots, all holding d; the element decoder De turns a slot into what the
   reader finds, as long as the reader stays below bit [bound].  Nothing here depends on the runtime. *)
Section ArrLoopRd.
  Variable De : list nat -> val -> ctx -> res (val * ctx).
  Variables (fn : Z) (stk : list nat) (s : list Z) (d : val) (e : ty) (bound : Z).
  Hypothesis Hwe : wf e = true.
  Hypothesis HDe : forall k vs a i,
    lookup fn vs = Some a -> index_val a (stk ++ [k]) = Ok d ->
    0 <= i -> snd (rd e s i) <= bound ->
    De (stk ++ [k]) (VM vs) {| cs := s; ci := i |} =
    Ok (VM (set_field fn (set_idx a (stk ++ [k]) (fst (rd e s i))) vs), {| cs := s; ci := snd (rd e s i) |}).
  Variables (vs : list (Z * val)) (a : val) (cap : nat).
  Hypothesis Hl : lookup fn vs = Some a.
  Hypothesis Hi : index_val a stk = Ok (VL (repeat d cap)).

  Lemma arr_loop_rd_from : forall m done i,
    (length done + m = cap)%nat -> 0 <= i -> snd (rd_elems e s m i) <= bound ->
    arr_loop De stk m (length done)
      (VM (set_field fn (set_idx a stk (VL (done ++ repeat d m))) vs)) {| cs := s; ci := i |} =
    Ok (VM (set_field fn (set_idx a stk (VL (done ++ fst (rd_elems e s m i)))) vs),
        {| cs := s; ci := snd (rd_elems e s m i) |}).
  Proof.
    induction m as [|m IHm]; intros done i Hkm Hi' Hlim; cbn [arr_loop rd_elems fst snd] in *.
    - reflexivity.
    - set (ak := set_idx a stk (VL (done ++ repeat d (S m)))).
      assert (Hik : index_val ak (stk ++ [length done]) = Ok d).
      { rewrite index_val_app. unfold ak. rewrite (index_set_idx _ _ _ _ Hi). cbn [bind index_val].
        now rewrite nth_error_app_repeat. }
      pose proof (rd_mono e s i Hwe) as M1.
      pose proof (rd_elems_mono e s m (snd (rd e s i)) Hwe) as M2.
      rewrite (HDe _ (set_field fn ak vs) ak i (lookup_set_field_same _ _ _ _ Hl) Hik Hi' ltac:(lia)).
      cbn [bind fst snd]. rewrite set_field_twice. unfold ak.
      rewrite (set_idx_snoc a stk _ _ _ _ Hi) by (rewrite app_length, repeat_length; lia).
      rewrite upd_app_repeat.
      specialize (IHm (done ++ [fst (rd e s i)]) (snd (rd e s i))).
      rewrite app_length, Nat.add_1_r in IHm.
      rewrite IHm by lia. now rewrite <- app_assoc.
  Qed.

  Lemma arr_loop_rd i :
    0 <= i -> snd (rd_elems e s cap i) <= bound ->
    arr_loop De stk cap 0 (VM vs) {| cs := s; ci := i |} =
    Ok (VM (set_field fn (set_idx a stk (VL (fst (rd_elems e s cap i)))) vs),
        {| cs := s; ci := snd (rd_elems e s cap i) |}).
  Proof.
    intros Hi' Hlim. pose proof (arr_loop_rd_from cap [] i eq_refl Hi' Hlim) as H.
    cbn [app length] in H. now rewrite (set_idx_id _ _ _ Hi), (set_field_id _ _ _ Hl) in H.
  Qed.
End ArrLoopRd.

Definition dec_fields {C} (D : ty -> C -> val -> Z -> list nat -> ctx -> res (val * ctx)) (c' : C) :=
  fix go (l : list (Z * ty)) (a : val) (x : ctx) : res (val * ctx) :=
    match l with
    | [] => Ok (a, x)
    | kf :: r => r1 <- D (snd kf) c' a (fst kf) [] x ;; go r (fst r1) (snd r1)
    end.

(* What an instance supplies (the two there are: PyEvolve.py_rd, GoDecProofs.go_rd).
   C, clsof   the runtime's accessor tables, and the tables generated for a message with fields fs;
              the bool is the message's extensible flag (Go's size constant counts the prefix,
              Python's cls_of ignores it).
   D          the runtime's decoder at its processor of t, as a function of the TYPE, writing into
              field number fn >= 1 of the accumulator below the array indices stk.
   Dtop       the outermost call: no data indexer, the accumulator is the message itself.
   D_alias, D_arr, D_msg, Dtop_msg: the node equations, by unfolding.  The field loop in them is
              [dec_fields D]: a runtime's own inner fix runs over its processor list, and the
              instance first proves it equal to [dec_fields D] (p_dec_fields_eq, go_dec_fields_eq).
   ahead, skipA, skipM, geta, puta: the prefix reader, the skips after an array and after a message
              (arguments: cursor before the prefix, prefix value, capacity) and the accessor pair;
              ahead_ok .. acc_ok say what each has to do.
   addr       what the tables have to hold for the part of field fn that has type t and lies below
              d array layers (PyDecProofs.dreach, GoDecProofs.gdreach); addr_field: clsof does.
   ok         the schemas the instance covers: it implies wf and passes to the parts of a type
              (Python: wf; Go: wf and GoRt.shape_ok).
   lim        the buffers it covers (Python: all; Go: GoHelpers.go_lim, below 2^36 bytes).
   leaf_ok    walk_ok at the five leaf types.
   The value decoded into is [zero t] (walk_ok, top_ok); an instance whose runtime starts from
   another default relates the two first (py_default_zero, under dec_guard; go_default_zero). *)
Section Walk.
  Variable C : Type.
  Variable D : ty -> C -> val -> Z -> list nat -> ctx -> res (val * ctx).
  Variable Dtop : ty -> val -> ctx -> res (val * ctx).
  Variable clsof : bool -> list (Z * ty) -> C.
  Variables (geta : C -> val -> Z -> list nat -> res val)
            (puta : C -> val -> Z -> list nat -> val -> res val)
            (ahead : ctx -> res (Z * ctx))
            (skipA : Z -> Z -> Z -> ctx -> ctx) (skipM : Z -> Z -> ctx -> ctx).
  Variable addr : ty -> C -> Z -> nat -> Prop.
  Variable ok : ty -> Prop.
  Variable lim : list Z -> Prop.

  Hypothesis D_alias : forall t c acc fn stk x, D (TAlias t) c acc fn stk x = D t c acc fn stk x.
  Hypothesis D_arr : forall x cap e c acc fn stk x0,
    D (TArr x cap e) c acc fn stk x0 =
    (r0 <- (if x then ahead x0 else Ok (0, x0)) ;;
     r <- arr_loop (fun st acc x => D e c acc fn st x) stk cap O acc (snd r0) ;;
     Ok (fst r, if x then skipA (ci x0) (fst r0) (Z.of_nat cap) (snd r) else snd r)).
  Hypothesis D_msg : forall x fs c acc fn stk x0, 1 <= fn ->
    D (TMsg x fs) c acc fn stk x0 =
    (child <- geta c acc fn stk ;;
     r0 <- (if x then ahead x0 else Ok (0, x0)) ;;
     r <- dec_fields D (clsof x fs) fs child (snd r0) ;;
     acc' <- puta c acc fn stk (fst r) ;;
     Ok (acc', if x then skipM (ci x0) (fst r0) (snd r) else snd r)).

  Hypothesis Dtop_msg : forall x fs acc x0,
    Dtop (TMsg x fs) acc x0 =
    (r0 <- (if x then ahead x0 else Ok (0, x0)) ;;
     r <- dec_fields D (clsof x fs) fs acc (snd r0) ;;
     Ok (fst r, if x then skipM (ci x0) (fst r0) (snd r) else snd r)).

  Hypothesis ahead_ok : forall s i,
    bytes_ok s -> lim s -> 0 <= i -> i + 16 <= 8 * Z.of_nat (length s) ->
    ahead {| cs := s; ci := i |} = Ok (slice s i 16, {| cs := s; ci := i + 16 |}).
  Hypothesis skipA_ok : forall s i0 cap j,
    lim s -> 0 <= i0 -> i0 + 16 <= j <= 8 * Z.of_nat (length s) -> 0 < cap < 65536 ->
    skipA i0 (slice s i0 16) cap {| cs := s; ci := j |} =
    {| cs := s; ci := Z.max j (i0 + 16 + slice s i0 16 * ((j - i0 - 16) / cap)) |}.
  Hypothesis skipM_ok : forall s i0 j,
    lim s -> 0 <= i0 -> i0 + 16 <= j <= 8 * Z.of_nat (length s) ->
    skipM i0 (slice s i0 16) {| cs := s; ci := j |} = {| cs := s; ci := Z.max j (i0 + slice s i0 16) |}.
  Hypothesis acc_ok : forall x fs c fn stk vs a cur,
    addr (TMsg x fs) c fn (length stk) -> lookup fn vs = Some a -> index_val a stk = Ok cur ->
    geta c (VM vs) fn stk = Ok cur /\
    forall child, puta c (VM vs) fn stk child = Ok (VM (set_field fn (set_idx a stk child) vs)).

  Hypothesis addr_alias : forall t c fn d, addr (TAlias t) c fn d -> addr t c fn d.
  Hypothesis addr_arr : forall x cap e c fn d, addr (TArr x cap e) c fn d -> addr e c fn (S d).
  Hypothesis addr_field : forall x fs k ft,
    ok (TMsg x fs) -> In (k, ft) fs -> addr ft (clsof x fs) k 0%nat.
  Hypothesis ok_wf : forall t, ok t -> wf t = true.
  Hypothesis ok_alias : forall t, ok (TAlias t) -> ok t.
  Hypothesis ok_arr : forall x cap e, ok (TArr x cap e) -> ok e.
  Hypothesis ok_field : forall x fs kf, ok (TMsg x fs) -> In kf fs -> ok (snd kf).

  Definition walk_ok (t : ty) : Prop :=
    forall c vs fn stk a s i0,
      ok t -> addr t c fn (length stk) -> 1 <= fn ->
      lookup fn vs = Some a -> index_val a stk = Ok (zero t) ->
      bytes_ok s -> lim s -> 0 <= i0 -> snd (rd t s i0) <= 8 * Z.of_nat (length s) ->
      D t c (VM vs) fn stk {| cs := s; ci := i0 |} =
      Ok (VM (set_field fn (set_idx a stk (fst (rd t s i0))) vs), {| cs := s; ci := snd (rd t s i0) |}).

  Hypothesis leaf_ok : forall t, is_leaf t = true -> walk_ok t.

  Lemma ahead_opt (x : bool) s i0 :
    bytes_ok s -> lim s -> 0 <= i0 -> i0 + ext_bits x <= 8 * Z.of_nat (length s) ->
    (if x then ahead {| cs := s; ci := i0 |} else Ok (0, {| cs := s; ci := i0 |})) =
    Ok (if x then slice s i0 16 else 0, {| cs := s; ci := i0 + ext_bits x |}).
  Proof.
    intros Hs Hlim Hi0 Hlen. destruct x; cbn [ext_bits] in *; [now apply ahead_ok|now rewrite Z.add_0_r].
  Qed.

  (* the field loop of a message whose fields' decoders are right; donev: what the fields before
     rest have been decoded to *)
  Lemma dec_fields_rd x fs s :
    ok (TMsg x fs) -> Forall (fun kf => walk_ok (snd kf)) fs -> bytes_ok s -> lim s ->
    forall rest donef donev i,
      fs = donef ++ rest -> map fst donev = map fst donef -> 0 <= i ->
      snd (rd_fields s rest i) <= 8 * Z.of_nat (length s) ->
      dec_fields D (clsof x fs) rest (VM (donev ++ zero_val_fields rest)) {| cs := s; ci := i |} =
      Ok (VM (donev ++ fst (rd_fields s rest i)), {| cs := s; ci := snd (rd_fields s rest i) |}).
  Proof.
    intros Hok IH Hs Hlim. pose proof (ok_wf _ Hok) as Hw.
    pose proof (wf_msg_fields x fs Hw) as Hwf.
    rewrite wf_msg in Hw. rewrite !andb_true_iff in Hw. destruct Hw as [[Hd _] Hfw].
    induction rest as [|kf rest' IHr]; intros donef donev i Hfs Hkeys Hi' Hlen'.
    - reflexivity.
    - cbn [dec_fields zero_val_fields rd_fields fst snd] in *.
      assert (Hin : In kf fs) by (rewrite Hfs; apply in_or_app; right; now left).
      pose proof (proj1 (Forall_forall _ _) IH kf Hin) as Hk.
      pose proof (proj1 (Forall_forall _ _) Hwf kf Hin) as [Hk1 Hwk].
      assert (Hwr : fields_wf rest' = true).
      { clear - Hfw Hfs. subst fs. induction donef as [|h r IHd]; cbn [app fields_wf] in Hfw;
          rewrite !andb_true_iff in Hfw; [tauto|apply IHd; tauto]. }
      assert (Hnotin : ~ In (fst kf) (map fst donev)).
      { rewrite Hkeys. rewrite Hfs, map_app in Hd. exact (keys_distinct_app_notin _ _ _ Hd). }
      pose proof (rd_mono (snd kf) s i Hwk) as M1.
      pose proof (rd_fields_mono s rest' (snd (rd (snd kf) s i)) Hwr) as M2.
      rewrite (Hk (clsof x fs) (donev ++ (fst kf, zero (snd kf)) :: zero_val_fields rest') (fst kf) []
                  (zero (snd kf)) s i (ok_field x fs kf Hok Hin)
                  ltac:(destruct kf; now apply addr_field) ltac:(lia)
                  ltac:(rewrite lookup_app_notin by exact Hnotin; cbn [lookup fst snd]; now rewrite Z.eqb_refl)
                  eq_refl Hs Hlim Hi' ltac:(lia)).
      cbn [bind fst snd set_idx].
      rewrite set_field_app_notin by exact Hnotin. cbn [set_field fst]. rewrite Z.eqb_refl.
      specialize (IHr (donef ++ [kf]) (donev ++ [(fst kf, fst (rd (snd kf) s i))]) (snd (rd (snd kf) s i))).
      rewrite <- !app_assoc in IHr. cbn [app] in IHr.
      rewrite IHr; [reflexivity|exact Hfs| |lia|exact Hlen'].
      rewrite !map_app, Hkeys. reflexivity.
  Qed.

  (* prefix, fields, skip: the part of a message node that the nested and the outermost call share *)
  Lemma msg_body x fs s i0 (K : val -> res val) :
    ok (TMsg x fs) -> Forall (fun kf => walk_ok (snd kf)) fs -> bytes_ok s -> lim s -> 0 <= i0 ->
    snd (rd (TMsg x fs) s i0) <= 8 * Z.of_nat (length s) ->
    (r0 <- (if x then ahead {| cs := s; ci := i0 |} else Ok (0, {| cs := s; ci := i0 |})) ;;
     r <- dec_fields D (clsof x fs) fs (VM (zero_val_fields fs)) (snd r0) ;;
     acc' <- K (fst r) ;;
     Ok (acc', if x then skipM i0 (fst r0) (snd r) else snd r)) =
    (acc' <- K (fst (rd (TMsg x fs) s i0)) ;; Ok (acc', {| cs := s; ci := snd (rd (TMsg x fs) s i0) |})).
  Proof.
    intros Hok IH Hs Hlim Hi0 Hlen. pose proof (ok_wf _ Hok) as Hw.
    rewrite rd_msg in *. cbn zeta in *. cbn [fst snd] in *.
    rewrite wf_msg in Hw. rewrite !andb_true_iff in Hw. destruct Hw as [_ Hfw].
    set (i1 := i0 + ext_bits x) in *.
    pose proof (rd_fields_mono s fs i1 Hfw) as M.
    assert (Hend : snd (rd_fields s fs i1) <= 8 * Z.of_nat (length s)) by (destruct x; lia).
    assert (Hx : 0 <= ext_bits x) by (destruct x; cbn; lia).
    rewrite (ahead_opt x s i0 Hs Hlim Hi0 ltac:(unfold i1 in *; lia)). fold i1. cbn [bind fst snd].
    pose proof (dec_fields_rd x fs s Hok IH Hs Hlim fs [] [] i1 eq_refl eq_refl ltac:(lia) Hend) as HF.
    cbn [app] in HF. rewrite HF. cbn [bind fst snd].
    destruct (K _); [|reflexivity]. cbn [bind]. do 2 f_equal.
    destruct x; [|reflexivity]. apply skipM_ok; auto; unfold i1 in *; cbn [ext_bits] in *; lia.
  Qed.

  Theorem walk_all t : walk_ok t.
  Proof.
    induction t as [| | n | n | n ms | t IH | x cap e IH | x fs IH] using ty_ind';
      try (apply leaf_ok; reflexivity);
      unfold walk_ok; intros c vs fn stk a s i0 Hok Hr Hfn Hl Hi Hs Hlim Hi0 Hlen;
      pose proof (ok_wf _ Hok) as Hw.
    - rewrite D_alias. apply IH; auto.
    - rewrite D_arr. rewrite rd_arr in *. cbn zeta in *. cbn [ci cs fst snd] in *.
      cbn [wf] in Hw. rewrite !andb_true_iff in Hw. destruct Hw as [[Hc1 Hc2] Hwe].
      apply addr_arr in Hr. apply ok_arr in Hok. cbn [zero] in Hi.
      set (i1 := i0 + ext_bits x) in *.
      pose proof (rd_elems_mono e s cap i1 Hwe) as M.
      assert (Hend : snd (rd_elems e s cap i1) <= 8 * Z.of_nat (length s)) by (destruct x; lia).
      assert (Hx : 0 <= ext_bits x) by (destruct x; cbn; lia).
      rewrite (ahead_opt x s i0 Hs Hlim Hi0 ltac:(unfold i1 in *; lia)). fold i1. cbn [bind fst snd].
      rewrite (arr_loop_rd (fun st acc x => D e c acc fn st x) fn stk s (zero e) e
                 (8 * Z.of_nat (length s)) Hwe
                 (fun k vs' a' i Hl' Hi' Hi0' Hlen' =>
                    IH c vs' fn (stk ++ [k]) a' s i Hok
                       ltac:(rewrite app_length, Nat.add_1_r; exact Hr) Hfn Hl' Hi' Hs Hlim Hi0' Hlen')
                 vs a cap Hl Hi i1 ltac:(lia) Hend).
      cbn [bind fst snd ci cs]. do 2 f_equal.
      destruct x; [|reflexivity]. apply skipA_ok; auto; unfold i1 in *; cbn [ext_bits] in *; lia.
    - (* message: fetch the child, decode into it, store it back *)
      rewrite D_msg by exact Hfn. rewrite zero_msg in Hi.
      destruct (acc_ok x fs c fn stk vs a _ Hr Hl Hi) as [Hget Hput].
      rewrite Hget. cbn [bind ci].
      rewrite (msg_body x fs s i0 (puta c (VM vs) fn stk) Hok IH Hs Hlim Hi0 Hlen).
      now rewrite Hput.
  Qed.

  (* the outermost call decodes into the message itself *)
  Definition top_ok (x : bool) (fs : list (Z * ty)) : Prop :=
    forall s,
      ok (TMsg x fs) -> bytes_ok s -> lim s ->
      snd (rd (TMsg x fs) s 0) <= 8 * Z.of_nat (length s) ->
      Dtop (TMsg x fs) (zero (TMsg x fs)) {| cs := s; ci := 0 |} =
      Ok (fst (rd (TMsg x fs) s 0), {| cs := s; ci := snd (rd (TMsg x fs) s 0) |}).

  Theorem walk_top x fs : top_ok x fs.
  Proof.
    intros s Hok Hs Hlim Hlen. rewrite Dtop_msg, zero_msg. cbn [ci].
    exact (msg_body x fs s 0 (fun v => Ok v) Hok
             (proj2 (Forall_forall _ _) (fun kf _ => walk_all (snd kf))) Hs Hlim (Z.le_refl 0) Hlen).
  Qed.

  Theorem walk : (forall t, walk_ok t) /\ (forall x fs, top_ok x fs).
  Proof. split; [exact walk_all|exact walk_top]. Qed.
End Walk.
