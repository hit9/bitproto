(* FrontCongr.v — replacing statements by OBSERVATIONALLY EQUAL statements (same outcome of
   proc_item in every context) anywhere in a schema (any file, any nesting depth) does not change
   Front.check at all.  Instance: a constant written as another expression of equal value. *)
From Coq Require Import ZArith List String.
From BP Require Import Front FrontProofs.
Import ListNotations.
Open Scope Z_scope.

Section Congr.
  Variable B : item -> item -> Prop.
  Hypothesis HB : forall pc kf trad file fstack outer cur it it',
    B it it' -> proc_item pc kf trad file fstack outer cur it = proc_item pc kf trad file fstack outer cur it'.

  (* [irel it it']: it' is it with some statements (at any depth) replaced by B-related ones *)
  Fixpoint irel (it it' : item) {struct it} : Prop :=
    it = it' \/ B it it' \/
    match it, it' with
    | IMsg l n x b, IMsg l' n' x' b' =>
        l = l' /\ n = n' /\ x = x' /\
        (fix go (b b' : list item) : Prop :=
           match b, b' with
           | [], [] => True
           | i :: r, i' :: r' => irel i i' /\ go r r'
           | _, _ => False
           end) b b'
    | IEnum l n s b, IEnum l' n' s' b' =>
        l = l' /\ n = n' /\ s = s' /\
        (fix go (b b' : list item) : Prop :=
           match b, b' with
           | [], [] => True
           | i :: r, i' :: r' => irel i i' /\ go r r'
           | _, _ => False
           end) b b'
    | _, _ => False
    end.

  Fixpoint lrel (b b' : list item) : Prop :=
    match b, b' with
    | [], [] => True
    | i :: r, i' :: r' => irel i i' /\ lrel r r'
    | _, _ => False
    end.

  Lemma lrel_refl b : lrel b b.
  Proof. induction b as [|i r IH]; [exact I|]. split; [|exact IH]. destruct i; now left. Qed.

  Section PI.
    Variable pc : list string -> string -> res def.
    Variable kf : string -> bool.
    Variable trad : bool.
    Variable file : string.
    Variable fstack : list string.

    Notation PI := (proc_item pc kf trad file fstack).
    Notation PIS := (proc_items pc kf trad file fstack).

    Lemma proc_irel :
      (forall it it' outer cur, irel it it' -> PI outer cur it' = PI outer cur it) /\
      (forall its its' outer cur, lrel its its' -> PIS outer cur its' = PIS outer cur its).
    Proof.
      (* a statement without a body is related only to itself or to a B-related one *)
      assert (Hleaf : forall it it' outer cur,
                 it = it' \/ B it it' \/ False -> PI outer cur it' = PI outer cur it).
      { intros it it' outer cur [<-|[H|[]]]; [reflexivity|]. symmetry. now apply HB. }
      apply item_list_ind; try (intros; now apply Hleaf).
      - intros l nm b body IH it' outer cur H. cbn [irel] in H.
        destruct H as [H|[H|H]]; [now apply Hleaf; left|now apply Hleaf; right; left|].
        destruct it'; try contradiction. destruct H as [<- [<- [<- H]]].
        destruct b as [| |w|w|p]; try reflexivity. now rewrite !proc_item_enum, (IH _ _ _ H).
      - intros l nm x body IH it' outer cur H. cbn [irel] in H.
        destruct H as [H|[H|H]]; [now apply Hleaf; left|now apply Hleaf; right; left|].
        destruct it'; try contradiction. destruct H as [<- [<- [<- H]]].
        now rewrite !proc_item_msg, (IH _ _ _ H).
      - intros [|i' r'] outer cur H; [reflexivity|contradiction].
      - intros i r Hi Hr [|i' r'] outer cur H; [contradiction|]. destruct H as [H1 H2].
        cbn [proc_items]. rewrite (Hi _ _ _ H1). destruct (PI outer cur i); cbn [bind]; auto.
    Qed.
  End PI.

  Fixpoint frel (fs fs' : files) : Prop :=
    match fs, fs' with
    | [], [] => True
    | a :: r, a' :: r' => fst a = fst a' /\ lrel (snd a) (snd a') /\ frel r r'
    | _, _ => False
    end.

  Lemma frel_assoc fs : forall fs' f, frel fs fs' -> orel lrel (assoc f fs) (assoc f fs').
  Proof.
    induction fs as [|a r IH]; intros [|a' r'] f H; try contradiction; [exact I|].
    destruct H as [E [Hl Hr]]. cbn [assoc]. rewrite <- E. destruct (String.eqb (fst a) f); [exact Hl|now apply IH].
  Qed.

  Lemma frel_length fs : forall fs', frel fs fs' -> List.length fs' = List.length fs.
  Proof. induction fs as [|a r IH]; intros [|a' r'] H; try contradiction; [reflexivity|]. cbn. f_equal. apply IH, H. Qed.

  Lemma frel_known fs fs' g : frel fs fs' -> known fs' g = known fs g.
  Proof. intros H. pose proof (frel_assoc fs fs' g H) as Ha. unfold known. destruct (assoc g fs), (assoc g fs'); cbn in Ha; tauto. Qed.

  Theorem parse_file_frel fs fs' trad : frel fs fs' -> forall n fstack f,
    parse_file n fs' trad fstack f = parse_file n fs trad fstack f.
  Proof.
    intros Hf. induction n as [|n IH]; intros fstack f; [reflexivity|].
    cbn [parse_file]. pose proof (frel_assoc fs fs' f Hf) as Ha.
    destruct (assoc f fs) as [its|], (assoc f fs') as [its'|]; cbn in Ha; try contradiction; [|reflexivity].
    rewrite (proj2 (proc_ext (parse_file n fs trad) (parse_file n fs' trad) (known fs) (known fs') trad f (f :: fstack)
                      (fun _ _ _ => True) (fun g => frel_known fs fs' g Hf) (fun g _ _ => IH (f :: fstack) g)))
      by (intros k a b _; exact I).
    now rewrite (proj2 (proc_irel _ _ _ _ _) its its' [] _ Ha).
  Qed.

  Theorem check_frel fs fs' root trad : frel fs fs' -> check fs' root trad = check fs root trad.
  Proof. intros Hf. unfold check. rewrite (frel_length fs fs' Hf). now apply parse_file_frel. Qed.
End Congr.

(* value of an expression without references, [None] when it divides by zero or mentions a name *)
Fixpoint cvalue (e : cexpr) : option Z :=
  match e with
  | EInt z => Some z
  | ERef _ => None
  | EAdd a b => match cvalue a, cvalue b with Some x, Some y => Some (x + y) | _, _ => None end
  | ESub a b => match cvalue a, cvalue b with Some x, Some y => Some (x - y) | _, _ => None end
  | EMul a b => match cvalue a, cvalue b with Some x, Some y => Some (x * y) | _, _ => None end
  | EDiv a b => match cvalue a, cvalue b with
                | Some x, Some y => if y =? 0 then None else Some (x / y)
                | _, _ => None
                end
  end.

Lemma cvalue_eval file st l e z : cvalue e = Some z -> eval_cexpr file st l e = Ok z.
Proof.
  revert z. induction e as [z0|p|a IHa b IHb|a IHa b IHb|a IHa b IHb|a IHa b IHb]; intros z; cbn [cvalue eval_cexpr];
    try discriminate.
  2-4: destruct (cvalue a), (cvalue b); try discriminate;
       intros H; inversion H; now rewrite (IHa _ eq_refl), (IHb _ eq_refl).
  - intros H; now inversion H.
  - destruct (cvalue a), (cvalue b) as [y|]; try discriminate. destruct (y =? 0) eqn:E; [discriminate|].
    intros H; inversion H. rewrite (IHa _ eq_refl), (IHb _ eq_refl). cbn [bind]. now rewrite E.
Qed.

(* [const_expr_step it it']: the same constant statement, its integer value written as two
   expression trees of equal value (a literal is the tree [EInt z]) *)
Definition const_expr_step (it it' : item) : Prop :=
  exists l n e e' z, it = IConst l n (CExpr e) /\ it' = IConst l n (CExpr e') /\
                     cvalue e = Some z /\ cvalue e' = Some z.

Lemma const_expr_step_obs pc kf trad file fstack outer cur it it' :
  const_expr_step it it' ->
  proc_item pc kf trad file fstack outer cur it = proc_item pc kf trad file fstack outer cur it'.
Proof.
  intros [l [n [e [e' [z [-> [-> [H1 H2]]]]]]]]. cbn [proc_item eval_cvalx].
  now rewrite (cvalue_eval _ _ _ _ _ H1), (cvalue_eval _ _ _ _ _ H2).
Qed.

Theorem const_expr_check fs fs' root trad :
  frel const_expr_step fs fs' -> check fs' root trad = check fs root trad.
Proof. apply check_frel. intros. now apply const_expr_step_obs. Qed.
