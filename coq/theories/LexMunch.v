(* LexMunch.v — WHICH prefix Python's backtracking search returns for the rules whose answer is not
   just "some element of L(r)":
     * greedy class rules (t_INT_LITERAL, t_IDENTIFIER, t_HEX_LITERAL, t_COMMENT): the MAXIMAL run —
       the first result of a greedy star over a single-character class is the longest one;
     * t_STRING_LITERAL (lazy star): the lexeme ends at the FIRST double quote that is not the second
       half of a backslash pair — exactly LexSpec.str_close — and there is no match at all when the
       line ends (or a backslash meets the newline / the end of input) before such a quote. *)
From Coq Require Import ZArith List Bool Lia.
From BP Require Import ListFacts LexBase Lex LexSpec LexProofs.
From BPGen Require Import GenLexer.
Import ListNotations.

Section Munch.
Variable uw : N -> bool.

Lemma mres_atom fuel a s : is_atom a = true -> mres uw fuel a s = step1 (atom_ok a) s.
Proof. destruct a; try discriminate; reflexivity. Qed.

Lemma lastc_cons p c w : lastc p (c :: w) = lastc (Some c) w.
Proof. reflexivity. Qed.

Lemma lastc_last_or p w : lastc p w = last_or p w.
Proof.
  unfold last_or. destruct w as [|c w] using rev_ind; [reflexivity|].
  rewrite lastc_app, rev_app_distr. reflexivity.
Qed.

Lemma lastc_sat (P : N -> bool) : forall w p, w <> [] -> forallb P w = true -> exists d, lastc p w = Some d /\ P d = true.
Proof.
  induction w as [|c w IH]; intros p Hw H; [contradiction|]. cbn [forallb] in H. apply andb_true_iff in H. destruct H as [Hc H].
  cbn [lastc]. destruct w as [|c' w]; [exists c; auto|]. apply IH; [discriminate|exact H].
Qed.

Lemma id_char_is_word c : is_id_char c = true -> is_word uw c = true.
Proof.
  intro H. assert (Hc : (c < 128)%N).
  { unfold is_id_char, is_id_start, is_digit in H. repeat (apply orb_true_iff in H; destruct H as [H|H]);
      try (apply andb_true_iff in H; destruct H as [_ H]; apply N.leb_le in H; lia). apply N.eqb_eq in H. lia. }
  unfold is_word. rewrite (proj2 (N.ltb_lt _ _) Hc). unfold ascii_word.
  unfold is_id_char, is_id_start, is_digit in H. destruct ((48 <=? c)%N && (c <=? 57)%N), ((65 <=? c)%N && (c <=? 90)%N),
    ((97 <=? c)%N && (c <=? 122)%N), (N.eqb c 95); try reflexivity; discriminate H.
Qed.

Lemma greedy_atom_first (ok : N -> bool) : forall fuel p s, (length s <= fuel)%nat ->
  hd_error (star_loop (step1 ok) true fuel (p, s))
  = Some (lastc p (fst (span ok s)), snd (span ok s)).
Proof.
  induction fuel as [|f IH]; intros p s Hl.
  - destruct s; [reflexivity|cbn [length] in Hl; lia].
  - cbn [star_loop]. destruct s as [|c r]; [reflexivity|].
    unfold step1 at 2. cbn [snd]. cbn [span]. destruct (ok c) eqn:Hc.
    + cbn [flat_map]. rewrite app_nil_r.
      assert (Hr : (length r <= f)%nat) by (cbn [length] in Hl; lia).
      specialize (IH (Some c) r Hr).
      destruct (star_loop (step1 ok) true f (Some c, r)) as [|x l]; [discriminate|].
      cbn [app hd_error] in *. rewrite IH. destruct (span ok r) as [a b]. reflexivity.
    + reflexivity.
Qed.

Lemma star_loop_ext (b1 b2 : mstate -> list mstate) g :
  (forall s, b1 s = b2 s) -> forall fuel s, star_loop b1 g fuel s = star_loop b2 g fuel s.
Proof.
  intro H. induction fuel as [|f IH]; intro s; [reflexivity|]. cbn [star_loop]. rewrite H.
  replace (flat_map (star_loop b1 g f) (b2 s)) with (flat_map (star_loop b2 g f) (b2 s)); [reflexivity|].
  apply flat_map_ext. intro x. symmetry. apply IH.
Qed.

Lemma class_then_greedy fuel a b p s :
  is_atom a = true -> is_atom b = true -> (length s <= S fuel)%nat ->
  rmatch uw fuel (XSeq a (XStar true b)) (p, s)
  = match s with
    | c :: r => if atom_ok a c then Some (lastc (Some c) (fst (span (atom_ok b) r)), snd (span (atom_ok b) r)) else None
    | [] => None
    end.
Proof.
  intros Ha Hb Hl. unfold rmatch. cbn [mres]. rewrite (mres_atom fuel a _ Ha).
  unfold step1 at 1. cbn [snd]. destruct s as [|c r]; [reflexivity|].
  destruct (atom_ok a c); [|reflexivity]. cbn [flat_map]. rewrite app_nil_r.
  rewrite (star_loop_ext (mres uw fuel b) (step1 (atom_ok b))) by (intro; apply mres_atom; exact Hb).
  apply greedy_atom_first. cbn [length] in Hl. lia.
Qed.

Definition ok_digit : N -> bool := atom_ok (XIn false [(48, 57)]%N).
Definition ok_idstart : N -> bool := atom_ok (XIn false [(97, 122); (65, 90); (95, 95)]%N).
Definition ok_idchar : N -> bool := atom_ok (XIn false [(97, 122); (65, 90); (48, 57); (95, 95)]%N).
Definition ok_hex : N -> bool := atom_ok (XIn false [(48, 57); (97, 102); (65, 70)]%N).
Definition ok_notnl : N -> bool := atom_ok (XNotChar 10).

(* only this class is tied to LexSpec's ([is_digit]); ok_idstart, ok_idchar, ok_hex, ok_notnl are not *)
Lemma ok_digit_spec c : ok_digit c = is_digit c.
Proof. unfold ok_digit, is_digit. cbn [atom_ok in_ranges existsb fst snd]. rewrite orb_false_r. apply xorb_false_l. Qed.

Theorem int_literal_maximal fuel p s : (length s <= S fuel)%nat ->
  rmatch uw fuel rx_t_INT_LITERAL (p, s)
  = match s with
    | c :: r => if ok_digit c then Some (lastc (Some c) (fst (span ok_digit r)), snd (span ok_digit r)) else None
    | [] => None
    end.
Proof. intro H. unfold rx_t_INT_LITERAL, XPlus. apply class_then_greedy; [reflexivity|reflexivity|exact H]. Qed.

Theorem identifier_maximal fuel p s : (length s <= S fuel)%nat ->
  rmatch uw fuel rx_t_IDENTIFIER (p, s)
  = match s with
    | c :: r => if ok_idstart c then Some (lastc (Some c) (fst (span ok_idchar r)), snd (span ok_idchar r)) else None
    | [] => None
    end.
Proof. intro H. unfold rx_t_IDENTIFIER. apply class_then_greedy; [reflexivity|reflexivity|exact H]. Qed.

Lemma seq_char fuel k R p s :
  rmatch uw fuel (XSeq (XChar k) R) (p, k :: s) = rmatch uw fuel R (Some k, s).
Proof.
  unfold rmatch. cbn [mres]. unfold step1 at 1. cbn [snd atom_ok]. rewrite N.eqb_refl. cbn [flat_map].
  rewrite app_nil_r. reflexivity.
Qed.

Lemma seq_bound fuel R s : boundary uw s = true -> rmatch uw fuel (XSeq XBound R) s = rmatch uw fuel R s.
Proof. intro H. unfold rmatch. cbn [mres]. rewrite H. cbn [flat_map]. rewrite app_nil_r. reflexivity. Qed.

Lemma span_app_stop ok : forall a post, forallb ok a = true ->
  match post with c :: _ => ok c = false | [] => True end -> span ok (a ++ post) = (a, post).
Proof.
  induction a as [|x a IH]; intros post Ha Hp.
  - cbn [app]. destruct post as [|c r]; [reflexivity|]. cbn [span]. rewrite Hp. reflexivity.
  - cbn [forallb] in Ha. apply andb_true_iff in Ha. destruct Ha as [Hx Ha].
    cbn [app span]. rewrite Hx, (IH post Ha Hp). reflexivity.
Qed.

Theorem hex_literal_maximal fuel p c r : (length r <= fuel)%nat ->
  rmatch uw fuel rx_t_HEX_LITERAL (p, 48%N :: 120%N :: c :: r)
  = if ok_hex c then Some (lastc (Some c) (fst (span ok_hex r)), snd (span ok_hex r)) else None.
Proof.
  intro H. unfold rx_t_HEX_LITERAL, XPlus. rewrite !seq_char.
  rewrite class_then_greedy; [reflexivity|reflexivity|reflexivity|cbn [length]; lia].
Qed.

Theorem comment_maximal fuel p r : (length r <= fuel)%nat ->
  rmatch uw fuel rx_t_COMMENT (p, 47%N :: 47%N :: r)
  = Some (lastc (Some 47%N) (fst (span ok_notnl r)), snd (span ok_notnl r)).
Proof.
  intro H. unfold rx_t_COMMENT. rewrite !seq_char. unfold rmatch. cbn [mres].
  rewrite (star_loop_ext (mres uw fuel (XNotChar 10)) (step1 ok_notnl)) by (intro; reflexivity).
  apply greedy_atom_first. exact H.
Qed.

Definition str_unit : rx := XAlt (XIn true [(92, 92); (10, 10)]%N) (XSeq (XChar 92) XAny).

Lemma unit_step fuel q c r1 :
  mres uw fuel str_unit (q, c :: r1)
  = if N.eqb c 92 then match r1 with
                       | d :: r2 => if N.eqb d 10 then [] else [(Some d, r2)]
                       | [] => []
                       end
    else if N.eqb c 10 then [] else [(Some c, r1)].
Proof.
  unfold str_unit. cbn [mres]. unfold step1 at 1 3. cbn [snd atom_ok in_ranges existsb fst].
  rewrite !range1. rewrite orb_false_r.
  destruct (N.eqb_spec c 92) as [->|H92].
  - cbn [N.eqb Pos.eqb orb xorb app flat_map]. unfold step1. cbn [snd atom_ok].
    destruct r1 as [|d r2]; [reflexivity|]. unfold NL. destruct (N.eqb d 10); reflexivity.
  - cbn [orb]. destruct (N.eqb c 10); cbn [xorb app flat_map]; reflexivity.
Qed.

Lemma unit_step_nil fuel q : mres uw fuel str_unit (q, []) = [].
Proof. reflexivity. Qed.

Definition close_result (r : list N) : option mstate :=
  match str_close r with Some (_, rest) => Some (Some 34%N, rest) | None => None end.

Lemma lazy_scan (K U : mstate -> list mstate) :
  (forall q c r, K (q, c :: r) = if N.eqb c 34 then [(Some c, r)] else []) -> (forall q, K (q, []) = []) ->
  (forall q c r1, U (q, c :: r1) = if N.eqb c 92 then match r1 with
                                                      | d :: r2 => if N.eqb d 10 then [] else [(Some d, r2)]
                                                      | [] => []
                                                      end
                                   else if N.eqb c 10 then [] else [(Some c, r1)]) ->
  (forall q, U (q, []) = []) ->
  forall fuel q r, (length r <= fuel)%nat ->
  hd_error (flat_map K (star_loop U false fuel (q, r))) = close_result r.
Proof.
  intros HK HK0 HU HU0. induction fuel as [|f IH]; intros q r Hl.
  - destruct r; [cbn [star_loop flat_map]; rewrite HK0; reflexivity|cbn [length] in Hl; lia].
  - cbn [star_loop flat_map]. destruct r as [|c r1].
    + rewrite HK0, HU0. reflexivity.
    + rewrite HK, HU. unfold close_result. cbn [str_close].
      destruct (N.eqb c 34) eqn:E34.
      * apply N.eqb_eq in E34. subst c. reflexivity.
      * cbn [app].
        destruct (N.eqb c 10) eqn:E10.
        -- apply N.eqb_eq in E10. subst c. reflexivity.
        -- destruct (N.eqb c 92) eqn:E92.
           ++ destruct r1 as [|d r2]; [reflexivity|]. destruct (N.eqb d 10); [reflexivity|].
              cbn [flat_map]. rewrite app_nil_r.
              assert (Hr : (length r2 <= f)%nat) by (cbn [length] in Hl; lia).
              rewrite (IH (Some d) r2 Hr). unfold close_result. destruct (str_close r2) as [[b t]|]; reflexivity.
           ++ cbn [flat_map]. rewrite app_nil_r.
              assert (Hr : (length r1 <= f)%nat) by (cbn [length] in Hl; lia).
              rewrite (IH (Some c) r1 Hr). unfold close_result. destruct (str_close r1) as [[b t]|]; reflexivity.
Qed.

Theorem string_literal_first_close fuel p r : (length r <= fuel)%nat ->
  rmatch uw fuel rx_t_STRING_LITERAL (p, 34%N :: r) = close_result r.
Proof.
  intro H. unfold rx_t_STRING_LITERAL. rewrite seq_char. unfold rmatch.
  change (mres uw fuel (XSeq (XStar false (XAlt (XIn true [(92, 92); (10, 10)]%N) (XSeq (XChar 92) XAny))) (XChar 34)) (Some 34%N, r))
    with (flat_map (mres uw fuel (XChar 34)) (star_loop (mres uw fuel str_unit) false fuel (Some 34%N, r))).
  apply lazy_scan; try exact H.
  - intros q c r0. reflexivity.
  - intro q. reflexivity.
  - intros q c r1. apply unit_step.
  - intro q. reflexivity.
Qed.

Lemma str_close_split : forall r body rest, str_close r = Some (body, rest) -> r = body ++ 34%N :: rest /\ ~ In NL body.
Proof.
  induction r as [r IH] using (well_founded_induction (Wf_nat.well_founded_ltof _ (@length N))).
  intros body rest H. destruct r as [|c r1]; [discriminate|]. cbn [str_close] in H.
  destruct (N.eqb_spec c 34) as [->|H34].
  - inversion H; subst. split; [reflexivity|intros []].
  - destruct (N.eqb_spec c 10) as [->|H10]; [discriminate|].
    destruct (N.eqb_spec c 92) as [->|H92].
    + destruct r1 as [|d r2]; [discriminate|]. destruct (N.eqb_spec d 10) as [->|Hd]; [discriminate|].
      destruct (str_close r2) as [[b t]|] eqn:E; [|discriminate]. inversion H; subst.
      apply IH in E; [|unfold ltof; cbn [length]; lia]. destruct E as [-> Hn]. split; [reflexivity|].
      intros [K|[K|K]]; [discriminate K|apply Hd; exact K|apply Hn; exact K].
    + destruct (str_close r1) as [[b t]|] eqn:E; [|discriminate]. inversion H; subst.
      apply IH in E; [|unfold ltof; cbn [length]; lia]. destruct E as [-> Hn]. split; [reflexivity|].
      intros [K|K]; [apply H10; exact K|apply Hn; exact K].
Qed.

End Munch.
