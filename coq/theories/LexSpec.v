(* LexSpec.v — the token language of bitproto stated DIRECTLY (no regular expressions, no
   backtracking, no rule order): a deterministic scanner that says, for every position, which
   lexeme starts there and what token it is.  This is the reference the model of the real
   tokenizer (Lex.v: ply's ordered, backtracking master regex + rule bodies) is compared with,
   by proof (LexClass.v, LexMunch.v, LexActions.v, LexTyped.v, LexValue.v) and per generated input
   (T2: implementation vs this scanner).

   At a position with previous character [prev]:
     space, tab, CR            skipped
     "\n"                      NEWLINE (the only lexeme containing a newline; line += 1)
     "//" ...                  COMMENT: up to, not including, the next "\n" (or end of input)
     digit                     "0x" + at least one hex digit: HEX_LITERAL, maximal hex run;
                               otherwise INT_LITERAL, maximal digit run
     letter or "_"             w = the maximal run of [A-Za-z0-9_].  If w stands at word boundaries
                               on both sides ([prev] is not a word character and the character
                               after w is not one — Unicode-aware) it is typed by its text:
                               bool, byte, uint<digits>, int<digits>, true/false/yes/no;
                               otherwise (and in any case for the 8 keywords) it is an
                               IDENTIFIER, re-typed to the upper-cased keyword if it is one
     double quote              STRING_LITERAL up to the first double quote that is not part of a
                               backslash pair; no "\n" inside, no backslash directly before "\n"
                               or the end of input; otherwise the QUOTE is an invalid token
     + - * /                   PLUS MINUS TIMES DIVIDE
     : ; { } [ ] ( ) = \ ' .   literal tokens (type = the character)
     anything else             LexerError(that character, current line)
   Guards written out: a decimal literal / a uintN,intN width of more than 4300 digits makes
   int() raise ValueError (known finding huge-literal); widths outside 1..64 and unknown escapes
   are the ParserErrors the rule bodies raise. *)
From Coq Require Import String NArith ZArith List Bool Lia.
From BP Require Import TotalBase LexBase Lex.
Import ListNotations.
Open Scope N_scope.

Definition is_digit (c : N) : bool := N.leb 48 c && N.leb c 57.
Definition is_hexdigit (c : N) : bool :=
  is_digit c || (N.leb 97 c && N.leb c 102) || (N.leb 65 c && N.leb c 70).
Definition is_id_start (c : N) : bool :=
  (N.leb 97 c && N.leb c 122) || (N.leb 65 c && N.leb c 90) || N.eqb c 95.
Definition is_id_char (c : N) : bool := is_id_start c || is_digit c.

Fixpoint span (p : N -> bool) (s : list N) : list N * list N :=
  match s with
  | c :: r => if p c then let '(a, b) := span p r in (c :: a, b) else ([], s)
  | [] => ([], [])
  end.

Definition last_or (p : option N) (w : list N) : option N :=
  match rev w with c :: _ => Some c | [] => p end.

(* documented vocabulary *)
Definition S_ignore : list N := [32; 9; 13].
Definition S_literals : list N := [58; 59; 123; 125; 91; 93; 40; 41; 47; 61; 92; 39; 46].
Definition W_bool : list N := [98; 111; 111; 108].
Definition W_byte : list N := [98; 121; 116; 101].
Definition W_uint : list N := [117; 105; 110; 116].
Definition W_int : list N := [105; 110; 116].
Definition W_true : list N := [116; 114; 117; 101].
Definition W_false : list N := [102; 97; 108; 115; 101].
Definition W_yes : list N := [121; 101; 115].
Definition W_no : list N := [110; 111].
Definition S_keywords : list (list N) :=
  [[112; 114; 111; 116; 111]; [105; 109; 112; 111; 114; 116]; [111; 112; 116; 105; 111; 110];
   [116; 121; 112; 101]; [99; 111; 110; 115; 116]; [101; 110; 117; 109];
   [109; 101; 115; 115; 97; 103; 101]; [116; 121; 112; 101; 100; 101; 102]].
Definition S_escapes : list (N * N) := [(116, 9); (114, 13); (110, 10); (92, 92); (39, 39); (34, 34)].
Definition S_max_digits : Z := 4300%Z.

Definition tn (s : string) : list N := cps_of_string s.

(* value of a run of digits (Horner) *)
Definition digit_val (c : N) : Z :=
  if is_digit c then (Z.of_N c - 48)%Z else if N.leb 97 c then (Z.of_N c - 87)%Z else (Z.of_N c - 55)%Z.
Definition digits_val (base : Z) (ds : list N) : Z :=
  fold_left (fun a c => (a * base + digit_val c)%Z) ds 0%Z.

(* w = pre ++ ds with ds a non-empty run of digits *)
Definition digits_after (pre w : list N) : option (list N) :=
  let n := length pre in
  if cps_eqb (firstn n w) pre then
    let ds := skipn n w in
    match ds with [] => None | _ => if forallb is_digit ds then Some ds else None end
  else None.

(* the closing quote: -> (body, rest after the quote) *)
Fixpoint str_close (s : list N) : option (list N * list N) :=
  match s with
  | [] => None
  | c :: r =>
      if N.eqb c 34 then Some ([], r)
      else if N.eqb c 10 then None
      else if N.eqb c 92 then
        match r with
        | d :: r' => if N.eqb d 10 then None
                     else match str_close r' with Some (b, t) => Some (c :: d :: b, t) | None => None end
        | [] => None
        end
      else match str_close r with Some (b, t) => Some (c :: b, t) | None => None end
  end.

(* the value of a string body; None = an unsupported escape *)
Fixpoint unescape (b : list N) : option (list N) :=
  match b with
  | [] => Some []
  | c :: r =>
      if N.eqb c 92 then
        match r with
        | d :: r' => match ntable_get S_escapes d, unescape r' with
                     | Some v, Some t => Some (v :: t)
                     | _, _ => None
                     end
        | [] => None
        end
      else match unescape r with Some t => Some (c :: t) | None => None end
  end.

Inductive sres : Type :=
| SSkip (c : N) (rest : list N)                                  (* ignored character *)
| STok (ty : list N) (v : tvalue) (lx : list N) (rest : list N) (dline : Z)
| SEnd (e : lexend).

Section Spec.
Variable uw : N -> bool.

Definition typed_word (w : list N) (line : Z) : option (outcome (list N * tvalue)) :=
  if cps_eqb w W_bool then Some (Ok (tn "BOOL_TYPE", VNode "Bool" None w line))
  else if cps_eqb w W_byte then Some (Ok (tn "BYTE_TYPE", VNode "Byte" None w line))
  else if cps_mem w [W_true; W_yes] then Some (Ok (tn "BOOL_LITERAL", VBool true))
  else if cps_mem w [W_false; W_no] then Some (Ok (tn "BOOL_LITERAL", VBool false))
  else match digits_after W_uint w with
  | Some ds =>
      Some (if (S_max_digits <? zlen ds)%Z then Crash ValueError
            else let cap := digits_val 10 ds in
                 if (0 <? cap)%Z && (cap <=? 64)%Z then Ok (tn "UINT_TYPE", VNode "Uint" (Some cap) w line)
                 else ParserError "InvalidUintCap")
  | None =>
  match digits_after W_int w with
  | Some ds =>
      Some (if (S_max_digits <? zlen ds)%Z then Crash ValueError
            else let cap := digits_val 10 ds in
                 if (0 <? cap)%Z && (cap <=? 64)%Z then Ok (tn "INT_TYPE", VNode "Int" (Some cap) w line)
                 else ParserError "InvalidIntCap")
  | None => None
  end end.

Definition of_outcome (o : outcome (list N * tvalue)) (lx rest whole : list N) (line : Z) : sres :=
  match o with
  | Ok (ty, v) => STok ty v lx rest 0%Z
  | ParserError k => SEnd (LActErr k line)
  | Crash e => SEnd (LCrash e)
  end.

(* one step at (prev, s) *)
Definition spec_step (prev : option N) (s : list N) (line : Z) : sres :=
  match s with
  | [] => SEnd LDone
  | c :: r =>
      if cp_mem c S_ignore then SSkip c r
      else if N.eqb c 10 then STok (tn "NEWLINE") (VText [c]) [c] r 1%Z
      else if N.eqb c 47 && (match r with d :: _ => N.eqb d 47 | [] => false end) then
        let '(w, rest) := span (fun x => negb (N.eqb x 10)) s in
        STok (tn "COMMENT") (VNode "Comment" None w line) w rest 0%Z
      else if is_digit c then
        match s with
        | z :: x :: h :: _ =>
            if N.eqb z 48 && N.eqb x 120 && is_hexdigit h then
              let '(ds, rest) := span is_hexdigit (skipn 2 s) in
              STok (tn "HEX_LITERAL") (VInt (digits_val 16 ds)) (z :: x :: ds) rest 0%Z
            else
              let '(ds, rest) := span is_digit s in
              if (S_max_digits <? zlen ds)%Z then SEnd (LCrash ValueError)
              else STok (tn "INT_LITERAL") (VInt (digits_val 10 ds)) ds rest 0%Z
        | _ =>
            let '(ds, rest) := span is_digit s in
            if (S_max_digits <? zlen ds)%Z then SEnd (LCrash ValueError)
            else STok (tn "INT_LITERAL") (VInt (digits_val 10 ds)) ds rest 0%Z
        end
      else if is_id_start c then
        let '(w, rest) := span is_id_char s in
        let bounded := negb (word_opt uw prev) && negb (word_opt uw (hd_error rest)) in
        match (if bounded then typed_word w line else None) with
        | Some o => of_outcome o w rest s line
        | None =>
            if cps_mem w S_keywords then STok (map cp_upper w) (VText w) w rest 0%Z
            else STok (tn "IDENTIFIER") (VText w) w rest 0%Z
        end
      else if N.eqb c 34 then
        match str_close r with
        | Some (body, rest) =>
            match unescape body with
            | Some v => STok (tn "STRING_LITERAL") (VText v) (c :: body ++ [34]) rest 0%Z
            | None => SEnd (LActErr "InvalidEscapingChar" line)
            end
        | None => SEnd (LError "LexerError" c line)
        end
      else if N.eqb c 43 then STok (tn "PLUS") (VText [c]) [c] r 0%Z
      else if N.eqb c 45 then STok (tn "MINUS") (VText [c]) [c] r 0%Z
      else if N.eqb c 42 then STok (tn "TIMES") (VText [c]) [c] r 0%Z
      else if N.eqb c 47 then STok (tn "DIVIDE") (VText [c]) [c] r 0%Z
      else if cp_mem c S_literals then STok [c] (VText [c]) [c] r 0%Z
      else SEnd (LError "LexerError" c line)
  end.

Fixpoint spec_items (fuel : nat) (prev : option N) (s : list N) (pos line : Z) : list item * lexend * list N :=
  match fuel with
  | O => ([], LFuel, s)
  | S f =>
      match spec_step prev s line with
      | SSkip c rest => let '(its, e, rem) := spec_items f (Some c) rest (pos + 1)%Z line in (IIgn c :: its, e, rem)
      | STok ty v lx rest dl =>
          let pos' := (pos + zlen lx)%Z in
          let '(its, e, rem) := spec_items f (last_or prev lx) rest pos' (line + dl)%Z in
          (ITok (mkTok ty v line pos pos') lx :: its, e, rem)
      | SEnd e => ([], e, s)
      end
  end.

Definition spec_run (s : list N) : list item * lexend * list N := spec_items (S (length s)) None s 0%Z 1%Z.
Definition spec_lex (s : list N) : list token * lexend :=
  let '(its, e, _) := spec_run s in (tokens_of its, e).

End Spec.
