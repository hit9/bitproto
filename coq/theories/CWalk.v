(* CWalk.v — the C runtime's walk, in either direction, seen against the stream [sf] AS IT IS
   WHEN THE WALK IS OVER.  Decoding never writes the stream: it is sf all the time.  Encoding
   has written the bits below the cursor and the rest is still zero: it is [Bits.cut] sf at the
   cursor.  Either way the context at cursor i is a function of sf and i ([ctx_at]), what a
   node transfers is the segment of sf at the cursor, and a node's behaviour is an EQUATION
       core t (ctx_at sf i) o = COk (ctx_at sf (i + n), o')
   that loops compose by rewriting.  [ctx_at], the 16-bit prefix ([ahead_at]), one round of the
   element loop ([elems_step_OL], [elems_step_OB]) and the batch copy around BpEndecodeBaseType
   ([batch_copy]) serve both directions.  The rest is the
   encoder's walk ([cenc_ok_all], Encode<Msg> = Spec.wire of the value held in storage): its
   equation is [node], with n the number of bits the specification gives the node, and each
   element or field moves the cursor over its own bits of sf ([loop_OL], [loop_OB],
   [enc_fields]).  The decoder's walk is CEvolveProofs.v: it is stated on ANY buffer, so where a
   node ends is what the reader RdSpec.rd says and not a bit count known beforehand; its equation
   is crd_ok and its loops (crd_elems_OL, crd_elems_OB, crd_fields) are proved there over rd. *)
From Coq Require Import ZArith List Bool Lia.
From BP Require Import ListFacts Bits Schema Spec PyEncProofs.
From BP Require Import CMem CMemProofs CRt CBaseProofs CEncProofs CDecProofs.
From BPGen Require Import GenC.
Import ListNotations.
Open Scope Z_scope.

Definition ctx_at (enc : bool) (sf : list Z) (i : Z) : cctx :=
  {| xs := if enc then cut sf i else sf; xi := i |}.

(* a context with [cenc_pre] is [ctx_at true sf] of some finished stream: how the batch theorem of C03,
   stated over [cenc_pre], reaches [node] *)
Lemma cenc_pre_at x n bits :
  cenc_pre x n -> Z.of_nat (length bits) = n ->
  exists sf, bytes_ok sf /\ length sf = length (xs x) /\ x = ctx_at true sf (xi x) /\
             seg sf (xi x) n = Z_of_bits bits.
Proof.
  destruct x as [s i]. intros (Hs & Hi & Hz & Hl) Hb. cbn [xs xi] in *.
  pose proof (Z_of_bits_range bits) as R. rewrite Hb in R.
  exists (bytes_of (length s) (bufZ s + 2 ^ i * Z_of_bits bits)).
  (* the sum has i + n bits, which fit the buffer; below bit i it is the buffer so far, from there on the new bits *)
  assert (Hu : 0 <= bufZ s + 2 ^ i * Z_of_bits bits < 2 ^ (i + n)) by (rewrite Z.mul_comm; apply (place_bound _ _ i n); lia).
  pose proof (Z.pow_le_mono_r 2 (i + n) (8 * Z.of_nat (length s))). pose proof (pow2_pos i Hi).
  unfold ctx_at, cut, seg, chunk. rewrite bytes_of_length, bufZ_bytes_of, pow256, (Z.mod_small _ (2 ^ (8 * _))) by lia.
  rewrite (Z.mul_comm (2 ^ i)), Z.mod_add, Z.div_add, Z.div_small, !Z.mod_small by lia.
  split; [apply bytes_of_ok|]. split; [reflexivity|]. split; [|reflexivity]. f_equal. symmetry. now apply bytes_of_bufZ.
Qed.

Section Walk.
  Variables (B E : endian) (enc : bool).
  Let cp := call_processor B E enc.

  (* one round of the element loop, on an array of structs and on one contiguous byte object *)
  Lemma elems_step_OL elem c pre o rest x x' o' :
    elem_step B E cp enc elem x o = COk (x', o') ->
    elems_loop B E cp enc elem (S c) (length pre) x (OL (pre ++ o :: rest))
    = elems_loop B E cp enc elem c (length (pre ++ [o'])) x' (OL ((pre ++ [o']) ++ rest)).
  Proof.
    intros H. cbn [elems_loop]. unfold get_elem. rewrite nth_error_app_mid. cbn [cbind].
    rewrite H. cbn [cbind fst snd set_elem].
    replace (Nat.ltb (length pre) (length (pre ++ o :: rest))) with true
      by (symmetry; apply Nat.ltb_lt; rewrite app_length; cbn [length]; lia).
    rewrite upd_app_mid. cbn [cbind]. now rewrite <- app_assoc, app_length, Nat.add_1_r.
  Qed.

  Lemma elems_step_OB elem c k pre b rest x x' b' :
    Z.of_nat (length pre) = Z.of_nat k * d_size elem -> Z.of_nat (length b) = d_size elem ->
    length b' = length b -> elem_step B E cp enc elem x (OB b) = COk (x', OB b') ->
    elems_loop B E cp enc elem (S c) k x (OB (pre ++ b ++ rest))
    = elems_loop B E cp enc elem c (S k) x' (OB ((pre ++ b') ++ rest)).
  Proof.
    intros Hk Lb Lb' H. cbn [elems_loop]. unfold get_elem. rewrite <- Hk. rewrite <- Lb at 1.
    rewrite slice_app. cbn [cbind]. rewrite H. cbn [cbind fst snd set_elem].
    rewrite <- Hk, (splice_app _ _ _ _ Lb'). cbn [cbind]. now rewrite <- app_assoc.
  Qed.

  (* the batch copy of BpEndecodeArray is BpEndecodeBaseType on the whole byte object: it is taken
     (little-endian build only) for elements of a standard width, which the sign fix-up leaves alone *)
  Lemma batch_copy e cap x o r :
    batch_pred B (nbits e) (d_flag (render e)) (d_to_flag (render e)) = true -> 0 <= csize e ->
    on_bytes o (base_type B E enc (nbits e * Z.of_nat cap) x) = COk r ->
    Z.of_nat cap * csize e <= Z.of_nat (length (obytes (snd r))) ->
    on_bytes o (fun bs =>
      r0 <-- base_type B E enc (ar_batch_nbits (nbits e) (Z.of_nat cap)) x bs ;;
      if ar_sign_needed (d_flag (render e)) (d_to_flag (render e))
      then bs' <-- batch_sign E enc (Z.to_nat (Z.of_nat cap)) 0 (csize e) (nbits e) (snd r0) ;; COk (fst r0, bs')
      else COk r0)
    = COk r.
  Proof.
    intros Hbp Hcs H Hl. destruct o as [bs| |]; try discriminate H. unfold on_bytes, ar_batch_nbits in *.
    destruct (base_type B E enc (nbits e * Z.of_nat cap) x bs) as [[x' bs']| | |]; try discriminate H.
    cbn [cbind fst snd] in *. injection H as <-. cbn [snd obytes] in Hl.
    destruct (ar_sign_needed _ _); [|reflexivity].
    rewrite batch_sign_id; [reflexivity| |exact Hcs|rewrite Nat2Z.id; lia].
    intros s. unfold sign_after. destruct enc; [reflexivity|].
    destruct B; [|discriminate Hbp]. apply andb_true_iff in Hbp. now rewrite (std_skip _ (proj1 Hbp)).
  Qed.
End Walk.

Section EncLoops.
  Variables (B E : endian).
  Let cp := call_processor B E true.

  (* encoding t from o (left as o') moves the cursor over the bits b, wherever in sf they stand *)
  Definition node (sf : list Z) (t : ty) (o o' : obj) (b : list bool) : Prop :=
    forall i, 0 <= i -> i + Z.of_nat (length b) <= 8 * Z.of_nat (length sf) ->
      seg sf i (Z.of_nat (length b)) = Z_of_bits b ->
      core B E true t (ctx_at true sf i) o = COk (ctx_at true sf (i + Z.of_nat (length b)), o').

  Variables (sf : list Z) (e : ty).
  Hypothesis Hel : elem_ok e = true.
  Context {A : Type} (bits : A -> list bool).

  (* the element loop over an array of structs: element a goes from [bf a] to [af a] *)
  Lemma loop_OL (bf af : A -> obj) : forall l pre i,
    (forall a, In a l -> node sf e (bf a) (af a) (bits a)) ->
    0 <= i -> i + Z.of_nat (length (flat_map bits l)) <= 8 * Z.of_nat (length sf) ->
    seg sf i (Z.of_nat (length (flat_map bits l))) = Z_of_bits (flat_map bits l) ->
    elems_loop B E cp true (render e) (length l) (length pre) (ctx_at true sf i) (OL (pre ++ map bf l))
    = COk (ctx_at true sf (i + Z.of_nat (length (flat_map bits l))), OL (pre ++ map af l)).
  Proof.
    induction l as [|a r IH]; intros pre i Hn Hi Hroom Hseg.
    - cbn [length elems_loop flat_map map]. now rewrite Z.add_0_r.
    - cbn [length flat_map map] in *. rewrite app_length, Nat2Z.inj_add in *.
      destruct (chunk_app (bufZ sf) i _ _ _ _ Hi (Nat2Z.is_nonneg _) eq_refl Hseg) as [H1 H2].
      rewrite (elems_step_OL B E true _ _ pre _ _ _ (ctx_at true sf (i + Z.of_nat (length (bits a)))) (af a))
        by (unfold cp; rewrite (elem_step_core B E true e _ _ Hel); exact (Hn a (or_introl eq_refl) i Hi ltac:(lia) H1)).
      fold cp. rewrite (IH (pre ++ [af a]) (i + Z.of_nat (length (bits a)))); try assumption; try lia.
      + now rewrite <- app_assoc, Z.add_assoc.
      + intros b Hb. apply Hn. now right.
  Qed.

  (* the same over one contiguous byte object: element a is the slice after the part done *)
  Lemma loop_OB (bf af : A -> list Z) : forall l pre i,
    (forall a, In a l -> Z.of_nat (length (bf a)) = csize e /\ length (af a) = length (bf a) /\
                         node sf e (OB (bf a)) (OB (af a)) (bits a)) ->
    forall k, Z.of_nat (length pre) = Z.of_nat k * csize e ->
    0 <= i -> i + Z.of_nat (length (flat_map bits l)) <= 8 * Z.of_nat (length sf) ->
    seg sf i (Z.of_nat (length (flat_map bits l))) = Z_of_bits (flat_map bits l) ->
    elems_loop B E cp true (render e) (length l) k (ctx_at true sf i) (OB (pre ++ flat_map bf l))
    = COk (ctx_at true sf (i + Z.of_nat (length (flat_map bits l))), OB (pre ++ flat_map af l)).
  Proof.
    induction l as [|a r IH]; intros pre i Hn k Hk Hi Hroom Hseg.
    - cbn [length elems_loop flat_map]. now rewrite Z.add_0_r.
    - cbn [length flat_map] in *. rewrite app_length, Nat2Z.inj_add in *.
      destruct (chunk_app (bufZ sf) i _ _ _ _ Hi (Nat2Z.is_nonneg _) eq_refl Hseg) as [H1 H2].
      destruct (Hn a (or_introl eq_refl)) as (La & Laf & Ha).
      rewrite (elems_step_OB B E true _ _ k pre (bf a) _ _ (ctx_at true sf (i + Z.of_nat (length (bits a)))) (af a));
        [|now rewrite d_size_render..|exact Laf
         |unfold cp; rewrite (elem_step_core B E true e _ _ Hel); exact (Ha i Hi ltac:(lia) H1)].
      fold cp. rewrite (IH (pre ++ af a) (i + Z.of_nat (length (bits a)))); try assumption; try lia.
      + now rewrite <- !app_assoc, Z.add_assoc.
      + intros b Hb. apply Hn. now right.
      + rewrite app_length, Nat2Z.inj_add. lia.
  Qed.
End EncLoops.

Lemma ext_prefix_length (ext : bool) v : Z.of_nat (length (if ext then bits_of 16 v else [])) = ext_bits ext.
Proof. now destruct ext. Qed.

Section Ahead.
  Variables (B E : endian) (enc : bool).
  Hypothesis HBE : B = E.

  Lemma ahead_at (ext : bool) v sf i :
    0 <= v < 65536 -> bytes_ok sf -> 0 <= i -> i + ext_bits ext <= 8 * Z.of_nat (length sf) ->
    (ext = true -> seg sf i 16 = v) ->
    (if ext then
       if enc then x' <-- encode_ahead B E v (ctx_at enc sf i) ;; COk (x', 0)
       else decode_ahead B E (ctx_at enc sf i)
     else COk (ctx_at enc sf i, 0))
    = COk (ctx_at enc sf (i + ext_bits ext), if ext && negb enc then v else 0).
  Proof.
    intros Hv Hs Hi Hr Hseg. destruct ext; cbn [ext_bits andb] in *; [|now rewrite Z.add_0_r].
    specialize (Hseg eq_refl). destruct enc; cbn [negb].
    - unfold ctx_at. now rewrite (encode_ahead_cut B E HBE v sf i Hv Hi Hr Hseg).
    - apply decode_ahead_seg; [assumption| |exact Hseg]. repeat split; assumption.
  Qed.
End Ahead.

Definition cenc_ok (B E : endian) (t : ty) : Prop :=
  forall o, wf t = true -> cwf t = true -> shape_ok t o ->
    Z.of_nat (length (enc_bits t (abs_val E t o))) = nbits t /\
    forall sf, bytes_ok sf -> node B E sf t o o (enc_bits t (abs_val E t o)).

Section EncWalk.
  Variables (B E : endian).
  Hypothesis HBE : B = E.
  Let cp := call_processor B E true.

  Lemma enc_fields ofs v sf : bytes_ok sf -> forall l i,
    Forall (fun kf => cenc_ok B E (snd kf)) l -> fields_wf l = true -> cwf_fields l = true ->
    shape_fields ofs l ->
    (forall kf fo, In kf l -> lookup (fst kf) ofs = Some fo -> vfield (fst kf) v = abs_val E (snd kf) fo) ->
    Z.of_nat (length (fields_bits v l)) = fields_nbits l /\
    (0 <= i -> i + fields_nbits l <= 8 * Z.of_nat (length sf) ->
     seg sf i (fields_nbits l) = Z_of_bits (fields_bits v l) ->
     fields_loop B E cp true (render_fields l) (length l) (ctx_at true sf i) (OS ofs)
     = COk (ctx_at true sf (i + fields_nbits l), OS ofs)).
  Proof.
    intros Hsf. induction l as [|kf r IHr]; intros i HIH Hw Hc Hsh Hv.
    - split; [reflexivity|]. intros _ _ _. cbn. now rewrite Z.add_0_r.
    - inversion HIH as [|? ? Hk Hrest]; subst.
      cbn [fields_wf] in Hw. rewrite !andb_true_iff in Hw. destruct Hw as [[[_ _] Hwk] Hwr].
      cbn [cwf_fields] in Hc. apply andb_true_iff in Hc. destruct Hc as [Hck Hcr].
      cbn [shape_fields] in Hsh. destruct Hsh as [(fo & Hlk & Hsk) Hsr].
      pose proof (nbits_nonneg (snd kf) Hwk) as Hn1. pose proof (fields_nbits_nonneg r Hwr) as Hn2.
      rewrite fields_nbits_cons. cbn [fields_bits]. fold (fields_bits v r).
      destruct (Hk fo Hwk Hck Hsk) as [Hlen1 Hnode]. rewrite <- (Hv kf fo (or_introl eq_refl) Hlk) in Hlen1, Hnode.
      destruct (IHr (i + nbits (snd kf)) Hrest Hwr Hcr Hsr (fun kf' fo' Hin => Hv kf' fo' (or_intror Hin)))
        as [Hlen2 Hloop].
      split; [rewrite app_length, Nat2Z.inj_add; lia|]. intros Hi Hr Hseg.
      destruct (chunk_app (bufZ sf) i _ _ _ _ Hi Hn2 Hlen1 Hseg) as [H1 H2].
      cbn [render_fields length fields_loop fst snd]. unfold get_fld. rewrite Hlk. cbn [cbind].
      unfold cp at 1. rewrite field_step_core. fold cp.
      specialize (Hnode sf Hsf i Hi). rewrite Hlen1 in Hnode. rewrite (Hnode ltac:(lia) H1).
      cbn [cbind fst snd set_fld]. rewrite (set_assoc_same _ _ _ Hlk), Hloop, Z.add_assoc by (assumption || lia).
      reflexivity.
  Qed.

  Lemma enc_array_loop ext cap e o (bits := flat_map (enc_bits e) (vlist (abs_val E (TArr ext cap e) o))) :
    cenc_ok B E e -> wf e = true -> cwf e = true -> elem_ok e = true -> shape_ok (TArr ext cap e) o ->
    Z.of_nat (length bits) = Z.of_nat cap * nbits e /\
    (forall sf i, bytes_ok sf -> 0 <= i -> i + Z.of_nat (length bits) <= 8 * Z.of_nat (length sf) ->
       seg sf i (Z.of_nat (length bits)) = Z_of_bits bits ->
       elems_loop B E cp true (render e) cap 0 (ctx_at true sf i) o
       = COk (ctx_at true sf (i + Z.of_nat (length bits)), o)).
  Proof.
    intros IH Hwe Hce Hel Hs. subst bits. pose proof (csize_nonneg e Hwe) as Hcs. pose proof (nbits_nonneg e Hwe) as Hn.
    cbn [shape_ok abs_val] in *. destruct (flat e) eqn:Hfl.
    - destruct Hs as (bs & -> & Hbs & Hlen). cbn [obytes vlist]. set (esz := Z.to_nat (csize e)).
      assert (Hlen' : length bs = (cap * esz)%nat) by (unfold esz; nia).
      assert (Hch : forall c, In c (chunks cap esz bs) -> shape_ok e (OB c)).
      { intros c Hc. destruct (chunks_In cap esz bs c Hlen' Hbs Hc) as [Hc1 Hc2].
        apply (flat_shape e _ Hfl). exists c. unfold esz in Hc2. repeat split; [assumption|lia]. }
      rewrite flat_map_map'. split.
      { rewrite (flat_map_length_const _ _ (Z.to_nat (nbits e))), chunks_length; [lia|].
        intros c Hc. pose proof (proj1 (IH _ Hwe Hce (Hch c Hc))). lia. }
      intros sf i Hsf Hi Hr Hseg.
      rewrite <- (concat_chunks cap esz bs Hlen') at 1 3. rewrite <- (chunks_length cap esz bs) at 1.
      apply (loop_OB B E sf e Hel _ (fun c => c) (fun c => c) (chunks cap esz bs) [] i); try assumption; [|reflexivity].
      intros c Hc. destruct (chunks_In cap esz bs c Hlen' Hbs Hc) as [Hc1 Hc2].
      split; [unfold esz in Hc2; lia|]. split; [reflexivity|]. apply (IH _ Hwe Hce (Hch c Hc)), Hsf.
    - destruct Hs as (l & -> & Hll & Hfa). rewrite Forall_forall in Hfa. cbn [vlist]. rewrite flat_map_map'. split.
      { rewrite (flat_map_length_const _ _ (Z.to_nat (nbits e))); [lia|].
        intros a Ha. pose proof (proj1 (IH _ Hwe Hce (Hfa a Ha))). lia. }
      intros sf i Hsf Hi Hr Hseg. rewrite <- Hll. rewrite <- (map_id l) at 2 4.
      apply (loop_OL B E sf e Hel _ (fun a => a) (fun a => a) l [] i); try assumption.
      intros a Ha. apply (IH _ Hwe Hce (Hfa a Ha)), Hsf.
  Qed.

  (* the batch copy: the whole byte object in one transfer *)
  Lemma enc_batch ext cap e o (bits := flat_map (enc_bits e) (vlist (abs_val E (TArr ext cap e) o))) sf i :
    cenc_ok B E e -> wf e = true -> cwf e = true -> shape_ok (TArr ext cap e) o ->
    batch_pred B (nbits e) (d_flag (render e)) (d_to_flag (render e)) = true ->
    0 <= i -> i + Z.of_nat (length bits) <= 8 * Z.of_nat (length sf) ->
    seg sf i (Z.of_nat (length bits)) = Z_of_bits bits ->
    Z.of_nat (length bits) = Z.of_nat cap * nbits e ->
    on_bytes o (base_type B E true (nbits e * Z.of_nat cap) (ctx_at true sf i))
    = COk (ctx_at true sf (i + Z.of_nat (length bits)), o) /\
    Z.of_nat cap * csize e <= Z.of_nat (length (obytes o)).
  Proof.
    intros IH Hwe Hce Hs Hbp Hi Hr Hseg Hlb. pose proof (csize_nonneg e Hwe) as Hcs. pose proof (nbits_nonneg e Hwe) as Hn.
    assert (B = LE) by (destruct B; [reflexivity|discriminate Hbp]). subst B. subst E. cbn [batch_pred] in Hbp.
    destruct (batch_inv e Hce Hbp) as (Hfl & Hn8 & Hval).
    subst bits. cbn [shape_ok abs_val] in *. rewrite Hfl in *. destruct Hs as (bs & -> & Hbs & Hlen).
    cbn [obytes vlist] in *. rewrite flat_map_map' in *. set (esz := Z.to_nat (csize e)) in *.
    set (bits := flat_map _ _) in *.
    assert (Hsum : Z_of_bits bits = bufZ bs).
    { assert (Hlen' : length bs = (cap * esz)%nat) by (unfold esz; nia).
      rewrite <- (concat_chunks cap esz bs Hlen') at 1. apply (flat_map_bufZ _ (fun c => c) esz).
      intros c Hc. destruct (chunks_In cap esz bs c Hlen' Hbs Hc) as [Hc1 Hc2]. unfold esz in Hc2.
      assert (Hsc : shape_ok e (OB c)) by (apply (flat_shape e _ Hfl); exists c; repeat split; [exact Hc1|lia]).
      rewrite (proj1 (IH _ Hwe Hce Hsc)), (Hval c Hc1) by lia. unfold esz. repeat split; lia. }
    split; [|lia]. unfold on_bytes. replace (nbits e * Z.of_nat cap) with (Z.of_nat (length bits)) by lia.
    unfold ctx_at at 1.
    rewrite (base_enc LE LE (Z.of_nat (length bits)) sf i bs eq_refl ltac:(lia) Hi Hr Hbs ltac:(nia));
      [reflexivity|intros HH; discriminate HH|].
    unfold chunk. fold (seg sf i (Z.of_nat (length bits))). rewrite Hseg. cbn [native_val]. rewrite Hsum, Z.mod_small; [reflexivity|].
    pose proof (bufZ_range bs Hbs) as R. rewrite pow256 in R by lia.
    replace (Z.of_nat (length bits)) with (8 * Z.of_nat (length bs)) by lia. exact R.
  Qed.

  Lemma enc_alias u : cenc_ok B E u -> cenc_ok B E (TAlias u).
  Proof.
    intros IH o Hw Hc Hs. cbn [wf cwf shape_ok nbits abs_val enc_bits] in *.
    apply andb_true_iff in Hc. destruct Hc as [Hat Hcu]. destruct (IH o Hw Hcu Hs) as [Hl Hn].
    split; [exact Hl|]. intros sf Hsf i. cbn [core]. rewrite (alias_core B E true u _ o Hat). now apply Hn.
  Qed.

  Lemma enc_array ext cap e : cenc_ok B E e -> cenc_ok B E (TArr ext cap e).
  Proof.
    intros IH o Hw Hc Hs.
    cbn [wf] in Hw. rewrite !andb_true_iff in Hw. destruct Hw as [[Hc1 Hc2] Hwe].
    cbn [cwf] in Hc. apply andb_true_iff in Hc. destruct Hc as [Hel Hce].
    pose proof (nbits_nonneg e Hwe) as Hn. assert (Hcap : 0 <= Z.of_nat cap < 65536) by lia.
    destruct (enc_array_loop ext cap e o IH Hwe Hce Hel Hs) as [Hlb Hloop].
    pose proof (ext_prefix_length ext (Z.of_nat cap)) as Hlp.
    cbn [enc_bits nbits]. split; [rewrite app_length, Nat2Z.inj_add, Hlp; lia|].
    intros sf Hsf i. rewrite app_length, Nat2Z.inj_add, Hlp. intros Hi Hr Hseg.
    destruct (chunk_ext ext (bufZ sf) i _ _ _ Hi (Nat2Z.is_nonneg _) Hcap Hseg) as [H1 H2].
    cbn [core]. unfold endecode_array.
    rewrite andb_false_r, (proj1 (ah_val_facts _ Hcap)), d_nbits_render, d_size_render.
    rewrite (ahead_at B E true HBE ext (Z.of_nat cap) sf i Hcap Hsf Hi ltac:(lia) H1).
    cbn [cbind fst snd]. rewrite cbind_ret, Z.add_assoc.
    destruct (batch_pred B (nbits e) (d_flag (render e)) (d_to_flag (render e))) eqn:Hbp.
    - destruct (enc_batch ext cap e o sf (i + ext_bits ext)) as [Hb Hl]; try assumption || lia.
      exact (batch_copy B E true e cap _ o _ Hbp (csize_nonneg e Hwe) Hb Hl).
    - rewrite Nat2Z.id. apply Hloop; try assumption; lia.
  Qed.

  Lemma enc_msg ext fs : Forall (fun kf => cenc_ok B E (snd kf)) fs -> cenc_ok B E (TMsg ext fs).
  Proof.
    intros IH o Hw Hc Hs.
    pose proof (nbits_nonneg (TMsg ext fs) Hw) as Hnn.
    rewrite wf_msg in Hw. rewrite !andb_true_iff in Hw. destruct Hw as [[Hkd Hnb] Hwf].
    rewrite cwf_msg in Hc. rewrite shape_msg in Hs. destruct Hs as (ofs & -> & Hsf).
    assert (Hcap : 0 <= nbits (TMsg ext fs) < 65536) by lia.
    rewrite abs_val_msg, enc_bits_msg. set (v := VM (abs_fields E (OS ofs) fs)).
    assert (Hv : forall kf fo, In kf fs -> lookup (fst kf) ofs = Some fo -> vfield (fst kf) v = abs_val E (snd kf) fo).
    { intros [k ft] fo Hin Hl. cbn [fst snd] in *. unfold v, vfield.
      rewrite (lookup_abs_fields E ofs fs k ft fo Hkd Hin Hl). reflexivity. }
    pose proof (ext_prefix_length ext (nbits (TMsg ext fs))) as Hlp.
    split; [now rewrite app_length, Nat2Z.inj_add, Hlp, nbits_msg, (proj1 (enc_fields ofs v [] (Forall_nil _) fs 0 IH Hwf Hc Hsf Hv))|].
    intros sf Hs i. destruct (enc_fields ofs v sf Hs fs (i + ext_bits ext) IH Hwf Hc Hsf Hv) as [Hlen Hloop].
    rewrite app_length, Nat2Z.inj_add, Hlp, Hlen. intros Hi Hr Hseg.
    pose proof (fields_nbits_nonneg fs Hwf) as Hfn.
    destruct (chunk_ext ext (bufZ sf) i _ _ _ Hi Hfn Hcap Hseg) as [H1 H2].
    cbn [core]. unfold endecode_message. rewrite andb_false_r, Nat2Z.id, (proj2 (ah_val_facts _ Hcap)).
    rewrite (ahead_at B E true HBE ext _ sf i Hcap Hs Hi ltac:(lia) H1).
    cbn [cbind fst snd]. rewrite cbind_ret, Z.add_assoc. apply Hloop; try assumption; lia.
  Qed.
End EncWalk.

Section EncTop.
  Variables (B E : endian).
  Hypothesis HBE : B = E.

  Lemma enc_scalar n bs z (bits := bits_of (Z.to_nat n) z) sf i :
    1 <= n <= 64 -> bytes_ok bs -> Z.of_nat (length bs) = int_size n -> z mod 2 ^ n = native_val E bs mod 2 ^ n ->
    0 <= i -> i + Z.of_nat (length bits) <= 8 * Z.of_nat (length sf) ->
    seg sf i (Z.of_nat (length bits)) = Z_of_bits bits ->
    on_bytes (OB bs) (base_type B E true n (ctx_at true sf i)) = COk (ctx_at true sf (i + Z.of_nat (length bits)), OB bs).
  Proof.
    intros Hn Hbs Hl Hz Hi Hr Hseg. destruct (width_facts n Hn).
    assert (Hlb : Z.of_nat (length bits) = n) by (unfold bits; rewrite bits_of_length; lia). rewrite Hlb in *.
    unfold on_bytes, ctx_at. rewrite (base_enc B E n sf i bs HBE); try assumption || lia; [reflexivity|].
    unfold bits in Hseg. rewrite Z_of_bits_of, Z2Nat.id in Hseg by lia. now rewrite <- Hz.
  Qed.

  Theorem cenc_ok_all t : cenc_ok B E t.
  Proof.
    induction t as [| | n | n | n ms | t IH | x c e IH | x fs IH] using ty_ind'.
    - intros o _ _ (bs & -> & Hbs & Hl). split; [reflexivity|]. cbn [csize] in Hl.
      destruct bs as [|b [|? ?]]; cbn [length] in Hl; try lia.
      unfold node. cbn [core abs_val enc_bits obytes hd]. rewrite bool_nbits_1.
      change [Z.odd b] with (bits_of (Z.to_nat 1) b).
      intros sf Hsf i. apply (enc_scalar 1 [b] b); try assumption; try lia. now rewrite native_val_single.
    - intros o _ _ (bs & -> & Hbs & Hl). split; [reflexivity|]. cbn [csize] in Hl.
      destruct bs as [|b [|? ?]]; cbn [length] in Hl; try lia.
      unfold node. cbn [core abs_val enc_bits obytes hd zof]. rewrite byte_nbits_8.
      change (bits_of 8 b) with (bits_of (Z.to_nat 8) b).
      intros sf Hsf i. apply (enc_scalar 8 [b] b); try assumption; try lia. now rewrite native_val_single.
    - intros o Hw _ (bs & -> & Hbs & Hl). cbn [csize nbits wf] in *. unfold node. cbn [core abs_val enc_bits obytes zof].
      split; [rewrite bits_of_length; lia|].
      intros sf Hsf i. apply (enc_scalar n bs); try assumption; lia.
    - intros o Hw _ (bs & -> & Hbs & Hl). cbn [csize nbits wf] in *. unfold node. cbn [core abs_val enc_bits obytes zof].
      split; [rewrite bits_of_length; lia|].
      intros sf Hsf i. rewrite endecode_int_enc. apply (enc_scalar n bs); try assumption; lia.
    - intros o Hw _ (bs & -> & Hbs & Hl). cbn [csize nbits wf] in *. rewrite !andb_true_iff in Hw.
      unfold node. cbn [core abs_val enc_bits obytes zof].
      split; [rewrite bits_of_length; lia|].
      intros sf Hsf i. apply (enc_scalar n bs); try assumption; lia.
    - apply enc_alias, IH.
    - apply enc_array, IH; assumption.
    - apply enc_msg, IH; assumption.
  Qed.
End EncTop.

Theorem c_encode_is_wire_abs B E t o :
  B = E -> PyEncTop.is_msg t = true -> wf (norm t) = true -> cwf (norm t) = true ->
  shape_ok (norm t) o ->
  c_encode_ty B E t o = COk (wire t (abs_val E (norm t) o)).
Proof.
  intros HBE Hm Hw Hc Hs. unfold c_encode_ty, c_encode. rewrite (top_core B E true t _ _ Hm).
  set (sf := wire t (abs_val E (norm t) o)). set (T := norm t) in *.
  destruct (cenc_ok_all B E HBE T o Hw Hc Hs) as [Hlen Hnode].
  pose proof (nbits_nonneg T Hw) as Hnn.
  assert (Hsf : bytes_ok sf) by apply pack_bytes_ok.
  assert (Hl : Z.of_nat (length sf) = nbytes t).
  { unfold sf, wire. fold T. rewrite pack_length, Hlen. subst T. now rewrite nbits_norm. }
  assert (Hv : bufZ sf = Z_of_bits (enc_bits T (abs_val E T o))) by apply bufZ_pack.
  pose proof (Z_of_bits_range (enc_bits T (abs_val E T o))) as R. rewrite Hlen in R.
  assert (H0 : {| xs := zeros (Z.to_nat (nbytes t)); xi := 0 |} = ctx_at true sf 0)
    by (unfold ctx_at; now rewrite cut_0, <- Hl, Nat2Z.id).
  rewrite H0.
  assert (Hroom : nbits T <= 8 * Z.of_nat (length sf)).
  { rewrite Hl. unfold nbytes. subst T. rewrite nbits_norm in *. Z.div_mod_to_equations. lia. }
  rewrite (Hnode sf Hsf 0); rewrite ?Hlen; try lia.
  - cbn [cbind fst ctx_at xs]. f_equal. apply cut_full; [exact Hsf|]. rewrite Z.add_0_l. lia.
  - unfold seg. change (2 ^ 0) with 1. rewrite Z.div_1_r, Z.mod_small; lia.
Qed.
