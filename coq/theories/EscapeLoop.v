(* EscapeLoop.v — the escape loop of t_STRING_LITERAL (lexer.py:198-211) is translated twice, over bytes
   (GenC09.escape_loop) and over code points (GenLexer.escape_loop).  Both satisfy the one unfolding
   equation [loop_S] below, so both compute [unesc], the same loop written by recursion on the text
   ([loop_unesc]: for EVERY text, IndexError at a trailing backslash included).  A string body is a
   sequence of UNITS: a character other than the backslash, or a backslash with the character after it.
   On such a body the loop ends with a value or with InvalidEscapingChar — no IndexError (a backslash is
   never last), no KeyError (the table is asked only after the membership test), no fuel exhaustion.
   An instance gives the character type, [is_bs], [mem], [get] and its [loop] with [loop_S] (eq_refl for a
   translated loop); the results over [units] also need [mem_get]. *)
From Coq Require Import String ZArith List Lia.
From BP Require Import ListFacts TotalBase.
Import ListNotations.
Open Scope Z_scope.

Section EscapeLoop.
Variable C : Type.
Variable is_bs : C -> bool.
Variable mem : C -> bool.
Variable get : C -> outcome (list C).

Variable loop : nat -> list C -> Z -> list C -> outcome (list C).
Hypothesis loop_S : forall f s i val,
  loop (S f) s i val =
  if i <? zlen s then
    bind (py_idx s i) (fun c =>
    if is_bs c then
      bind (py_idx s (i + 1)) (fun c =>
      if mem c then bind (py_idx s (i + 1)) (fun c => bind (get c) (fun v => loop f s (i + 1 + 1) (val ++ v)))
      else ParserError "InvalidEscapingChar"%string)
    else bind (py_idx s i) (fun c => loop f s (i + 1) (val ++ [c])))
  else Ok val.

Fixpoint unesc (body val : list C) : outcome (list C) :=
  match body with
  | [] => Ok val
  | c :: r =>
      if is_bs c then
        match r with
        | [] => Crash IndexError
        | d :: r' => if mem d then bind (get d) (fun v => unesc r' (val ++ v))
                     else ParserError "InvalidEscapingChar"%string
        end
      else unesc r (val ++ [c])
  end.

Lemma zlen_snoc_lt (pre : list C) c r : (zlen pre <? zlen (pre ++ c :: r)) = true.
Proof. apply Z.ltb_lt. rewrite zlen_app, zlen_cons. pose proof (zlen_nonneg r). lia. Qed.

Lemma py_idx_end (s : list C) : py_idx s (zlen s) = Crash IndexError.
Proof.
  unfold py_idx. pose proof (zlen_nonneg s). destruct (zlen s <? 0) eqn:E; [apply Z.ltb_lt in E; lia|]. rewrite E.
  unfold zlen. rewrite Nat2Z.id. rewrite (proj2 (nth_error_None s (length s))) by lia. reflexivity.
Qed.

(* the index loop at position |pre| of pre ++ body is the recursion on body; n bounds |body| because a
   pair takes two characters at once *)
Theorem loop_unesc : forall n body, (length body <= n)%nat ->
  forall pre val fuel, (length body < fuel)%nat -> loop fuel (pre ++ body) (zlen pre) val = unesc body val.
Proof.
  induction n as [|n IH]; intros body Hn pre val [|f] Hf; try lia; rewrite loop_S;
    (destruct body as [|c r]; [rewrite app_nil_r, Z.ltb_irrefl; reflexivity|]); cbn [length] in Hn, Hf; [lia|].
  rewrite zlen_snoc_lt, py_idx_app. cbn [bind unesc].
  assert (Z1 : zlen pre + 1 = zlen (pre ++ [c])) by (rewrite zlen_app, zlen_cons, zlen_nil; lia).
  destruct (is_bs c).
  - destruct r as [|d r'].
    + rewrite Z1, py_idx_end. reflexivity.
    + rewrite py_idx_app1. cbn [bind]. destruct (mem d); [|reflexivity]. cbn [bind].
      destruct (get d) as [v| |]; cbn [bind]; try reflexivity.
      replace (pre ++ c :: d :: r') with ((pre ++ [c; d]) ++ r') by (rewrite <- app_assoc; reflexivity).
      replace (zlen pre + 1 + 1) with (zlen (pre ++ [c; d])) by (rewrite zlen_app, !zlen_cons, zlen_nil; lia).
      apply IH; cbn [length] in *; lia.
  - cbn [bind].
    replace (pre ++ c :: r) with ((pre ++ [c]) ++ r) by (rewrite <- app_assoc; reflexivity).
    rewrite Z1. apply IH; lia.
Qed.

Inductive units : list C -> Prop :=
| UNil : units []
| UChar c r : is_bs c = false -> units r -> units (c :: r)
| UPair b d r : is_bs b = true -> units r -> units (b :: d :: r).

Definition loop_good (x : outcome (list C)) : Prop :=
  (exists v, x = Ok v) \/ x = ParserError "InvalidEscapingChar"%string.

Hypothesis mem_get : forall c, mem c = true -> exists v, get c = Ok v.

Lemma unesc_units body : units body -> forall val, loop_good (unesc body val).
Proof.
  induction 1 as [|c r Hc _ IH|b d r Hb _ IH]; intro val; cbn [unesc].
  - left. eauto.
  - rewrite Hc. apply IH.
  - rewrite Hb. destruct (mem d) eqn:Hm; [|right; reflexivity].
    destruct (mem_get d Hm) as (v & ->). apply IH.
Qed.

(* s = t.value[1:-1] of a token  q1 body q2 *)
Lemma py_slice_inner (q1 q2 : C) body : py_slice 1 1 (q1 :: body ++ [q2]) = body.
Proof.
  unfold py_slice. cbn [skipn length]. rewrite app_length. cbn [length].
  replace (S (length body + 1) - 1 - 1)%nat with (length body) by lia.
  apply firstn_app_l.
Qed.

Corollary token_units q1 body q2 : units body ->
  loop_good (loop (S (length (py_slice 1 1 (q1 :: body ++ [q2])))) (py_slice 1 1 (q1 :: body ++ [q2])) 0 []).
Proof.
  intro H. rewrite py_slice_inner, (loop_unesc (length body) body (le_n _) [] []) by lia.
  apply unesc_units, H.
Qed.

End EscapeLoop.
