(* FrontValidProofs.v — Front.check accepts exactly the schemas that satisfy the documented
   constraints (FrontValid.Valid), never stops for lack of fuel (check_fuel_enough), and what it
   rejects it rejects citing a file-level condition or a statement of the cited file that breaks
   the rule cited (check_error_cites). *)
From Coq Require Import ZArith List Bool String Lia.
From BP Require Import ListFacts Schema FrontBase Front FrontProofs FrontValid.
From BPGen Require GenFront.
Import ListNotations.
Open Scope Z_scope.

(* the validators of _ast.py (translated: GenFront) against the documented bounds *)

Lemma uint_cap_bridge n : GenFront.uint_cap_raises n = false <-> width_ok n.
Proof. unfold GenFront.uint_cap_raises, width_ok. lia. Qed.

Lemma int_cap_bridge n : GenFront.int_cap_raises n = false <-> width_ok n.
Proof. unfold GenFront.int_cap_raises, width_ok. lia. Qed.

Lemma array_cap_bridge n : GenFront.array_cap_raises n = false <-> cap_ok n.
Proof. unfold GenFront.array_cap_raises, cap_ok. lia. Qed.

Lemma field_number_bridge n : GenFront.field_number_raises n = false <-> number_ok n.
Proof. unfold GenFront.field_number_raises, number_ok. lia. Qed.

Lemma enum_value_sign_bridge v : GenFront.enum_value_raises v = false <-> 0 <= v.
Proof. unfold GenFront.enum_value_raises. lia. Qed.

Lemma message_size_bridge nb : GenFront.message_size_raises nb = false <-> msg_bits_ok nb.
Proof. unfold GenFront.message_size_raises, msg_bits_ok. lia. Qed.

Lemma nbytes_bridge nb : GenFront.nbytes nb = (nb + 7) / 8.
Proof. unfold GenFront.nbytes. destruct (Z.eqb_spec (nb mod 8) 0); Z.div_mod_to_equations; lia. Qed.

Lemma max_bytes_bridge mb nb :
  GenFront.message_max_bytes_raises mb (GenFront.nbytes nb) = false <-> msg_bytes_ok mb nb.
Proof. rewrite nbytes_bridge. unfold GenFront.message_max_bytes_raises, msg_bytes_ok. lia. Qed.

(* bit_length(v) > n  <->  v >= 2^n   (v >= 0); for n < 0 both sides say "overflows" *)
Lemma enum_overflow_bridge v n :
  0 <= v -> (GenFront.enum_value_overflows v n = false <-> v < 2 ^ n).
Proof.
  intros Hv. unfold GenFront.enum_value_overflows. destruct (Z.leb_spec 0 n) as [Hn|Hn].
  - assert (H : v + 1 <= 2 ^ n <-> Z.log2_up (v + 1) <= n) by (apply Z.log2_up_le_pow2; lia). lia.
  - pose proof (Z.log2_up_nonneg (v + 1)). rewrite Z.pow_neg_r by lia. lia.
Qed.

Lemma ty_nbits_eq t : ty_nbits t = nbits t.
Proof.
  induction t as [| | n | n | n ms | t IH | x c e IH | x fs IH] using ty_ind'; try reflexivity.
  - cbn [ty_nbits nbits]. exact IH.
  - cbn [ty_nbits nbits]. rewrite IH. unfold GenFront.array_nbits, ext_bits. destruct x; cbn [negb]; lia.
  - cbn [ty_nbits nbits]. unfold GenFront.message_nbits, ext_bits.
    assert (E : (fix go (l : list (Z * ty)) : Z :=
                   match l with [] => 0 | kf :: r => ty_nbits (snd kf) + go r end) fs =
                (fix go (l : list (Z * ty)) : Z :=
                   match l with [] => 0 | kf :: r => nbits (snd kf) + go r end) fs).
    { induction fs as [|kf r IHr]; [reflexivity|]. inversion IH as [|? ? Hk Hr]; subst.
      rewrite Hk. f_equal. apply IHr, Hr. }
    rewrite E. destruct x; cbn [negb]; lia.
Qed.

Lemma mem_s_false s l : mem_s s l = false <-> ~ In s l.
Proof. apply existsb_eqb_false, String.eqb_eq. Qed.

Lemma mem_z_false z l : mem_z z l = false <-> ~ In z l.
Proof. apply existsb_eqb_false, Z.eqb_eq. Qed.

Lemma mem_z_map g : (forall a b, g a = g b -> a = b) -> forall k l, mem_z (g k) (map g l) = mem_z k l.
Proof.
  intros Hg k l. unfold mem_z. induction l as [|a r IH]; [reflexivity|]. cbn [map existsb]. rewrite IH. f_equal.
  destruct (Z.eqb_spec k a) as [->|N]; [apply Z.eqb_refl|]. apply Z.eqb_neq. intros E. now apply N, Hg.
Qed.

Lemma ext_trad_false x trad : x && trad = false <-> (x = true -> trad = false).
Proof. destruct x, trad; cbn; intuition congruence. Qed.

Section ResolveSpec.
  Variable file : string.
  Variable trad : bool.
  Variable st : list frame.
  Variable l : Z.

  Lemma resolve_const_ref_spec p v :
    resolve_const_ref file st l p = Ok v <-> const_ref st p v.
  Proof.
    unfold resolve_const_ref, const_ref. split.
    - destruct (lookup st p) as [d|]; [|discriminate]. destruct (def_const d) eqn:E; [|discriminate].
      intros H; inversion H; subst. now exists d.
    - intros [d [-> ->]]. reflexivity.
  Qed.

  Lemma resolve_sty_spec s t r : resolve_sty file st l s = Ok (t, r) <-> sty_ok st s t r.
  Proof.
    split.
    - destruct s as [| |n|n|p]; cbn [resolve_sty]; try (intros H; inversion H; constructor).
      + destruct (GenFront.uint_cap_raises n) eqn:E; [discriminate|].
        intros H; inversion H. constructor. now apply uint_cap_bridge.
      + destruct (GenFront.int_cap_raises n) eqn:E; [discriminate|].
        intros H; inversion H. constructor. now apply int_cap_bridge.
      + intros H. apply resolve_type_ref_spec in H. destruct H as [d [H1 [H2 ->]]]. now apply SORef.
    - intros H. inversion H as [| |n Hw|n Hw|p d t0 H1 H2]; subst; cbn [resolve_sty]; try reflexivity.
      + apply uint_cap_bridge in Hw. now rewrite Hw.
      + apply int_cap_bridge in Hw. now rewrite Hw.
      + apply resolve_type_ref_spec. now exists d.
  Qed.

  Lemma resolve_cap_spec c n : resolve_cap file st l c = Ok n <-> capx_ok st c n.
  Proof.
    split.
    - destruct c as [z|p]; cbn [resolve_cap]; [intros H; inversion H; constructor|].
      destruct (resolve_const_ref file st l p) as [v|] eqn:E; cbn [bind]; [|discriminate].
      apply resolve_const_ref_spec in E. destruct v; intros H; inversion H; subst. now constructor.
    - intros H. inversion H as [|p z Hc]; subst; cbn [resolve_cap]; [reflexivity|].
      apply resolve_const_ref_spec in Hc. now rewrite Hc.
  Qed.

  Lemma resolve_tyx_spec t ty r : resolve_tyx file trad st l t = Ok (ty, r) <-> tyx_ok trad st t ty r.
  Proof.
    split.
    - destruct t as [s|s c ext]; cbn [resolve_tyx].
      + intros H. constructor. now apply resolve_sty_spec.
      + destruct (resolve_sty file st l s) as [[t0 r0]|] eqn:Es; cbn [bind]; [|discriminate].
        destruct (resolve_cap file st l c) as [n|] eqn:Ec; cbn [bind]; [|discriminate].
        destruct (ext && trad) eqn:Ex; [discriminate|].
        destruct (GenFront.array_cap_raises n) eqn:Ea; [discriminate|].
        intros H; inversion H; subst. cbn [fst snd].
        apply TOArr; [now apply resolve_sty_spec|now apply resolve_cap_spec|now apply array_cap_bridge|].
        now apply ext_trad_false.
    - intros H. inversion H as [s t0 r0 Hs|s c ext t0 r0 n Hs Hc Hn Hx]; subst; cbn [resolve_tyx].
      + now apply resolve_sty_spec.
      + apply resolve_sty_spec in Hs. apply resolve_cap_spec in Hc. rewrite Hs, Hc. cbn [bind fst snd].
        apply ext_trad_false in Hx. apply array_cap_bridge in Hn. now rewrite Hx, Hn.
  Qed.

  (* [div0 = true] drops the clause "divisors are non-zero" (FrontValid.cexpr_ok).  What [check]
     accepts meets the clauses either way; conversely only the full set ([div0 = false]) forces
     [check] to accept, since it rejects a division by zero. *)
  Lemma eval_cexpr_sound div0 e z : eval_cexpr file st l e = Ok z -> cexpr_ok div0 st e z.
  Proof.
    revert z. induction e as [z0|p|a IHa b IHb|a IHa b IHb|a IHa b IHb|a IHa b IHb]; intros z; cbn [eval_cexpr].
    3-6: destruct (eval_cexpr file st l a); cbn [bind]; [|discriminate];
         destruct (eval_cexpr file st l b) as [y|]; cbn [bind]; [|discriminate];
         try (destruct (Z.eqb_spec y 0); [discriminate|]);
         intros H; inversion H; constructor; auto.
    - intros H. inversion H. constructor.
    - destruct (resolve_const_ref file st l p) as [v|] eqn:E; cbn [bind]; [|discriminate].
      apply resolve_const_ref_spec in E. destruct v; intros H; inversion H; subst. now constructor.
  Qed.

  Lemma const_ref_fun p v v' : const_ref st p v -> const_ref st p v' -> v = v'.
  Proof. intros [d [H1 H2]] [d' [H3 H4]]. congruence. Qed.

  Lemma eval_cexpr_complete e z : cexpr_ok false st e z -> eval_cexpr file st l e = Ok z.
  Proof.
    induction 1 as [z|p z Hc|a b x y _ IHa _ IHb|a b x y _ IHa _ IHb|a b x y _ IHa _ IHb|a b x y _ IHa _ IHb Hd];
      cbn [eval_cexpr]; try (rewrite IHa, IHb; reflexivity); try reflexivity.
    - apply resolve_const_ref_spec in Hc. now rewrite Hc.
    - rewrite IHa, IHb. cbn [bind]. destruct Hd as [Hd|Hd]; [|discriminate].
      destruct (Z.eqb_spec y 0); [contradiction|reflexivity].
  Qed.

  Lemma eval_cvalx_sound div0 v cv : eval_cvalx file st l v = Ok cv -> cvalx_ok div0 st v cv.
  Proof.
    destruct v as [b|s|p|e]; cbn [eval_cvalx].
    - intros H; inversion H; constructor.
    - intros H; inversion H; constructor.
    - intros H. constructor. now apply resolve_const_ref_spec.
    - destruct (eval_cexpr file st l e) as [z|] eqn:E; cbn [bind]; [|discriminate].
      intros H; inversion H. constructor. now apply eval_cexpr_sound.
  Qed.

  Lemma eval_cvalx_complete v cv : cvalx_ok false st v cv -> eval_cvalx file st l v = Ok cv.
  Proof.
    intros H. inversion H; subst; cbn [eval_cvalx]; try reflexivity.
    - now apply resolve_const_ref_spec.
    - now rewrite (eval_cexpr_complete _ _ H0).
  Qed.

  Lemma eval_optx_spec v cv : eval_optx file st l v = Ok cv <-> optx_ok st v cv.
  Proof.
    destruct v as [v|p]; cbn [eval_optx].
    - split; [intros H; inversion H; constructor|intros H; now inversion H].
    - rewrite resolve_const_ref_spec. split; [now constructor|intros H; now inversion H].
  Qed.
End ResolveSpec.

Lemma vclass_eqb_eq a b : vclass_eqb a b = true <-> a = b.
Proof. destruct a, b; cbn; split; congruence. Qed.

Lemma validate_option_spec table a name v :
  validate_option table a name v = Ok tt <-> option_ok table name v.
Proof.
  unfold validate_option, option_ok. split.
  - destruct (find_odesc name table) as [d|]; [|discriminate].
    destruct (vclass_eqb (class_of v) (class_of (od_default d))) eqn:Ec; [|discriminate]. cbn [negb].
    intros H. exists d. split; [reflexivity|]. split; [now apply vclass_eqb_eq|].
    intros f z Ef ->. rewrite Ef in H. destruct (f z); [reflexivity|discriminate].
  - intros [d [-> [Ec Hv]]]. apply vclass_eqb_eq in Ec. rewrite Ec. cbn [negb].
    destruct (od_validator d) as [f|]; [|now destruct v]. destruct v as [b|z|s]; try reflexivity.
    now rewrite (Hv f z eq_refl eq_refl).
Qed.

Lemma frame_kind_cases f :
  in_file_scope f \/ in_message_scope f \/ exists a n, fk f = FEnum a n.
Proof.
  unfold in_file_scope, in_message_scope. destruct (fk f) as [n|a x|a n]; eauto.
Qed.

Lemma unsupported_spec f ik a :
  unsupported f ik a = Ok tt <->
  match ik with IKAlias | IKConst => in_file_scope f | _ => in_file_or_message f end.
Proof.
  unfold unsupported, in_file_or_message, in_file_scope, in_message_scope.
  destruct (fk f), ik; split; try discriminate; try reflexivity; eauto;
    intros H; decompose [ex or] H; discriminate.
Qed.

Lemma validate_push_option f n a v :
  in_file_or_message f ->
  (validate_on_push f n (DOption a v) = Ok tt <-> option_ok (scope_options f) n v).
Proof.
  unfold validate_on_push, scope_options. intros [[pn E]|[a0 [x E]]]; rewrite E; apply validate_option_spec.
Qed.

Lemma validate_push_field f n a k t r :
  in_message_scope f ->
  (validate_on_push f n (DField a k t r) = Ok tt <-> ~ In k (field_numbers (fmem f))).
Proof.
  unfold validate_on_push. intros [a0 [x ->]]. rewrite <- mem_z_false.
  destruct (mem_z k _); split; congruence.
Qed.

Lemma validate_push_enum_field f n a v a0 w :
  fk f = FEnum a0 w -> 0 <= v ->
  (validate_on_push f n (DEnumField a v) = Ok tt <-> v < 2 ^ w /\ ~ In v (enum_values (fmem f))).
Proof.
  unfold validate_on_push. intros -> Hv. rewrite <- mem_z_false, <- (enum_overflow_bridge v w Hv).
  destruct (GenFront.enum_value_overflows v w); [|destruct (mem_z v _)]; intuition congruence.
Qed.

Lemma inner_items_ok vc kf trad div0 file fstack st f0 body fr :
  (fix go (its : list item) (f f' : frame) : Prop :=
     match its with
     | [] => f' = f
     | i :: r => exists fm, item_ok vc kf trad div0 file fstack st f i fm /\ go r fm f'
     end) body f0 fr <-> items_ok vc kf trad div0 file fstack st f0 body fr.
Proof.
  revert f0. induction body as [|i r IH]; intros f0; cbn [items_ok]; [tauto|].
  split; intros [fm [H1 H2]]; exists fm; (split; [exact H1|]); now apply IH.
Qed.

Lemma lex_not_ok A file l s (a : A) : lex_then_grammar file l s <> Ok a.
Proof.
  destruct s; cbn [lex_then_grammar]; try discriminate;
    match goal with |- (if ?c then _ else _) <> _ => destruct c end; discriminate.
Qed.

Lemma validate_push_plain f n d :
  match d with DOption _ _ | DField _ _ _ _ | DEnumField _ _ => False | _ => True end ->
  validate_on_push f n d = Ok tt.
Proof. unfold validate_on_push. destruct (fk f), d; intros H; try contradiction; reflexivity. Qed.

(* One lemma per construct: the step is [Ok cur'] iff the construct's clause of FrontValid.item_ok
   holds.  [vc stack g d] is the specification's side of [pc]: file g, imported while [stack] is
   being parsed, is valid and elaborates to d (FrontValid.item_ok's valid_child; at top level
   [file_ok n] against [parse_file n]). *)
Section ItemLeaves.
  Variable pc : list string -> string -> res def.
  Variable vc : list string -> string -> def -> Prop.
  Variable kf : string -> bool.
  Variable trad div0 : bool.
  Variable file : string.
  Variable fstack : list string.

  Notation PI := (proc_item pc kf trad file fstack).
  Notation IOK := (item_ok vc kf trad div0 file fstack).

  Lemma proc_proto_spec outer cur l nm cur' :
    PI outer cur (IProto l nm) = Ok cur' <-> IOK outer cur (IProto l nm) cur'.
  Proof.
    cbn [proc_item item_ok]. unfold in_file_scope.
    destruct (fk cur) as [pn|a x|a w]; (split; [intros H; inversion H|intros [[n E] ->]; inversion E]); eauto.
  Qed.

  Lemma proc_option_spec outer cur l nm v cur' :
    PI outer cur (IOption l nm v) = Ok cur' <-> IOK outer cur (IOption l nm v) cur'.
  Proof.
    cbn [proc_item item_ok]. rewrite bind_ok.
    setoid_rewrite eval_optx_spec. setoid_rewrite push_then_spec. setoid_rewrite unsupported_spec.
    split; [intros (cv & ? & ? & Hv & Hu & ?)|intros (Hu & cv & ? & Hv & ? & ?)];
      apply (validate_push_option cur nm (mkloc file l) _ Hu) in Hv; eauto 10.
  Qed.

  Lemma proc_alias_spec outer cur l nm t cur' :
    PI outer cur (IAlias l nm t) = Ok cur' <-> IOK outer cur (IAlias l nm t) cur'.
  Proof.
    cbn [proc_item item_ok]. rewrite bind_ok.
    assert (E : forall tr : ty * option loc,
               match t with
               | XSingle (SRef _) => Err KInvalidAliasedType file l
               | _ => push_then cur IKAlias nm (DAlias (mkloc file l) (fst tr) (snd tr))
               end = Ok cur' <->
               alias_target_unnamed t /\ push_then cur IKAlias nm (DAlias (mkloc file l) (fst tr) (snd tr)) = Ok cur')
      by (intros tr; destruct t as [[| | | |p]|]; cbn [alias_target_unnamed]; intuition discriminate).
    setoid_rewrite E. setoid_rewrite push_then_spec. setoid_rewrite unsupported_spec. split.
    - intros ([ty r] & Ht & ? & ? & _ & ? & ?). apply resolve_tyx_spec in Ht. eauto 10.
    - intros (? & ty & r & Ht & ? & ? & ?). apply resolve_tyx_spec with (file := file) (l := l) in Ht.
      exists (ty, r). repeat split; auto. now apply validate_push_plain.
  Qed.

  Lemma proc_field_spec outer cur l t nm k cur' :
    PI outer cur (IField l t nm k) = Ok cur' <-> IOK outer cur (IField l t nm k) cur'.
  Proof.
    cbn [proc_item item_ok]. rewrite if_ok, bind_ok. setoid_rewrite if_ok.
    setoid_rewrite push_then_spec. setoid_rewrite unsupported_spec. split.
    - intros [[_ H]|(Ep & [ty r] & Ht & [[_ [=]]|(En & Hf & Hv & Hu & ->)])]; [now apply lex_not_ok in H|].
      assert (Hm : in_message_scope cur).
      { destruct Hu as [[pn E]|Hm]; [|exact Hm]. unfold is_proto_frame in Ep. rewrite E in Ep. discriminate. }
      apply resolve_tyx_spec in Ht. apply field_number_bridge in En.
      apply (validate_push_field _ _ _ _ _ _ Hm) in Hv. eauto 10.
    - intros (Hm & ty & r & Ht & Hn & Hu & Hf & ->). pose proof Hm as (a0 & x0 & E). right.
      split; [unfold is_proto_frame; now rewrite E|]. exists (ty, r). split; [now apply resolve_tyx_spec|].
      right. split; [now apply field_number_bridge|].
      repeat split; [exact Hf|now apply validate_push_field|now right].
  Qed.

  Lemma proc_enum_field_spec outer cur l nm v cur' :
    PI outer cur (IEnumField l nm v) = Ok cur' <-> IOK outer cur (IEnumField l nm v) cur'.
  Proof.
    cbn [proc_item item_ok]. unfold is_enum_frame, enum_value_fits. split.
    - destruct (fk cur) as [pn|a0 x0|a0 n0] eqn:Efk; try discriminate. cbn [negb].
      destruct (GenFront.enum_value_raises v) eqn:Es; [discriminate|]. apply enum_value_sign_bridge in Es.
      intros H. apply push_member_spec in H. destruct H as (Hf & Hv & ->).
      apply (validate_push_enum_field _ _ _ _ _ _ Efk Es) in Hv. exists a0, n0. intuition.
    - intros (a0 & n0 & E & [Hv0 Hv1] & Hu & Hf & ->). rewrite E. cbn [negb].
      apply enum_value_sign_bridge in Hv0 as Hs. rewrite Hs.
      apply push_member_spec. repeat split; [exact Hf|]. now apply (validate_push_enum_field _ _ _ _ a0 n0).
  Qed.
End ItemLeaves.

(* For a constant, a nested scope and an import the lemma stops at the part ([eval_cvalx],
   [proc_items], [pc]) whose own specification the caller supplies. *)
Section ItemSteps.
  Variable pc : list string -> string -> res def.
  Variable kf : string -> bool.
  Variable trad : bool.
  Variable file : string.
  Variable fstack : list string.

  Notation PI := (proc_item pc kf trad file fstack).
  Notation PIS := (proc_items pc kf trad file fstack).

  Lemma proc_const_spec outer cur l nm v cur' :
    PI outer cur (IConst l nm v) = Ok cur' <->
    in_file_scope cur /\ exists cv, eval_cvalx file (cur :: outer) l v = Ok cv /\ fresh nm cur /\
                                    cur' = add_member cur nm (DConst (mkloc file l) cv).
  Proof.
    cbn [proc_item]. rewrite bind_ok. setoid_rewrite push_then_spec. setoid_rewrite unsupported_spec.
    split; [intros (cv & ? & ? & _ & ? & ?)|intros (? & cv & ? & ? & ?)]; eauto 10.
    exists cv. repeat split; auto. now apply validate_push_plain.
  Qed.

  Lemma proc_enum_spec outer cur l nm b body cur' :
    PI outer cur (IEnum l nm b body) = Ok cur' <->
    in_file_or_message cur /\
    exists w fr, b = SUint w /\ width_ok w /\
      PIS (cur :: outer) (mkframe (FEnum (mkloc file l) w) []) body = Ok fr /\
      fresh nm cur /\ cur' = add_member cur nm (close_enum (mkloc file l) w fr).
  Proof.
    destruct b as [| |w|w|p];
      try (split; [intros H; cbn [proc_item] in H; now apply lex_not_ok in H|intros (_ & w' & fr & [=] & _)]).
    rewrite proc_item_enum, if_ok, bind_ok, uint_cap_bridge. setoid_rewrite push_then_spec. setoid_rewrite unsupported_spec.
    split.
    - intros [[_ [=]]|(Hw & fr & Hb & Hf & _ & Hu & ->)]. eauto 10.
    - intros (Hu & w' & fr & [= <-] & Hw & Hb & Hf & ->). right. split; [exact Hw|]. exists fr.
      repeat split; auto. now apply validate_push_plain.
  Qed.

  Lemma proc_msg_spec outer cur l nm x body cur' :
    PI outer cur (IMsg l nm x body) = Ok cur' <->
    in_file_or_message cur /\ (x = true -> trad = false) /\
    exists fr, PIS (cur :: outer) (mkframe (FMsg (mkloc file l) x) []) body = Ok fr /\
      let mem := rev (fmem fr) in
      let t := TMsg x (msg_fields mem) in
      msg_bits_ok (nbits t) /\ msg_bytes_ok (max_bytes_of mem) (nbits t) /\
      fresh nm cur /\ cur' = add_member cur nm (DMsg (mkloc file l) t mem).
  Proof.
    assert (Ecl : forall fr d, close_msg (mkloc file l) x fr = Ok d <->
              msg_bits_ok (nbits (TMsg x (msg_fields (rev (fmem fr))))) /\
              msg_bytes_ok (max_bytes_of (rev (fmem fr))) (nbits (TMsg x (msg_fields (rev (fmem fr))))) /\
              d = DMsg (mkloc file l) (TMsg x (msg_fields (rev (fmem fr)))) (rev (fmem fr))).
    { intros fr d. unfold close_msg. rewrite ty_nbits_eq, <- message_size_bridge, <- max_bytes_bridge.
      destruct (GenFront.message_size_raises _); [intuition discriminate|].
      destruct (GenFront.message_max_bytes_raises _ _); [intuition discriminate|]. intuition congruence. }
    rewrite proc_item_msg, if_ok, bind_ok, ext_trad_false. setoid_rewrite bind_ok. setoid_rewrite Ecl.
    setoid_rewrite push_then_spec. setoid_rewrite unsupported_spec. cbv zeta. split.
    - intros [[_ [=]]|(Hx & fr & Hb & d & (H1 & H2 & ->) & Hf & _ & Hu & ->)].
      split; [exact Hu|]. split; [exact Hx|]. exists fr. now repeat split.
    - intros (Hu & Hx & fr & Hb & H1 & H2 & Hf & ->). right. split; [exact Hx|]. exists fr. split; [exact Hb|].
      eexists. split; [now repeat split|]. repeat split; auto. now apply validate_push_plain.
  Qed.

  (* up to the push of the imported file's Proto, which is accepted when it is one *)
  Lemma proc_import_spec outer cur l a g cur' :
    PI outer cur (IImport l a g) = Ok cur' <->
    in_file_scope cur /\ kf g = true /\ ~ In g fstack /\
    ~ In g (imported_files (fmem (last_frame cur outer))) /\
    exists child name,
      pc fstack g = Ok child /\
      name = match a, child with Some n, _ => n | None, DProto _ n _ => n | None, _ => EmptyString end /\
      fresh name (last_frame cur outer) /\ push_member cur name child = Ok cur'.
  Proof.
    cbn [proc_item]. unfold in_file_scope. split.
    - destruct (kf g) eqn:Ek; cbn [negb]; [|discriminate].
      destruct (mem_s g fstack) eqn:Ec; [discriminate|].
      destruct (mem_s g (imported_files (fmem (last_frame cur outer)))) eqn:Ed; [discriminate|].
      destruct (pc fstack g) as [child|] eqn:Ep; cbn [bind]; [|discriminate].
      match goal with |- (if has_name ?n _ then _ else _) = _ -> _ => set (name := n) end.
      destruct (has_name name (fmem (last_frame cur outer))) eqn:En; [discriminate|].
      destruct (push_member cur name child) as [f'|] eqn:Em; cbn [bind]; [|discriminate].
      destruct (fk cur) as [pn|a0 x0|a0 n0] eqn:Efk; try discriminate. intros [= <-].
      apply mem_s_false in Ec, Ed. split; [eauto|]. repeat split; auto. now exists child, name.
    - intros ([pn E] & Hk & Hc & Hd & child & name & Hp & Hn & Hf1 & Hm).
      rewrite Hk. cbn [negb]. apply mem_s_false in Hc, Hd. rewrite Hc, Hd, Hp. cbn [bind]. rewrite <- Hn.
      unfold fresh in Hf1. rewrite Hf1, Hm. cbn [bind]. now rewrite E.
  Qed.
End ItemSteps.

Section ItemEquiv.
  Variable pc : list string -> string -> res def.
  Variable vc : list string -> string -> def -> Prop.
  Variable kf : string -> bool.
  Variable trad : bool.
  Variable file : string.
  Variable fstack : list string.

  Notation PI := (proc_item pc kf trad file fstack).
  Notation PIS := (proc_items pc kf trad file fstack).

  Lemma proc_sound div0 :
    (forall stk g d, pc stk g = Ok d -> vc stk g d) ->
    (forall it outer cur cur',
       PI outer cur it = Ok cur' -> item_ok vc kf trad div0 file fstack outer cur it cur') /\
    (forall its outer cur cur',
       PIS outer cur its = Ok cur' -> items_ok vc kf trad div0 file fstack outer cur its cur').
  Proof.
    intros Hpc. apply item_list_ind.
    - intros l nm outer cur cur'. apply proc_proto_spec.
    - intros l a g outer cur cur' H. apply proc_import_spec in H.
      destruct H as (? & ? & ? & ? & child & name & Hp & ? & ? & Hm). repeat (split; [assumption|]).
      apply push_member_spec in Hm. destruct Hm as (? & _ & ?). exists child, name. split; [now apply Hpc|auto].
    - intros l nm v outer cur cur'. apply proc_option_spec.
    - intros l nm v outer cur cur' H. apply proc_const_spec in H. destruct H as (? & cv & Hv & ?).
      split; [assumption|]. exists cv. split; [exact (eval_cvalx_sound _ _ _ div0 _ _ Hv)|assumption].
    - intros l nm t outer cur cur'. apply proc_alias_spec.
    - intros l nm b body IH outer cur cur' H. apply proc_enum_spec in H.
      destruct H as (? & w & fr & -> & ? & Hb & ?). split; [assumption|]. exists w, fr.
      repeat (split; [easy|]). split; [apply inner_items_ok; now apply IH|assumption].
    - intros l nm x body IH outer cur cur' H. apply proc_msg_spec in H.
      destruct H as (? & ? & fr & Hb & ?). repeat (split; [assumption|]). exists fr.
      split; [apply inner_items_ok; now apply IH|assumption].
    - intros l t nm k outer cur cur'. apply proc_field_spec.
    - intros l nm v outer cur cur'. apply proc_enum_field_spec.
    - intros outer cur cur' H. inversion H. reflexivity.
    - intros i r Hi Hr outer cur cur' H. cbn [proc_items] in H. apply bind_ok in H.
      destruct H as (fm & Hi' & Hr'). exists fm. split; [now apply Hi|now apply Hr].
  Qed.

  Hypothesis Hpr : forall stk g d, pc stk g = Ok d -> exists f n m, d = DProto f n m.

  Lemma proc_complete :
    (forall stk g d, vc stk g d -> pc stk g = Ok d) ->
    (forall it outer cur cur',
       item_ok vc kf trad false file fstack outer cur it cur' -> PI outer cur it = Ok cur') /\
    (forall its outer cur cur',
       items_ok vc kf trad false file fstack outer cur its cur' -> PIS outer cur its = Ok cur').
  Proof.
    intros Hvc. apply item_list_ind.
    - intros l nm outer cur cur'. apply proc_proto_spec.
    - intros l a g outer cur cur' (? & ? & ? & ? & child & name & Hv & ? & ? & ? & ->). apply Hvc in Hv.
      apply proc_import_spec. repeat (split; [assumption|]). exists child, name. repeat (split; [assumption|]).
      apply push_member_spec. repeat split; [assumption|]. destruct (Hpr _ _ _ Hv) as (f0 & n0 & m0 & ->). now apply validate_push_plain.
    - intros l nm v outer cur cur'. apply proc_option_spec.
    - intros l nm v outer cur cur' (? & cv & Hv & ?). apply proc_const_spec.
      split; [assumption|]. exists cv. split; [exact (eval_cvalx_complete _ _ _ _ _ Hv)|assumption].
    - intros l nm t outer cur cur'. apply proc_alias_spec.
    - intros l nm b body IH outer cur cur' (? & w & fr & -> & ? & Hb & ?). apply proc_enum_spec.
      split; [assumption|]. exists w, fr. repeat (split; [easy|]). split; [now apply IH, inner_items_ok|assumption].
    - intros l nm x body IH outer cur cur' (? & ? & fr & Hb & ?). apply proc_msg_spec.
      repeat (split; [assumption|]). exists fr. split; [now apply IH, inner_items_ok|assumption].
    - intros l t nm k outer cur cur'. apply proc_field_spec.
    - intros l nm v outer cur cur'. apply proc_enum_field_spec.
    - intros outer cur cur' H. cbn [items_ok] in H. now subst.
    - intros i r Hi Hr outer cur cur' (fm & H1 & H2). cbn [proc_items]. apply bind_ok. exists fm. split; [now apply Hi|now apply Hr].
  Qed.
End ItemEquiv.

(* read against itself, [pc] needs no specification *)
Lemma proc_item_ok pc kf trad file fstack outer cur it cur' :
  proc_item pc kf trad file fstack outer cur it = Ok cur' ->
  item_ok (fun stk g d => pc stk g = Ok d) kf trad false file fstack outer cur it cur'.
Proof. apply (proj1 (proc_sound pc _ kf trad file fstack false (fun _ _ _ H => H))). Qed.

Lemma file_ok_proto n fs trad div0 stk g d :
  file_ok n fs trad div0 stk g d -> exists f nm m, d = DProto f nm m.
Proof. destruct n; [contradiction|]. intros [its [fr [name [_ [_ [_ ->]]]]]]. eauto. Qed.

Lemma file_sound div0 fs trad : forall n fstack f d,
  parse_file n fs trad fstack f = Ok d -> file_ok n fs trad div0 fstack f d.
Proof.
  induction n as [|n IH]; intros fstack f d H; [discriminate|].
  cbn [parse_file] in H. cbn [file_ok].
  destruct (assoc f fs) as [its|] eqn:Ea; [|discriminate].
  destruct (proc_items _ _ _ _ _ _ _ its) as [fr|] eqn:Ep; cbn [bind] in H; [|discriminate].
  destruct (fk fr) as [[name|]| |] eqn:Ek; try discriminate. inversion H; subst d.
  exists its, fr, name. repeat split; try assumption.
  apply (proj2 (proc_sound (parse_file n fs trad) (file_ok n fs trad div0) _ _ _ _ div0 IH)), Ep.
Qed.

Lemma file_complete fs trad : forall n fstack f d,
  file_ok n fs trad false fstack f d -> parse_file n fs trad fstack f = Ok d.
Proof.
  induction n as [|n IH]; intros fstack f d H; [contradiction|].
  cbn [file_ok] in H. destruct H as [its [fr [name [Ha [Hi [Hk ->]]]]]].
  cbn [parse_file]. rewrite Ha.
  rewrite (proj2 (proc_complete (parse_file n fs trad) (file_ok n fs trad false) (known fs) trad f (f :: fstack)
                    (parse_file_proto fs trad n) IH) _ _ _ _ Hi).
  cbn [bind]. now rewrite Hk.
Qed.

Definition item_line (it : item) : Z :=
  match it with
  | IProto l _ | IImport l _ _ | IOption l _ _ | IConst l _ _ | IAlias l _ _ | IEnum l _ _ _
  | IMsg l _ _ _ | IField l _ _ _ | IEnumField l _ _ => l
  end.

(* [sub it0 it]: statement it0 is it or occurs (at any depth) in the body of it *)
Inductive sub : item -> item -> Prop :=
| sub_refl it : sub it it
| sub_msg it0 l n x body i : In i body -> sub it0 i -> sub it0 (IMsg l n x body)
| sub_enum it0 l n b body i : In i body -> sub it0 i -> sub it0 (IEnum l n b body).

(* the first token of the statement's type is uintN / intN *)
Definition mentions_sty (it : item) (s : sty) : Prop :=
  match it with
  | IField _ t _ _ | IAlias _ _ t => tyx_head t = s
  | IEnum _ _ b _ => b = s
  | _ => False
  end.

(* what a rejection of kind k says of the statement it cites: for a width, a field number and an
   aliased type, that the documented rule is broken; for the other kinds listed, only which
   construct the statement is; for the rest, nothing *)
Definition rule_broken (k : kind) (it : item) : Prop :=
  match k with
  | KInvalidUintCap => exists n, mentions_sty it (SUint n) /\ ~ width_ok n
  | KInvalidIntCap => exists n, mentions_sty it (SInt n) /\ ~ width_ok n
  | KInvalidFieldNumber => exists l t nm num, it = IField l t nm num /\ ~ number_ok num
  | KInvalidArrayCap => exists s c x, (exists l nm num, it = IField l (XArr s c x) nm num) \/
                                      (exists l nm, it = IAlias l nm (XArr s c x))
  | KEnumValueOverflow | KDupEnumValue | KInvalidEnumFieldValue => exists l nm v, it = IEnumField l nm v
  | KDupFieldNumber => exists l t nm num, it = IField l t nm num
  | KMessageSizeOverflows => exists l nm x body, it = IMsg l nm x body
  | KInvalidAliasedType => exists l nm p, it = IAlias l nm (XSingle (SRef p))
  | _ => True
  end.

(* cited without a line (l = 0).  KDuplicatedDefinition is among them for an import whose name is
   taken: the clash cites the imported Proto, whose place is its file at line 0 (Front.def_loc). *)
Definition file_level (k : kind) : Prop :=
  k = KIOError \/ k = KProtoNameUndefined \/ k = KDuplicatedDefinition \/ k = KFuel.

(* what [push_member] can object to, and which definition it then objects to *)
Definition member_kind_ok (k : kind) (d : def) : Prop :=
  match k with
  | KDupFieldNumber => exists a n t r, d = DField a n t r
  | KEnumValueOverflow | KDupEnumValue => exists a v, d = DEnumField a v
  | KUnsupportedOption | KInvalidOptionValue => exists a v, d = DOption a v
  | KDuplicatedDefinition => True
  | _ => False
  end.

(* the kinds of the `*_item_unsupported` productions *)
Definition unsupported_kind (k : kind) : Prop :=
  match k with
  | KAliasInMessage | KConstInMessage | KAliasInEnum | KConstInEnum | KOptionInEnum
  | KEnumInEnum | KMessageInEnum | KFieldInEnum => True
  | _ => False
  end.

(* [push_then] = [push_member], then the scope's refusal of the construct *)
Definition rule_kind_ok (k : kind) (d : def) : Prop := member_kind_ok k d \/ unsupported_kind k.

Section Cites.
  Variable pc : list string -> string -> res def.
  Variable kf : string -> bool.
  Variable trad : bool.
  Variable file : string.
  Variable fstack : list string.
  Hypothesis Hpc_proto : forall stk g d, pc stk g = Ok d -> exists f n m, d = DProto f n m.

  Notation PI := (proc_item pc kf trad file fstack).
  Notation PIS := (proc_items pc kf trad file fstack).

  Definition from_import (k : kind) (f : string) (l : Z) : Prop :=
    (exists g, called kf fstack g /\ pc fstack g = Err k f l) \/ (l = 0 /\ file_level k /\ k <> KFuel).

  Definition own (it : item) (k : kind) (f : string) (l : Z) : Prop :=
    f = file /\ l = item_line it /\ k <> KFuel /\ rule_broken k it.

  Definition cites_here (it : item) (k : kind) (f : string) (l : Z) : Prop :=
    k <> KFuel /\ exists it0, sub it0 it /\ f = file /\ l = item_line it0 /\ rule_broken k it0.

  Definition cites (it : item) (k : kind) (f : string) (l : Z) : Prop := from_import k f l \/ cites_here it k f l.

  Lemma own_cites it k f l : own it k f l -> cites it k f l.
  Proof. intros [-> [-> [Hk Hr]]]. right. split; [exact Hk|]. exists it. repeat split; [apply sub_refl|exact Hr]. Qed.

  (* kinds that ask nothing of the cited statement *)
  Definition plain (k : kind) : bool :=
    match k with
    | KRefConstNotDefined | KRefNotConst | KRefTypeNotDefined | KRefNotType | KCalcExpr
    | KExtensibleInTraditional | KGrammar | KCyclicImport | KDuplicatedImport | KDuplicatedDefinition
    | KProtoNameOutOfScope | KImportInMessage | KImportInEnum => true
    | _ => false
    end.

  Lemma own_plain it k f l : plain k = true -> f = file -> l = item_line it -> own it k f l.
  Proof. intros Hk -> ->. destruct k; try discriminate; repeat split; (discriminate || exact I). Qed.

  Lemma own_here it k : k <> KFuel -> rule_broken k it -> own it k file (item_line it).
  Proof. now repeat split. Qed.

  Lemma own_uint it n : mentions_sty it (SUint n) -> GenFront.uint_cap_raises n = true ->
    own it KInvalidUintCap file (item_line it).
  Proof.
    intros Hm E. apply own_here; [discriminate|]. exists n. split; [exact Hm|].
    intros Hw. apply uint_cap_bridge in Hw. congruence.
  Qed.

  Lemma own_int it n : mentions_sty it (SInt n) -> GenFront.int_cap_raises n = true ->
    own it KInvalidIntCap file (item_line it).
  Proof.
    intros Hm E. apply own_here; [discriminate|]. exists n. split; [exact Hm|].
    intros Hw. apply int_cap_bridge in Hw. congruence.
  Qed.

  Lemma lex_own A it s : mentions_sty it s -> errs (@lex_then_grammar A file (item_line it) s) (own it).
  Proof.
    intros Hm. destruct s as [| |n|n|p]; cbn [lex_then_grammar]; try (apply errs_err; now apply own_plain);
      apply errs_if; intros E; apply errs_err; try (now apply own_plain); [now apply (own_uint it n)|now apply (own_int it n)].
  Qed.

  Lemma resolve_const_own it st p : errs (resolve_const_ref file st (item_line it) p) (own it).
  Proof.
    unfold resolve_const_ref. destruct (lookup st p) as [d|]; [destruct (def_const d)|];
      (apply errs_ok || (apply errs_err; now apply own_plain)).
  Qed.

  Lemma resolve_sty_own it st s : mentions_sty it s -> errs (resolve_sty file st (item_line it) s) (own it).
  Proof.
    intros Hm. destruct s as [| |n|n|p]; cbn [resolve_sty]; try apply errs_ok.
    - apply errs_if; intros E; [apply errs_err; now apply (own_uint it n)|apply errs_ok].
    - apply errs_if; intros E; [apply errs_err; now apply (own_int it n)|apply errs_ok].
    - unfold resolve_type_ref. destruct (lookup st p) as [d|]; [destruct (def_type d)|];
        (apply errs_ok || (apply errs_err; now apply own_plain)).
  Qed.

  Definition has_tyx (it : item) (t : tyx) : Prop :=
    match it with IField _ t' _ _ | IAlias _ _ t' => t' = t | _ => False end.

  Lemma resolve_tyx_own it st t : has_tyx it t -> errs (resolve_tyx file trad st (item_line it) t) (own it).
  Proof.
    intros Ht.
    assert (Hm : mentions_sty it (tyx_head t)) by (destruct it; try contradiction; cbn in Ht |- *; now subst).
    destruct t as [s|s c ext]; cbn [resolve_tyx tyx_head] in *; [now apply resolve_sty_own|].
    assert (Hcap : own it KInvalidArrayCap file (item_line it)).
    { apply own_here; [discriminate|]. exists s, c, ext. destruct it; try contradiction; cbn in Ht; subst; eauto 6. }
    apply errs_bind; [now apply resolve_sty_own|intros er _]. apply errs_bind.
    { destruct c as [z|p]; cbn [resolve_cap]; [apply errs_ok|]. apply errs_bind; [apply resolve_const_own|].
      intros [b|z|s0] _; (apply errs_ok || now apply errs_err). }
    intros n _. apply errs_if; intros _; [apply errs_err; now apply own_plain|].
    apply errs_if; intros _; [now apply errs_err|apply errs_ok].
  Qed.

  Lemma eval_cexpr_own it st e : errs (eval_cexpr file st (item_line it) e) (own it).
  Proof.
    induction e as [z|p|a IHa b IHb|a IHa b IHb|a IHa b IHb|a IHa b IHb]; cbn [eval_cexpr]; try apply errs_ok.
    (* the four operators: an operand's error, or the division by zero *)
    2-5: apply errs_bind; [exact IHa|intros x _]; apply errs_bind; [exact IHb|intros y _];
         try (apply errs_if; intros _; [apply errs_err; now apply own_plain|]); apply errs_ok.
    apply errs_bind; [apply resolve_const_own|]. intros [] _; (apply errs_ok || (apply errs_err; now apply own_plain)).
  Qed.

  (* an error at the definition's own place, of a kind that [K] admits for it *)
  Definition at_def (K : kind -> def -> Prop) (d : def) (k : kind) (f : string) (l : Z) : Prop :=
    f = lfile (def_loc d) /\ l = lline (def_loc d) /\ K k d.

  Lemma validate_err cur nm d : errs (validate_on_push cur nm d) (at_def member_kind_ok d).
  Proof.
    unfold validate_on_push, validate_option.
    repeat match goal with
           | |- errs (match ?x with _ => _ end) _ => destruct x
           | |- errs (if ?c then _ else _) _ => destruct c
           end; (apply errs_ok || (apply errs_err; repeat split; cbn [member_kind_ok]; eauto)).
  Qed.

  Lemma push_member_err cur nm d : errs (push_member cur nm d) (at_def member_kind_ok d).
  Proof.
    unfold push_member. apply errs_if; intros _; [apply errs_err; now repeat split|].
    apply errs_bind; [apply validate_err|intros; apply errs_ok].
  Qed.

  Lemma member_rule d k f l : at_def member_kind_ok d k f l -> at_def rule_kind_ok d k f l.
  Proof. intros (Hf & Hl & Hk). repeat split; auto. now left. Qed.

  Lemma push_then_err cur ik nm d : errs (push_then cur ik nm d) (at_def rule_kind_ok d).
  Proof.
    unfold push_then. apply errs_bind.
    - apply (errs_imp _ _ _ (push_member_err cur nm d)), member_rule.
    - intros f' _. apply errs_bind; [|intros; apply errs_ok]. unfold unsupported.
      destruct (fk cur), ik; (apply errs_ok || (apply errs_err; repeat split; right; exact I)).
  Qed.

  Definition built_by (it : item) (d : def) : Prop :=
    def_loc d = mkloc file (item_line it) /\
    match d with
    | DField _ _ _ _ => exists l t nm num, it = IField l t nm num
    | DEnumField _ _ => exists l nm v, it = IEnumField l nm v
    | _ => True
    end.

  Lemma pushed_own it d : built_by it d -> forall k f l, at_def rule_kind_ok d k f l -> own it k f l.
  Proof.
    intros [Hl Hs] k f l [-> [-> Hk]]. rewrite Hl. repeat split.
    - intros ->. now destruct Hk.
    - destruct Hk as [Hk|Hk]; destruct k; cbn [member_kind_ok unsupported_kind rule_broken] in *;
        try exact I; try contradiction; decompose [ex] Hk; subst; exact Hs.
  Qed.

  Lemma push_then_own it cur ik nm d : built_by it d -> errs (push_then cur ik nm d) (own it).
  Proof. intros Hb. apply (errs_imp _ _ _ (push_then_err cur ik nm d)), pushed_own, Hb. Qed.

  Lemma push_member_own it cur nm d : built_by it d -> errs (push_member cur nm d) (own it).
  Proof.
    intros Hb. apply (errs_imp _ _ _ (push_member_err cur nm d)). intros k f l H. now apply (pushed_own it d Hb), member_rule.
  Qed.

  Lemma own_errs {A} (r : res A) it : errs r (own it) -> errs r (cites it).
  Proof. intros H. apply (errs_imp r _ _ H), own_cites. Qed.

  Lemma body_errs {A} (r : res A) it body :
    (forall i it0, In i body -> sub it0 i -> sub it0 it) ->
    errs r (fun k f l => from_import k f l \/ exists i, In i body /\ cites_here i k f l) -> errs r (cites it).
  Proof.
    intros Hs H. apply (errs_imp r _ _ H). intros k f l [Hc|[i [Hin [Hnk [it0 [Hs0 Hrest]]]]]]; [now left|].
    right. split; [exact Hnk|]. exists it0. split; [now apply (Hs i)|exact Hrest].
  Qed.

  Theorem proc_error_cites :
    (forall it outer cur, errs (PI outer cur it) (cites it)) /\
    (forall its outer cur, errs (PIS outer cur its)
       (fun k f l => from_import k f l \/ exists i, In i its /\ cites_here i k f l)).
  Proof.
    apply item_list_ind;
      [intros l0 nm|intros l0 a g|intros l0 nm v|intros l0 nm v|intros l0 nm t|intros l0 nm b body IH
      |intros l0 nm x body IH|intros l0 t nm num|intros l0 nm v|intros; apply errs_ok|intros i r Hi Hr];
      intros outer cur;
      try match goal with |- errs _ (cites ?i) => set (it := i) at 2 end.
    - (* proto *)
      apply own_errs. cbn [proc_item]. destruct (fk cur); (apply errs_ok || (apply errs_err; now apply own_plain)).
    - (* import *)
      cbn [proc_item]. apply errs_if; intros Ek.
      { apply errs_err. left. right. unfold file_level. split; [reflexivity|]. split; [tauto|discriminate]. }
      apply negb_false_iff in Ek.
      apply errs_if; intros Ec; [apply own_errs, errs_err; now apply own_plain|].
      apply errs_if; intros _; [apply own_errs, errs_err; now apply own_plain|].
      apply errs_bind. { intros k f l Ep. left. left. exists g. now repeat split. }
      intros child Ep. destruct (Hpc_proto _ _ _ Ep) as [cf [cn [cm ->]]].
      apply errs_if; intros _; [apply own_errs, errs_err; now apply own_plain|].
      apply errs_bind; [|intros f' _; destruct (fk cur); (apply errs_ok || (apply own_errs, errs_err; now apply own_plain))].
      (* a pushed Proto can only clash by name; it cites the imported file, line 0 *)
      apply (errs_imp _ _ _ (push_member_err cur _ _)). intros k f l [-> [-> Hk]].
      left. right. split; [reflexivity|]. unfold file_level.
      destruct k; cbn [member_kind_ok] in Hk; try contradiction; decompose [ex] Hk; try discriminate.
      split; [tauto|discriminate].
    - (* option *)
      apply own_errs. cbn [proc_item]. apply errs_bind; [|intros cv _; now apply (push_then_own it)].
      destruct v as [cv|p]; cbn [eval_optx]; [apply errs_ok|apply (resolve_const_own it)].
    - (* const *)
      apply own_errs. cbn [proc_item]. apply errs_bind; [|intros cv _; now apply (push_then_own it)].
      destruct v as [b|s|p|e]; cbn [eval_cvalx]; try apply errs_ok; [apply (resolve_const_own it)|].
      apply errs_bind; [apply (eval_cexpr_own it)|intros; apply errs_ok].
    - (* alias *)
      apply own_errs. cbn [proc_item]. apply errs_bind; [now apply (resolve_tyx_own it)|intros tr _].
      destruct t as [[| | | |p]|]; try (now apply (push_then_own it)).
      apply errs_err, own_here; [discriminate|]. now exists l0, nm, p.
    - (* enum *)
      destruct b as [| |w|w|p]; try (apply own_errs; now apply (lex_own _ it)).
      rewrite proc_item_enum. apply errs_if; intros Ew; [apply own_errs, errs_err; now apply (own_uint it w)|].
      apply errs_bind; [|intros fr _; apply own_errs; now apply (push_then_own it)].
      apply (body_errs _ it body); [intros; eapply sub_enum; eassumption|apply IH].
    - (* message *)
      rewrite proc_item_msg. apply errs_if; intros _; [apply own_errs, errs_err; now apply own_plain|].
      apply errs_bind; [apply (body_errs _ it body); [intros; eapply sub_msg; eassumption|apply IH]|intros fr _].
      apply own_errs, errs_bind; [|intros d Ec; apply close_msg_fields in Ec; subst d; now apply (push_then_own it)].
      assert (Hsz : own it KMessageSizeOverflows (lfile (mkloc file l0)) (lline (mkloc file l0))).
      { apply (own_here it); [discriminate|]. now exists l0, nm, x, body. }
      unfold close_msg. apply errs_if; intros _; [now apply errs_err|]. apply errs_if; intros _; [now apply errs_err|apply errs_ok].
    - (* field *)
      apply own_errs. cbn [proc_item]. apply errs_if; intros _; [now apply (lex_own _ it)|].
      apply errs_bind; [now apply (resolve_tyx_own it)|intros tr _]. apply errs_if; intros En.
      { apply errs_err, own_here; [discriminate|]. exists l0, t, nm, num. split; [reflexivity|].
        intros Hn. apply field_number_bridge in Hn. congruence. }
      apply (push_then_own it). split; [reflexivity|]. now exists l0, t, nm, num.
    - (* enum member *)
      apply own_errs. cbn [proc_item]. apply errs_if; intros _; [apply errs_err; now apply own_plain|].
      apply errs_if; intros _; [apply errs_err, own_here; [discriminate|]; now exists l0, nm, v|].
      apply (push_member_own it). split; [reflexivity|]. now exists l0, nm, v.
    - cbn [proc_items]. apply errs_bind.
      + apply (errs_imp _ _ _ (Hi outer cur)). intros k f l [Hc|Hc]; [now left|]. right. exists i. split; [now left|exact Hc].
      + intros fm _. apply (errs_imp _ _ _ (Hr outer fm)). intros k f l [Hc|[i' [Hin Hc]]]; [now left|]. right. exists i'. split; [now right|exact Hc].
  Qed.
End Cites.

Section NoFuel.
  Variable pc : list string -> string -> res def.
  Variable kf : string -> bool.
  Variable trad : bool.
  Variable file : string.
  Variable fstack : list string.
  Hypothesis Hpc_proto : forall stk g d, pc stk g = Ok d -> exists f n m, d = DProto f n m.
  Hypothesis Hnf : forall g, called kf fstack g -> errs (pc fstack g) nofuel.

  (* every error is classified above, and no class contains KFuel *)
  Lemma proc_items_nofuel its outer cur : errs (proc_items pc kf trad file fstack outer cur its) nofuel.
  Proof.
    apply (errs_imp _ _ _ (proj2 (proc_error_cites pc kf trad file fstack Hpc_proto) its outer cur)).
    intros k f l [[(g & Hc & Hg)|(_ & _ & N)]|(i & _ & N & _)]; try exact N. exact (Hnf g Hc _ _ _ Hg).
  Qed.
End NoFuel.

Lemma parse_file_mono fs trad : forall n fstack f,
  errs (parse_file n fs trad fstack f) nofuel ->
  parse_file (S n) fs trad fstack f = parse_file n fs trad fstack f.
Proof.
  induction n as [|n IH]; intros fstack f H; [now destruct (H _ _ _ eq_refl)|].
  cbn [parse_file] in H |- *. destruct (assoc f fs) as [its|]; [|reflexivity].
  apply errs_bind_inv in H.
  rewrite (proj2 (proc_ext (parse_file n fs trad) (parse_file (S n) fs trad) (known fs) (known fs) trad f (f :: fstack)
                    nofuel (fun _ => eq_refl) (fun g _ => IH (f :: fstack) g))); [reflexivity|exact H].
Qed.

Lemma parse_file_mono_le fs trad fstack f m n :
  (n <= m)%nat -> errs (parse_file n fs trad fstack f) nofuel ->
  parse_file m fs trad fstack f = parse_file n fs trad fstack f.
Proof.
  intros Hle H. induction Hle as [|m _ IH]; [reflexivity|].
  rewrite <- IH. apply parse_file_mono. now rewrite IH.
Qed.

Lemma known_in fs g : known fs g = true -> In g (map fst fs).
Proof.
  unfold known. induction fs as [|h r IH]; cbn [assoc map In]; [discriminate|].
  destruct (String.eqb_spec (fst h) g) as [->|N]; [now left|]. intros H. right. now apply IH.
Qed.

Lemma stack_bounded fs (l : list string) :
  NoDup l -> (forall g, In g l -> known fs g = true) -> (List.length l <= List.length fs)%nat.
Proof.
  intros ND Hk. rewrite <- (map_length fst fs). apply NoDup_incl_length; [exact ND|].
  intros g Hg. apply known_in. now apply Hk.
Qed.

Lemma parse_file_nofuel fs trad : forall n fstack f,
  NoDup fstack -> (forall g, In g fstack -> known fs g = true) ->
  (List.length fs < n + List.length fstack)%nat ->
  ~ In f fstack -> known fs f = true ->
  errs (parse_file n fs trad fstack f) nofuel.
Proof.
  induction n as [|n IH]; intros fstack f ND Hk Hlen Hnf Hf.
  - (* the stack is duplicate-free and made of known files: it cannot outgrow fs *)
    exfalso.
    assert (H : (List.length (f :: fstack) <= List.length fs)%nat).
    { apply stack_bounded; [now constructor|]. intros g [<-|Hg]; [exact Hf|now apply Hk]. }
    cbn [List.length] in H. lia.
  - cbn [parse_file]. destruct (assoc f fs) as [its|]; [|now apply errs_err].
    apply errs_bind; [|intros fr _; destruct (fk fr) as [[nm|]| |]; (apply errs_ok || now apply errs_err)].
    apply proc_items_nofuel; [apply parse_file_proto|]. intros g [Hg1 Hg2]. apply IH.
    + now constructor.
    + intros g' [<-|Hg']; [exact Hf|now apply Hk].
    + cbn [List.length]. lia.
    + now apply mem_s_false.
    + exact Hg1.
Qed.

Theorem check_fuel_enough fs root trad : errs (check fs root trad) nofuel.
Proof.
  unfold check. destruct (known fs root) eqn:Ek.
  - apply parse_file_nofuel; try assumption; [constructor|intros g []|cbn [List.length]; lia|intros []].
  - cbn [parse_file]. unfold known in Ek. destruct (assoc root fs); [discriminate|now apply errs_err].
Qed.

Theorem check_not_fuel fs root trad f l : check fs root trad <> Err KFuel f l.
Proof. intros H. exact (check_fuel_enough _ _ _ _ _ _ H eq_refl). Qed.

Theorem check_ok_iff_file_ok fs root trad e :
  check fs root trad = Ok e <-> exists n, file_ok n fs trad false [] root e.
Proof.
  split.
  - intros H. exists (S (List.length fs)). now apply file_sound.
  - intros [n H]. apply file_complete in H. unfold check.
    destruct (Nat.le_gt_cases n (S (List.length fs))) as [Hle|Hgt].
    + rewrite (parse_file_mono_le fs trad [] root _ n Hle); [exact H|rewrite H; apply errs_ok].
    + pose proof (check_fuel_enough fs root trad) as Hc. unfold check in Hc.
      rewrite <- (parse_file_mono_le fs trad [] root n (S (List.length fs))); [exact H|lia|exact Hc].
Qed.

Theorem check_sound fs root trad e : check fs root trad = Ok e -> Valid fs root trad.
Proof. intros H. apply check_ok_iff_file_ok in H. destruct H as [n H]. now exists n, e. Qed.

Theorem check_sound_text fs root trad e : check fs root trad = Ok e -> ValidText fs root trad.
Proof. intros H. exists (S (List.length fs)), e. now apply file_sound. Qed.

Theorem check_complete fs root trad : Valid fs root trad -> exists e, check fs root trad = Ok e.
Proof. intros [n [e H]]. exists e. apply check_ok_iff_file_ok. now exists n. Qed.

(* what a rejection cites: either one of the file-level conditions (no line), or the line of a
   statement of the cited file, of which [rule_broken] holds *)
Definition cited (fs : files) (k : kind) (f : string) (l : Z) : Prop :=
  (l = 0 /\ file_level k) \/
  exists its it it0, assoc f fs = Some its /\ In it its /\ sub it0 it /\ item_line it0 = l /\ rule_broken k it0.

Theorem parse_file_error_cites fs trad : forall n fstack file, errs (parse_file n fs trad fstack file) (cited fs).
Proof.
  assert (Hfl : forall A k f, file_level k -> errs (@Err A k f 0) (cited fs)) by (intros A k f Hk; apply errs_err; now left).
  induction n as [|n IH]; intros fstack file; cbn [parse_file]; [apply Hfl; unfold file_level; tauto|].
  destruct (assoc file fs) as [its|] eqn:Ea; [|apply Hfl; unfold file_level; tauto].
  apply errs_bind; [|intros fr _; destruct (fk fr) as [[nm|]| |]; (apply errs_ok || (apply Hfl; unfold file_level; tauto))].
  apply (errs_imp _ _ _ (proj2 (proc_error_cites (parse_file n fs trad) (known fs) trad file (file :: fstack)
                                  (parse_file_proto fs trad n)) its [] _)).
  intros k f l [[[g [_ Hg]]|[-> [Hk _]]]|[i [Hin [_ [it0 [Hs [-> [-> Hr]]]]]]]].
  - now apply IH in Hg.
  - now left.
  - right. exists its, i, it0. now repeat split.
Qed.

Theorem check_error_cites fs root trad k f l :
  check fs root trad = Err k f l -> cited fs k f l.
Proof. apply parse_file_error_cites. Qed.

(* the property TEXT has no clause about division by zero: a schema that meets every listed
   clause is nevertheless rejected, with a CalculationExpressionError at the line of the
   expression (/repo fix ba6c9a1) *)
Theorem text_has_no_division_clause :
  exists fs root, ValidText fs root false /\ check fs root false = Err KCalcExpr root 2.
Proof.
  exists [("r"%string, [IProto 1 "r"; IConst 2 "A" (CExpr (EDiv (EInt 1) (EInt 0)))]%string)], "r"%string.
  split.
  - exists 1%nat. eexists. cbn [file_ok]. do 3 eexists. split; [reflexivity|]. split.
    + cbn [items_ok]. eexists. split.
      * cbn [item_ok]. split; [eexists; reflexivity|reflexivity].
      * eexists. split; [|reflexivity]. cbn [item_ok]. split; [eexists; reflexivity|].
        eexists. split; [|split; [reflexivity|reflexivity]].
        apply VOExpr. apply EODiv; [apply EOInt|apply EOInt|now right].
    + split; reflexivity.
  - vm_compute. reflexivity.
Qed.
