(* Total.v — C09 "compilation is total": the model.

   PARTIAL BY NATURE.  ply's regex tokenizer and LALR driver are not modelled here (they are
   in Lex.v and LR.v, each on its own), so
   "parse() terminates without an internal exception on arbitrary bytes" is NOT a theorem
   of this development.  What is modelled — with every failing branch written out — is the
   code bitproto itself runs inside the token rules, the semantic actions and the renderers:

     1. t_STRING_LITERAL: token language (generated regex), the scan ply performs at a
        quote, the escape loop (generated, GenC09.escape_loop);
     2. int()/int(,16) conversions of the lexer rules and str() of integers (CPython's
        4300-digit limit), the GenC09.lex_ definitions;
     3. constant arithmetic of the calculation_expression actions (the GenC09.calc_ definitions);
     4. the *_item_unsupported dispatch (which p[k] reaches from_token);
     5. every p[k] / p.lineno(k) / p.lexpos(k) of every semantic action against the lengths
        of its productions (GenC09.actions);
     6. error hooks, the class hierarchy and what _main.py converts into a diagnostic;
     7. option value checking;
     8. renderer-side partial operations: fields()[0] (Python formatter), format_int_value;
     9. reading a source file: UTF-8 decoding, NUL in an import path.

   Outcomes are three-way (TotalBase.outcome): Ok | ParserError kind | Crash exn. *)
From Coq Require Import String Ascii ZArith List Bool Lia.
From BP Require Import Re ReLinear TotalBase Schema.
From BPGen Require Import GenC09.
Import ListNotations.
Local Open Scope string_scope.
Open Scope Z_scope.

(* ====================================================================================== *)
(* 1. string literals                                                                      *)
(* ====================================================================================== *)

Definition QUOTE : ascii := ascii_of_nat 34.
Definition BSLASH : ascii := ascii_of_nat 92.
Definition NEWLINE : ascii := ascii_of_nat 10.

(* the token language, decided with the GENERATED regex *)
Definition str_token_ok (tv : list ascii) : bool := re_matchb string_literal_re tv.

(* What the (non-greedy, backtracking) regex does on the text after an opening quote:
   the first unescaped quote ends the token; a newline, a backslash-newline or the end of
   the text before that means "no match" (=> t_error => LexerError).  Result: number of
   characters of the body INCLUDING the closing quote. *)
Fixpoint scan_string_body (s : list ascii) : option nat :=
  match s with
  | [] => None
  | c :: r =>
      if Ascii.eqb c QUOTE then Some 1%nat
      else if Ascii.eqb c BSLASH then
        match r with
        | [] => None
        | d :: r' => if Ascii.eqb d NEWLINE then None
                     else option_map (fun n => S (S n)) (scan_string_body r')
        end
      else if Ascii.eqb c NEWLINE then None
      else option_map S (scan_string_body r)
  end.

(* first token of a text that starts with a quote: (value, end position) *)
Definition lex_string (text : list ascii) : outcome (list ascii * Z) :=
  match text with
  | q :: rest =>
      if Ascii.eqb q QUOTE then
        match scan_string_body rest with
        | Some n => let tv := firstn (S n) text in
                    bind (unescape_token tv) (fun v => Ok (v, Z.of_nat (S n)))
        | None => ParserError "LexerError"          (* t_error: "Invalid token" *)
        end
      else ParserError "NotModelled"
  | [] => ParserError "NotModelled"
  end.

(* ====================================================================================== *)
(* 2. integers                                                                             *)
(* ====================================================================================== *)

(* str(z) as used by format_int_value, by p_error (str(p.value)) and by p_array_type
   ("{0}[{1}]".format(p[1], p[3])) *)
Definition str_int (z : Z) : outcome unit := py_str_int py_int_max_str_digits z.

(* ====================================================================================== *)
(* 3. constant expressions                                                                 *)
(* ====================================================================================== *)

Inductive cexpr : Type :=
| CLitE (z : Z)
| CRef (name : string)
| CAdd (a b : cexpr) | CSub (a b : cexpr) | CMul (a b : cexpr) | CDiv (a b : cexpr)
| CGroup (a : cexpr).

(* what a name resolves to *)
Inductive cbinding : Type := BInt (z : Z) | BBool (b : bool) | BStr (s : list ascii) | BNotConst.

Fixpoint clookup (env : list (string * cbinding)) (n : string) : option cbinding :=
  match env with
  | [] => None
  | (k, v) :: r => if String.eqb k n then Some v else clookup r n
  end.

(* p_constant_reference (parser.py:457) then p_constant_reference_for_calculation (:429) *)
Definition cref (env : list (string * cbinding)) (n : string) : outcome Z :=
  match clookup env n with
  | None => ParserError "ReferencedConstantNotDefined"
  | Some BNotConst => ParserError "ReferencedNotConstant"
  | Some (BInt z) => Ok z
  | Some _ => ParserError "CalculationExpressionError"
  end.

(* LALR reduction order: left operand, right operand, then the operator's action *)
Fixpoint ceval (env : list (string * cbinding)) (e : cexpr) : outcome Z :=
  match e with
  | CLitE z => Ok z
  | CRef n => cref env n
  | CAdd a b => bind (ceval env a) (fun x => bind (ceval env b) (fun y => calc_plus x y))
  | CSub a b => bind (ceval env a) (fun x => bind (ceval env b) (fun y => calc_minus x y))
  | CMul a b => bind (ceval env a) (fun x => bind (ceval env b) (fun y => calc_times x y))
  | CDiv a b => bind (ceval env a) (fun x => bind (ceval env b) (fun y => calc_divide x y))
  | CGroup a => ceval env a
  end.

(* ====================================================================================== *)
(* 4. items that a message / an enum does not support                                      *)
(* ====================================================================================== *)

(* the grammar alternatives of message_item_unsupported / enum_item_unsupported *)
Inductive item : Type :=
| IAlias | IConst | IProto | IImport | IOption | IEnum | IMessage | IField.

(* class of the value the item's own action leaves in p[1] ("None": the action assigns no p[0]) *)
Definition item_class (i : item) : string :=
  match i with
  | IAlias => "Alias" | IConst => "Constant" | IImport => "Proto" | IProto => "None"
  | IOption => "Option" | IEnum => "Enum" | IMessage => "Message" | IField => "MessageField"
  end.

(* p_proto itself refuses a proto statement outside the global scope (parser.py:252) *)
Definition item_own_error (i : item) : option string :=
  match i with
  | IProto => Some "UnsupportedToDeclareProtoNameOutofProtoScope"
  | _ => None
  end.

(* E.from_token(token=p[k]) in an action whose production has one symbol:
   p[1] is the node (has filepath/token/lineno), p[0] is still None, p[k>=2] does not exist *)
Definition from_token_of (err : string) (k : Z) : outcome unit :=
  if k =? 1 then ParserError err
  else if k =? 0 then Crash AttributeError
  else if k <? 0 then Crash AttributeError          (* parser stack entry: not a node *)
  else Crash IndexError.

Fixpoint dispatch (table : list (string * string * option Z)) (final : string) (cls : string)
  : outcome unit :=
  match table with
  | [] => ParserError final
  | (c, err, how) :: r =>
      if String.eqb c cls then
        match how with
        | Some k => from_token_of err k
        | None => ParserError err     (* E(lineno=p.lineno(1), filepath=..., token="...") *)
        end
      else dispatch r final cls
  end.

Definition unsupported_outcome (table : list (string * string * option Z)) (final : string) (i : item)
  : outcome unit :=
  match item_own_error i with
  | Some e => ParserError e
  | None => dispatch table final (item_class i)
  end.

Definition message_item_outcome (i : item) : outcome unit :=
  unsupported_outcome message_item_unsupported message_item_unsupported_final i.
Definition enum_item_outcome (i : item) : outcome unit :=
  unsupported_outcome enum_item_unsupported enum_item_unsupported_final i.

Definition message_items : list item := [IAlias; IConst; IProto; IImport].
Definition enum_items : list item := [IAlias; IConst; IProto; IImport; IOption; IEnum; IMessage; IField].

(* ====================================================================================== *)
(* 5. index analysis of the semantic actions                                               *)
(* ====================================================================================== *)

(* p[k], p.lineno(k), p.lexpos(k) raise IndexError unless k < len(p)  (ply.yacc.YaccProduction;
   a negative k reads the parser stack and does not raise) *)
Definition access_ok (len : nat) (a : pindex * list nat * nat) : bool :=
  let '(k, lens, _) := a in
  if existsb (Nat.eqb len) lens then
    match k with
    | KConst k => k <? Z.of_nat len
    | KLenMinus c => let j := Z.of_nat len - c in (0 <=? j) && (j <? Z.of_nat len)
    end
  else true.

Definition action_ok (a : string * nat * list nat * list (pindex * list nat * nat)) : bool :=
  let '(_, _, lens, accs) := a in
  forallb (fun len => forallb (access_ok len) accs) lens.

Definition bad_actions : list string :=
  map (fun a => fst (fst (fst a))) (filter (fun a => negb (action_ok a)) actions).

(* ====================================================================================== *)
(* 6. error hooks and what _main.py converts into a diagnostic                             *)
(* ====================================================================================== *)

Definition caught_by (handlers : list string) (cls : string) : bool :=
  existsb (fun h => is_subclass error_classes cls h) handlers.

Definition parse_diag (cls : string) : bool := caught_by main_parse_caught cls.
Definition render_diag (cls : string) : bool := caught_by main_render_caught cls.

(* classes raised in lexer.py / parser.py / _ast.py that would NOT become a diagnostic *)
Definition front_non_diag : list string :=
  filter (fun c => negb (parse_diag c)) (lexer_raises ++ parser_raises ++ ast_raises).

(* every path of the hooks ends in raising a class that becomes a diagnostic *)
Definition hooks_raise_diag : bool :=
  forallb (fun p => parse_diag (fst (fst p))) (t_error_paths ++ p_error_paths).

(* value of the offending token as p_error sees it *)
Inductive tokval : Type := TInt (z : Z) | TOther.

(* one path of p_error: a path that formats str(p.value) converts an int to decimal *)
Definition p_error_path_outcome (path : string * bool * nat) (v : tokval) : outcome unit :=
  let '(cls, uses_str, _) := path in
  match uses_str, v with
  | true, TInt z => bind (str_int z) (fun _ => ParserError cls)
  | _, _ => ParserError cls
  end.

(* the path of p_error taken for an unexpected TOKEN (the one that formats the token's value) *)
Definition p_error_token_path : option (string * bool * nat) :=
  find (fun p => snd (fst p)) p_error_paths.

Definition p_error_int_outcome (z : Z) : outcome unit :=
  match p_error_token_path with
  | Some path => p_error_path_outcome path (TInt z)
  | None => ParserError "GrammarError"
  end.

(* p_array_type (parser.py:541): the token text is "{0}[{1}]".format(element, capacity) *)
Definition array_type_token (cap : Z) : outcome unit :=
  if array_type_formats_cap then str_int cap else Ok tt.

(* ====================================================================================== *)
(* 7. options                                                                              *)
(* ====================================================================================== *)

Inductive oval : Type := OVBool (b : bool) | OVInt (z : Z) | OVStr (s : list ascii).

Definition kind_matches (k : okind) (v : oval) : bool :=
  match k, v with
  | OBool, OVBool _ | OInt, OVInt _ | OStr, OVStr _ => true
  | _, _ => false
  end.

Definition find_descriptor (scope name : string) :=
  find (fun d => let '(s, n, _, _) := d in String.eqb s scope && String.eqb n name) option_descriptors.

(* ScopeWithOptions.validate_option_on_push (_ast.py:612) *)
Definition option_check (scope name : string) (v : oval) : outcome unit :=
  match find_descriptor scope name with
  | None => ParserError "UnsupportedOption"
  | Some (_, _, k, validator) =>
      if kind_matches k v then
        match validator, v with
        | Some f, OVInt z => if f z then Ok tt else ParserError "InvalidOptionValue"
        | _, _ => Ok tt
        end
      else ParserError "InvalidOptionValue"
  end.

(* get_option_value_or_raise (_ast.py:592): InternalError (not a diagnostic) on a type mismatch *)
Definition option_get_typed (k : okind) (v : oval) : outcome oval :=
  if kind_matches k v then Ok v else Crash InternalError.

(* ====================================================================================== *)
(* 8. renderers                                                                            *)
(* ====================================================================================== *)

(* PyFormatter.format_default_value_enum: t.fields()[0] *)
Definition py_enum_default (members : list Z) : outcome unit :=
  if py_enum_default_guarded then Ok tt
  else match members with [] => Crash IndexError | _ :: _ => Ok tt end.

(* every default value the Python renderer formats for a message type: fields of enum type,
   array elements, the aliased type of every alias used, nested messages *)
Fixpoint py_render_defaults (t : ty) : outcome unit :=
  match t with
  | TEnum _ ms => py_enum_default ms
  | TAlias t => py_render_defaults t
  | TArr _ _ e => py_render_defaults e
  | TMsg _ fs =>
      (fix go (l : list (Z * ty)) : outcome unit :=
         match l with
         | [] => Ok tt
         | kf :: r => bind (py_render_defaults (snd kf)) (fun _ => go r)
         end) fs
  | _ => Ok tt
  end.

(* format_int_value (c, go and py alike): str of the int; when guarded, a ValueError becomes a
   RendererError, which _main.py reports *)
Definition render_int (z : Z) : outcome unit :=
  if format_int_value_guarded then py_catch_value_error (str_int z) "RendererError" else str_int z.

(* ... on every integer constant of the proto *)
Fixpoint render_ints (zs : list Z) : outcome unit :=
  match zs with
  | [] => Ok tt
  | z :: r => bind (render_int z) (fun _ => render_ints r)
  end.

Definition ints_small (zs : list Z) : bool :=
  forallb (fun z => Z.abs z <? pow10 py_int_max_str_digits) zs.

Inductive lang : Type := LC | LGo | LPy.

Definition render (l : lang) (t : ty) (consts : list Z) : outcome unit :=
  bind (render_ints consts) (fun _ =>
    match l with
    | LPy => py_render_defaults t
    | _ => Ok tt
    end).

(* ---- regular expressions applied to user text: the name converters' (utils.py; linter.py has
   none) and the token rules translated above.  None may contain a quantifier inside a quantifier
   or an ambiguous iteration (ReLinear.is_flat): a backtracking matcher then works in polynomial
   time, so no identifier / literal can make compilation hang in the regex engine. *)
Definition all_regexes : list (string * (bool * bool) * re) := name_regexes ++ token_regexes.
Definition regexes_not_flat : list string := non_flat all_regexes.

(* ====================================================================================== *)
(* 9. reading a source file                                                                *)
(* ====================================================================================== *)

(* strict UTF-8 (what open(path).read() applies under a UTF-8 locale): no overlong forms,
   no surrogates, nothing above U+10FFFF *)
Definition cont (b : Z) : bool := (128 <=? b) && (b <=? 191).

Fixpoint utf8_valid_fuel (fuel : nat) (s : list Z) : bool :=
  match fuel with
  | O => match s with [] => true | _ => false end
  | S f =>
      match s with
      | [] => true
      | b0 :: r =>
          if b0 <? 128 then utf8_valid_fuel f r
          else if (194 <=? b0) && (b0 <=? 223) then
            match r with b1 :: r1 => cont b1 && utf8_valid_fuel f r1 | _ => false end
          else if (224 <=? b0) && (b0 <=? 239) then
            match r with
            | b1 :: b2 :: r2 =>
                cont b1 && cont b2 &&
                (if b0 =? 224 then 160 <=? b1 else true) &&
                (if b0 =? 237 then b1 <=? 159 else true) &&
                utf8_valid_fuel f r2
            | _ => false
            end
          else if (240 <=? b0) && (b0 <=? 244) then
            match r with
            | b1 :: b2 :: b3 :: r3 =>
                cont b1 && cont b2 && cont b3 &&
                (if b0 =? 240 then 144 <=? b1 else true) &&
                (if b0 =? 244 then b1 <=? 143 else true) &&
                utf8_valid_fuel f r3
            | _ => false
            end
          else false
      end
  end.

Definition utf8_valid (s : list Z) : bool := utf8_valid_fuel (length s) s.

(* Parser.parse: open(filepath).read() *)
Definition read_source (bytes : list Z) : outcome unit :=
  if utf8_valid bytes then Ok tt
  else if parse_catches_decode_error then ParserError "LexerError" else Crash UnicodeDecodeError.

(* p_import -> _check_parsing_file -> os.path.samefile(path): ValueError on an embedded NUL
   (any other unusable path is an OSError, which _main.py reports) *)
Definition import_path (path : list ascii) : outcome unit :=
  if existsb (fun c => Ascii.eqb c (ascii_of_nat 0)) path
  then (if import_path_guarded then ParserError "GrammarError" else Crash ValueError)
  else Ok tt.

(* ====================================================================================== *)
(* 10. whole token rules, and comparison helpers for the T2 case files                     *)
(* ====================================================================================== *)

(* t_UINT_TYPE / t_INT_TYPE: conversion, then the type node validates its width *)
Definition uint_rule (tv : list ascii) : outcome Z := bind (lex_uint_cap tv) uint_cap_check.
Definition int_rule (tv : list ascii) : outcome Z := bind (lex_int_cap tv) int_cap_check.

Definition str_result_eqb (a b : list ascii * Z) : bool :=
  ascii_list_eqb (fst a) (fst b) && (snd a =? snd b).

Definition out_str_eqb := outcome_eqb str_result_eqb.
Definition out_z_eqb := outcome_eqb Z.eqb.
Definition out_unit_eqb := outcome_eqb (fun _ _ : unit => true).

(* same outcome CLASS (Ok / the same ParserError / the same exception), values ignored *)
Definition same_class {A B} (a : outcome A) (b : outcome B) : bool :=
  match a, b with
  | Ok _, Ok _ => true
  | ParserError k, ParserError k' => String.eqb k k'
  | Crash e, Crash e' => pyexn_eqb e e'
  | _, _ => false
  end.

Definition code (tie_ok : bool) (impl_crashed : bool) : Z :=
  (if tie_ok then 0 else 1) + (if impl_crashed then 2 else 0).
