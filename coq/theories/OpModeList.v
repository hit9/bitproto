(* OpModeList.v — composition over the list of scalar objects of a struct: running the
   statements of all fields in order writes the concatenation of their bits (encode) resp.
   rebuilds every object from its own bits (decode).  Independent of [ty]: only the list of
   (chain, leaf, value) triples with pairwise distinct chains matters. *)
From Coq Require Import ZArith List Lia.
From BP Require Import Bits Schema PyDecLeaf OpMode OpModeLeaf OpModeLeafDec.
From BPGen Require Import GenOpMode.
Import ListNotations.
Open Scope Z_scope.

Definition cellT : Type := (chain * (leaf * val))%type.

Definition lview (x : cellT) : chain * leaf := (fst x, fst (snd x)).
Definition cbits (x : leaf * val) : Z := leaf_bits (fst x).
Definition cpat (x : leaf * val) : Z := leaf_pat (fst x) (snd x).
Definition zero_of (x : cellT) : chain * cell := (fst x, mkcell (leaf_cty (fst (snd x))) 0).

Fixpoint total_bits (cs : list (leaf * val)) : Z :=
  match cs with [] => 0 | x :: r => cbits x + total_bits r end.

(* the bits of all fields, first field lowest *)
Fixpoint packZ (cs : list (leaf * val)) : Z :=
  match cs with
  | [] => 0
  | x :: r => cpat x mod 2 ^ cbits x + 2 ^ cbits x * packZ r
  end.

Definition cell_ty_ok (x : leaf * val) : Prop :=
  match lk (fst x) with
  | KBool => exists b, snd x = VB b
  | KByte => 0 <= zof (snd x) < 256
  | KUint n | KEnum n => 1 <= n <= 64 /\ 0 <= zof (snd x) < 2 ^ n
  | KInt n => 1 <= n <= 64 /\ - 2 ^ (n - 1) <= zof (snd x) < 2 ^ (n - 1)
  end.

Lemma cell_ty_leaf_ok x : cell_ty_ok x -> leaf_ok (fst x).
Proof. unfold cell_ty_ok, leaf_ok. destruct (lk (fst x)); intros H; try exact I; apply H. Qed.

Lemma cbits_pos x : leaf_ok (fst x) -> 1 <= cbits x.
Proof. intros H. destruct (leaf_facts _ H) as (A & _). unfold cbits. lia. Qed.

Lemma total_bits_nonneg cs : Forall (fun x => leaf_ok (fst x)) cs -> 0 <= total_bits cs.
Proof.
  induction 1 as [|x r Hx Hr IH]; cbn [total_bits]; [lia|]. pose proof (cbits_pos x Hx). lia.
Qed.

Lemma cpat_ok lf v : leaf_ok lf -> pat_ok lf (leaf_pat lf v).
Proof.
  intros Hok. destruct (leaf_facts lf Hok) as (_ & Hsz & _).
  unfold pat_ok, leaf_pat.
  destruct (lk lf); try (apply Z.mod_pos_bound, pow2_pos; lia).
  destruct v as [[|]| | |]; auto.
Qed.

(* the same bits as a list: packZ is their number, total_bits their count *)
Definition lv_bits (cs : list (leaf * val)) : list bool :=
  flat_map (fun x => bits_of (Z.to_nat (cbits x)) (cpat x)) cs.

Lemma lv_bits_spec cs :
  Forall (fun x => leaf_ok (fst x)) cs ->
  Z_of_bits (lv_bits cs) = packZ cs /\ Z.of_nat (length (lv_bits cs)) = total_bits cs.
Proof.
  induction 1 as [|x r Hx _ [IH1 IH2]]; [split; reflexivity|]. pose proof (cbits_pos x Hx).
  cbn [lv_bits flat_map packZ total_bits]. fold (lv_bits r).
  rewrite Z_of_bits_app, app_length, bits_of_length, Z_of_bits_of, Nat2Z.inj_add, IH1, IH2, Z2Nat.id by lia.
  split; reflexivity.
Qed.

Lemma packZ_range cs :
  Forall (fun x => leaf_ok (fst x)) cs -> 0 <= packZ cs < 2 ^ total_bits cs.
Proof. intros H. destruct (lv_bits_spec cs H) as [<- <-]. apply Z_of_bits_range. Qed.

Lemma chain_neq_eqb a b : a <> b -> chain_eqb a b = false.
Proof.
  intros H. destruct (chain_eqb a b) eqn:E; [|reflexivity]. apply chain_eqb_eq in E. contradiction.
Qed.

Lemma mem_get_mid (d : mem) ch c r :
  ~ In ch (map fst d) -> mem_get (d ++ (ch, c) :: r) ch = Some c.
Proof.
  induction d as [|x d IH]; intros Hn; cbn [app mem_get fst snd].
  - now rewrite chain_eqb_refl.
  - cbn [map] in Hn. rewrite chain_neq_eqb by (intros E; apply Hn; left; exact E).
    apply IH. intros Hin. apply Hn. right. exact Hin.
Qed.

Lemma mem_set_mid (d : mem) ch c r u :
  ~ In ch (map fst d) ->
  mem_set (d ++ (ch, c) :: r) ch u = d ++ (ch, mkcell (cty_of c) u) :: r.
Proof.
  induction d as [|x d IH]; intros Hn; cbn [app mem_set fst snd].
  - now rewrite chain_eqb_refl.
  - cbn [map] in Hn. rewrite chain_neq_eqb by (intros E; apply Hn; left; exact E).
    f_equal. apply IH. intros Hin. apply Hn. right. exact Hin.
Qed.

Lemma map_fst_cell_of (cs : list cellT) : map fst (map cell_of cs) = map fst cs.
Proof. rewrite map_map. apply map_ext. reflexivity. Qed.

Lemma all_stmts_cons L enc x r i :
  all_stmts L enc (x :: r) i =
  leaf_stmts L enc x i ++ all_stmts L enc r (plan_end i (leaf_plan i (leaf_bits (snd x)))).
Proof. reflexivity. Qed.

(* sf is the finished stream (Bits.cut) *)
Lemma all_enc L sf : forall (todo done : list cellT) i,
  NoDup (map fst (done ++ todo)) ->
  Forall (fun x => leaf_ok (fst x)) (map snd todo) ->
  0 <= i -> i + total_bits (map snd todo) <= 8 * Z.of_nat (length sf) ->
  chunk (bufZ sf) i (total_bits (map snd todo)) = packZ (map snd todo) ->
  run (all_stmts L true (map lview todo) i) (mkst (cut sf i) (map cell_of (done ++ todo))) =
  Some (mkst (cut sf (i + total_bits (map snd todo))) (map cell_of (done ++ todo))).
Proof.
  induction todo as [|[ch [lf v]] r IH]; intros done i Hnd Hok Hi Hlen Hch.
  - cbn [map all_stmts run total_bits]. now rewrite Z.add_0_r.
  - cbn [map snd] in Hok. inversion Hok as [|? ? Hx Hr]; subst. cbn [fst] in Hx.
    cbn [map total_bits packZ snd] in *. pose proof (cbits_pos (lf, v) Hx) as Hb1.
    change (cbits (lf, v)) with (leaf_bits lf) in *. change (cpat (lf, v)) with (leaf_pat lf v) in *.
    pose proof (total_bits_nonneg _ Hr) as Hb2.
    destruct (chunk_parts (bufZ sf) i (leaf_bits lf) _ _ _ Hi ltac:(lia) Hb2
                (Z.mod_pos_bound _ _ (pow2_pos (leaf_bits lf) ltac:(lia))) Hch) as [H1 H2].
    set (M := map cell_of (done ++ _)) in *.
    assert (HM : mem_get M ch = Some (mkcell (leaf_cty lf) (leaf_pat lf v))).
    { unfold M. rewrite map_app. apply mem_get_mid. rewrite map_fst_cell_of.
      rewrite map_app in Hnd. apply NoDup_remove_2 in Hnd. intros Hin. apply Hnd, in_or_app. now left. }
    rewrite all_stmts_cons, run_app. change (lview (ch, (lf, v))) with (ch, lf). cbn [snd].
    destruct (leaf_encode L lf ch M (leaf_pat lf v) i (cut sf i) Hx (cpat_ok _ _ Hx) HM Hi
                (cut_bytes_ok _ _) (proj2 (bufZ_cut sf i ltac:(lia))) ltac:(rewrite cut_length; lia))
      as (s1 & -> & Hs1 & Hl1 & Hb1').
    cbn [bind]. rewrite plan_end_leaf by lia. rewrite <- H1 in Hb1'.
    rewrite (cut_next sf i (leaf_bits lf) s1), Z.add_assoc by (repeat split; assumption || lia).
    unfold M. change (done ++ (ch, (lf, v)) :: r) with (done ++ [(ch, (lf, v))] ++ r) in *. rewrite app_assoc in *.
    apply IH; assumption || lia.
Qed.

Fixpoint dec_cells (S : list Z) (i : Z) (cs : list cellT) : mem :=
  match cs with
  | [] => []
  | x :: r => (fst x, mkcell (leaf_cty (fst (snd x))) (dec_pat (fst (snd x)) (bufZ S / 2 ^ i)))
              :: dec_cells S (i + cbits (snd x)) r
  end.

Lemma all_dec L S : forall (todo : list cellT) (dm : mem) i,
  NoDup (map fst dm ++ map fst todo) ->
  Forall (fun x => leaf_ok (fst x)) (map snd todo) ->
  0 <= i -> bytes_ok S -> i + total_bits (map snd todo) <= 8 * Z.of_nat (length S) ->
  run (all_stmts L false (map lview todo) i) (mkst S (dm ++ map zero_of todo)) =
  Some (mkst S (dm ++ dec_cells S i todo)).
Proof.
  induction todo as [|x r IH]; intros dm i Hnd Hok Hi HS Hlen.
  - reflexivity.
  - cbn [map] in Hok. inversion Hok as [|? ? Hx Hr]; subst.
    cbn [map total_bits] in Hlen. pose proof (cbits_pos _ Hx) as Hb1.
    pose proof (total_bits_nonneg _ Hr) as Hb2.
    cbn [map] in Hnd.
    assert (Hnin : ~ In (fst x) (map fst dm)).
    { apply NoDup_remove_2 in Hnd. intros Hin. apply Hnd. apply in_or_app. left. exact Hin. }
    cbn [map]. rewrite all_stmts_cons, run_app.
    change (lview x) with (fst x, fst (snd x)). cbn [snd fst]. unfold zero_of at 1.
    rewrite (leaf_decode L (fst (snd x)) (fst x) _ S i Hx (mem_get_mid dm _ _ _ Hnin) Hi HS
               ltac:(unfold cbits in *; lia)).
    cbn [bind]. rewrite mem_set_mid by exact Hnin. cbn [cty_of].
    rewrite plan_end_leaf by (unfold cbits in *; lia). fold (cbits (snd x)).
    replace (dm ++ (fst x, mkcell (leaf_cty (fst (snd x))) (dec_pat (fst (snd x)) (bufZ S / 2 ^ i))) :: map zero_of r)
      with ((dm ++ [(fst x, mkcell (leaf_cty (fst (snd x))) (dec_pat (fst (snd x)) (bufZ S / 2 ^ i)))]) ++ map zero_of r)
      by (rewrite <- app_assoc; reflexivity).
    rewrite IH.
    + rewrite <- app_assoc. reflexivity.
    + rewrite map_app. cbn [map fst]. rewrite <- app_assoc. exact Hnd.
    + exact Hr.
    + lia.
    + exact HS.
    + lia.
Qed.

Lemma cpat_mod lf v :
  leaf_ok lf -> cell_ty_ok (lf, v) ->
  leaf_pat lf v mod 2 ^ leaf_bits lf =
  match lk lf with KBool => leaf_pat lf v | _ => zof v mod 2 ^ leaf_bits lf end.
Proof.
  intros Hok Hty. destruct (leaf_facts lf Hok) as (Hn & Hsz & _).
  unfold leaf_pat, leaf_bits, cell_ty_ok in *. cbn [fst snd] in *.
  destruct (lk lf); try (apply mod_mod_pow; lia).
  change bool_nbits with 1. change (2 ^ 1) with 2. destruct Hty as [b ->]. destruct b; reflexivity.
Qed.

Lemma dec_pat_ok lf v X :
  cell_ty_ok (lf, v) ->
  X mod 2 ^ leaf_bits lf = leaf_pat lf v mod 2 ^ leaf_bits lf ->
  dec_pat lf X = leaf_pat lf v.
Proof.
  intros Hty HX. pose proof (cell_ty_leaf_ok _ Hty) as Hok. cbn [fst] in Hok.
  rewrite (cpat_mod lf v Hok Hty) in HX.
  destruct (leaf_facts lf Hok) as (Hn & Hsz & _).
  unfold dec_pat, leaf_pat, leaf_bits, leaf_cty, cell_ty_ok in *. cbn [fst snd csz] in *.
  destruct (lk lf) as [| |n|n|n]; cbn [csz] in *; rewrite HX.
  - reflexivity.
  - change byte_nbits with 8. reflexivity.
  - assert (2 ^ n <= 2 ^ storage_bits n) by (apply Z.pow_le_mono_r; lia).
    rewrite !Z.mod_small by lia. reflexivity.
  - (* the n-bit pattern of an in-range value sign-extends to the value *)
    cbv zeta. pose proof (sext'_mod n (zof v) ltac:(lia) ltac:(lia)) as Hs. unfold sext' in Hs.
    now rewrite Hs.
  - assert (2 ^ n <= 2 ^ storage_bits n) by (apply Z.pow_le_mono_r; lia).
    rewrite !Z.mod_small by lia. reflexivity.
Qed.

Lemma dec_cells_eq S : forall (cs : list cellT) i,
  0 <= i -> Forall cell_ty_ok (map snd cs) ->
  bufZ S / 2 ^ i = packZ (map snd cs) ->
  dec_cells S i cs = map cell_of cs.
Proof.
  induction cs as [|x r IH]; intros i Hi Hty HX; [reflexivity|].
  cbn [map] in Hty. inversion Hty as [|? ? Hx Hr]; subst.
  pose proof (cell_ty_leaf_ok _ Hx) as Hok. pose proof (cbits_pos _ Hok) as Hb.
  assert (Hpn : 0 < 2 ^ cbits (snd x)) by (apply pow2_pos; lia).
  cbn [map packZ] in HX. rewrite (Z.mul_comm (2 ^ _)) in HX.
  cbn [dec_cells map]. unfold cell_of at 1. f_equal.
  - f_equal. f_equal. destruct x as [ch [lf v]]. cbn [fst snd] in *. apply dec_pat_ok; [exact Hx|].
    rewrite HX. unfold cbits, cpat in *. cbn [fst snd] in *.
    rewrite Z.mod_add by lia. apply Z.mod_mod. lia.
  - apply IH; [lia|exact Hr|].
    rewrite Z.pow_add_r by lia. rewrite <- Z.div_div by (try apply pow2_pos; lia).
    rewrite HX.
    pose proof (Z.mod_pos_bound (cpat (snd x)) (2 ^ cbits (snd x)) ltac:(lia)).
    rewrite Z.div_add by lia. rewrite Z.div_small by lia. lia.
Qed.
