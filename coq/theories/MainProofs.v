(* MainProofs.v — proofs about Main.v: which file sets the traditional-mode parser rejects and where,
   the decisions of the command-line driver (refusals, check mode, lint is advisory), and that -F
   filters exactly the encoder / decoder functions of the messages it names.  Kept apart from Main.v
   so that the model still evaluates when an edit of /repo changes gen/GenCli.v and breaks a proof. *)
From Coq Require Import ZArith List String Bool Lia.
From BP Require Import ListFacts CliBase Main.
From BPGen Require Import GenCli.
Import ListNotations.
Open Scope string_scope.
Open Scope Z_scope.

(* what the straight-line pieces translated from the source (gen/GenCli.v) compute: these four
   fail when the code changes *)
Lemma root_traditional_mode_id : forall t, root_traditional_mode t = t.
Proof. intros []; reflexivity. Qed.

Lemma child_traditional_mode_id : forall t, child_traditional_mode t = t.
Proof. intros []; reflexivity. Qed.

Lemma ext_flag_raises_spec : forall m t, ext_flag_raises (len_p_of_marker m) t = m && t.
Proof. intros [] []; reflexivity. Qed.

Lemma opt_check_raises_spec : forall o s, opt_check_raises o s = o && negb s.
Proof. intros [] []; reflexivity. Qed.

(* induction on a file tree and on item lists together (ftree is nested in list) *)
Section ftree_list_ind.
  Variable P : ftree -> Prop.
  Variable Q : list ftree -> Prop.
  Hypothesis Hflag : forall m l, P (FFlag m l).
  Hypothesis Hbad : forall l, P (FBad l).
  Hypothesis Himp : forall f items, Q items -> P (FImport f items).
  Hypothesis Hnil : Q [].
  Hypothesis Hcons : forall x r, P x -> Q r -> Q (x :: r).
  Fixpoint ftree_both (t : ftree) : P t :=
    match t with
    | FFlag m l => Hflag m l
    | FBad l => Hbad l
    | FImport f items =>
        Himp f items ((fix go (l : list ftree) : Q l :=
                         match l with
                         | [] => Hnil
                         | x :: r => Hcons x r (ftree_both x) (go r)
                         end) items)
    end.
  Lemma ftree_list_ind : (forall t, P t) /\ (forall l, Q l).
  Proof.
    split; [exact ftree_both|]. induction l as [|x r IH]; [exact Hnil|exact (Hcons x r (ftree_both x) IH)].
  Qed.
End ftree_list_ind.

Lemma first_err_import : forall trad file f items,
  first_err trad file (FImport f items) = first_err_list (child_traditional_mode trad) f items.
Proof.
  intros trad file f items. induction items as [|x r IH]; [reflexivity|].
  cbn [first_err first_err_list]. destruct (first_err (child_traditional_mode trad) f x); [reflexivity|].
  exact IH.
Qed.

Lemma has_marker_import : forall f items, has_marker (FImport f items) = any_marker items.
Proof.
  intros f items. induction items as [|x r IH]; [reflexivity|].
  cbn [has_marker any_marker]. rewrite <- IH. reflexivity.
Qed.

Lemma has_bad_import : forall f items, has_bad (FImport f items) = any_bad items.
Proof.
  intros f items. induction items as [|x r IH]; [reflexivity|].
  cbn [has_bad any_bad]. rewrite <- IH. reflexivity.
Qed.

Fixpoint first_marker (file : Z) (t : ftree) : option (Z * Z) :=
  match t with
  | FFlag m line => if m then Some (file, line) else None
  | FBad _ => None
  | FImport f items =>
      (fix go (l : list ftree) : option (Z * Z) :=
         match l with
         | [] => None
         | x :: r => match first_marker f x with Some e => Some e | None => go r end
         end) items
  end.
Fixpoint first_marker_list (file : Z) (l : list ftree) : option (Z * Z) :=
  match l with
  | [] => None
  | x :: r => match first_marker file x with Some e => Some e | None => first_marker_list file r end
  end.

Lemma first_marker_import : forall file f items,
  first_marker file (FImport f items) = first_marker_list f items.
Proof.
  intros file f items. induction items as [|x r IH]; [reflexivity|].
  cbn [first_marker first_marker_list]. destruct (first_marker f x); [reflexivity|]. exact IH.
Qed.

Definition ext_err (o : option (Z * Z)) : option perr :=
  match o with Some (f, l) => Some (PEExtensible, f, l) | None => None end.

Lemma first_err_no_bad :
  (forall t trad file, has_bad t = false ->
     first_err trad file t = if trad then ext_err (first_marker file t) else None) /\
  (forall l trad file, any_bad l = false ->
     first_err_list trad file l = if trad then ext_err (first_marker_list file l) else None).
Proof.
  apply ftree_list_ind.
  - intros m l trad file _. cbn [first_err first_marker]. rewrite ext_flag_raises_spec. destruct m, trad; reflexivity.
  - intros l trad file Hb. discriminate Hb.
  - intros f items IH trad file Hb.
    rewrite first_err_import, first_marker_import, child_traditional_mode_id.
    rewrite has_bad_import in Hb. exact (IH trad f Hb).
  - intros [] file _; reflexivity.
  - intros x r IHx IHr trad file Hb. cbn [any_bad] in Hb. apply orb_false_iff in Hb as [Hx Hr].
    cbn [first_err_list first_marker_list]. rewrite (IHx trad file Hx), (IHr trad file Hr).
    destruct trad; [|reflexivity]. destruct (first_marker file x) as [[? ?]|]; reflexivity.
Qed.

Lemma first_marker_some :
  (forall t file, first_marker file t <> None <-> has_marker t = true) /\
  (forall l file, first_marker_list file l <> None <-> any_marker l = true).
Proof.
  apply ftree_list_ind.
  - intros m l file. cbn. destruct m; split; intro H; try reflexivity; try discriminate; congruence.
  - intros l file. cbn. split; intro H; [congruence|discriminate].
  - intros f items IH file. rewrite first_marker_import, has_marker_import. apply IH.
  - intros file. cbn. split; intro H; [congruence|discriminate].
  - intros x r IHx IHr file. cbn [first_marker_list any_marker].
    rewrite orb_true_iff, <- (IHx file), <- (IHr file).
    destruct (first_marker file x); split; intro H.
    + left; discriminate.
    + discriminate.
    + right; exact H.
    + destruct H as [H|H]; [congruence|exact H].
Qed.

Lemma first_err_marker :
  (forall t file, has_marker t = true -> first_err true file t <> None) /\
  (forall l file, any_marker l = true -> first_err_list true file l <> None).
Proof.
  apply ftree_list_ind.
  - intros m l file Hm. cbn [first_err]. rewrite ext_flag_raises_spec. cbn in Hm. subst m. discriminate.
  - intros l file Hm. discriminate Hm.
  - intros f items IH file Hm. rewrite first_err_import, child_traditional_mode_id.
    rewrite has_marker_import in Hm. exact (IH f Hm).
  - intros file Hm. discriminate Hm.
  - intros x r IHx IHr file Hm. cbn [any_marker] in Hm. cbn [first_err_list].
    destruct (first_err true file x) eqn:E; [discriminate|].
    apply orb_true_iff in Hm as [Hm|Hm]; [exfalso; exact (IHx file Hm E)|exact (IHr file Hm)].
Qed.

Lemma parse_files_marker : forall root, any_marker root = true -> parse_files true root <> None.
Proof. intros root H. unfold parse_files. rewrite root_traditional_mode_id. apply (proj2 first_err_marker), H. Qed.

Lemma parse_files_no_bad : forall root trad, any_bad root = false ->
  parse_files trad root = if trad then ext_err (first_marker_list 0 root) else None.
Proof. intros root trad H. unfold parse_files. rewrite root_traditional_mode_id. apply (proj2 first_err_no_bad), H. Qed.

Lemma traditional_rejects_iff : forall root, any_bad root = false ->
  ((exists f l, parse_files true root = Some (PEExtensible, f, l)) <-> any_marker root = true) /\
  parse_files false root = None.
Proof.
  intros root Hb. split; [|rewrite parse_files_no_bad by exact Hb; reflexivity].
  rewrite parse_files_no_bad by exact Hb. rewrite <- (proj2 first_marker_some root 0).
  destruct (first_marker_list 0 root) as [[f l]|]; cbn [ext_err]; split.
  - intros _. discriminate.
  - intros _. exists f, l. reflexivity.
  - intros [f [l H]]. discriminate H.
  - intro H. congruence.
Qed.

Lemma render_classes_std : forall rs, render_classes false rs = ROk.
Proof. induction rs as [|r rs IH]; [reflexivity|]. cbn [render_classes]. rewrite opt_check_raises_spec. exact IH. Qed.

Lemma render_classes_supported : forall o rs, forallb renderer_supports_opt rs = true -> render_classes o rs = ROk.
Proof.
  induction rs as [|r rs IH]; intro H; [reflexivity|].
  cbn [forallb] in H. apply andb_true_iff in H as [H1 H2].
  cbn [render_classes]. rewrite opt_check_raises_spec, H1, andb_false_r. exact (IH H2).
Qed.

Lemma render_classes_unsupported : forall rs, forallb renderer_supports_opt rs = false ->
  render_classes true rs = RRaise ExRendererError.
Proof.
  induction rs as [|r rs IH]; intro H; [discriminate H|].
  cbn [forallb] in H. cbn [render_classes]. rewrite opt_check_raises_spec.
  destruct (renderer_supports_opt r); cbn in *; [exact (IH H)|reflexivity].
Qed.

Lemma lang_supports_opt_table : forall l, lang_supports_opt l = match l with LPy => false | _ => true end.
Proof. intros []; vm_compute; reflexivity. Qed.

Definition trad_flag (a : args) : bool := enable_optimize a && negb (check a).

Definition req_of (a : args) : render_req :=
  mkReq (lang_ a) (enable_optimize a) (filter_messages a) (endian_ a).

(* main()'s except clauses around parse() and around render() *)
Definition parse_raised (e : exn_class) : action :=
  match e with ExParserError => AFatal MsgErrorColored 1 | ExIOError => AFatal MsgErrorStr 1 | _ => AUncaught e end.
Definition render_raised (e : exn_class) : action :=
  match e with ExRendererError => AFatal MsgErrorColored 1 | ExIOError => AFatal MsgErrorStr 1 | _ => AUncaught e end.

(* the translated decision tree as a table; every lemma on [decide] below goes through it, so an edit of
   _main.main() breaks this proof and no other *)
Lemma decide_eq : forall a parse lint render,
  decide a parse lint render =
  match parse (trad_flag a) with
  | PRaise e => parse_raised e
  | POk =>
      if check a then
        if Nat.ltb 0 (if negb (disable_linter a) then lint else 0%nat) then AFatal MsgNone 1 else AReturn None
      else if negb (truthy_opt (lang_ a)) then AFatal MsgNoLanguage 1
      else if negb (enable_optimize a) && truthy_list (filter_messages a)
           then AFatal (MsgLit "-F not available in non-optimization mode.") 1
      else match render (req_of a) with ROk => AReturn (Some (req_of a)) | RRaise e => render_raised e end
  end.
Proof.
  intros a parse lint render. unfold decide, trad_flag, req_of.
  destruct (parse _) as [|[]]; try reflexivity.
  destruct (check a), (truthy_opt (lang_ a)), (enable_optimize a), (truthy_list (filter_messages a)); try reflexivity;
    cbn [negb andb]; destruct (render _) as [|[]]; reflexivity.
Qed.

Lemma decide_parse_only_flag : forall a p1 p2 lint render,
  p1 (trad_flag a) = p2 (trad_flag a) -> decide a p1 lint render = decide a p2 lint render.
Proof. intros a p1 p2 lint render H. rewrite !decide_eq, H. reflexivity. Qed.

(* main() renders only when it returns.  The hypothesis is repeated in the conclusion because the
   goals it is applied to have that shape ([apply refused, decide_compile_exit]). *)
Lemma refused : forall act, exit_code act <> 0 -> exit_code act <> 0 /\ rendered_of act = None.
Proof. intros [] H; cbn in *; split; try reflexivity; try exact H. lia. Qed.

Lemma decide_compile_exit : forall a parse lint render, check a = false ->
  (exit_code (decide a parse lint render) <> 0 <->
   parse (trad_flag a) <> POk \/ lang_ a = None \/
   (enable_optimize a = false /\ truthy_list (filter_messages a) = true) \/
   render (req_of a) <> ROk).
Proof.
  intros a parse lint render Hc. rewrite decide_eq, Hc.
  destruct (parse (trad_flag a)) as [|e].
  2:{ split; [intros _; left; discriminate|]. intros _. destruct e; cbn; lia. }
  destruct (lang_ a) as [l|]; cbn [truthy_opt negb].
  2:{ split; [intros _; right; left; reflexivity|]. intros _. cbn. lia. }
  destruct (enable_optimize a), (truthy_list (filter_messages a)); cbn [negb andb];
    try (split; [intros _; right; right; left; split; reflexivity|intros _; cbn; lia]);
    (destruct (render (req_of a)) as [|e];
     [split; [cbn; lia|intros [H|[H|[[H1 H2]|H]]]; congruence]
     |split; [intros _; right; right; right; discriminate|intros _; destruct e; cbn; lia]]).
Qed.

Lemma decide_lang_refused : forall a parse lint io l,
  enable_optimize a = true -> check a = false -> parse true = POk ->
  lang_ a = Some l -> lang_supports_opt l = false ->
  decide a parse lint (render_model io) = AFatal MsgErrorColored 1.
Proof.
  intros a parse lint io l HO Hc HP Hl Hs. rewrite decide_eq. unfold trad_flag, req_of, render_model.
  rewrite HO, Hc. cbn [andb negb]. rewrite HP, Hl. cbn. rewrite (render_classes_unsupported _ Hs). reflexivity.
Qed.

Lemma decide_F_without_O_msg : forall a parse lint render,
  enable_optimize a = false -> check a = false -> truthy_list (filter_messages a) = true ->
  parse false = POk -> truthy_opt (lang_ a) = true ->
  decide a parse lint render = AFatal (MsgLit "-F not available in non-optimization mode.") 1.
Proof.
  intros a parse lint render HO Hc HF HP Hl. rewrite decide_eq. unfold trad_flag. rewrite HO, Hc, HF, Hl. cbn [andb]. rewrite HP. reflexivity.
Qed.

Lemma decide_no_lang : forall a parse lint render,
  check a = false -> lang_ a = None ->
  exit_code (decide a parse lint render) <> 0 /\ rendered_of (decide a parse lint render) = None.
Proof. intros a parse lint render Hc Hl. apply refused, decide_compile_exit; [exact Hc|]. right; left; exact Hl. Qed.

Lemma decide_accepts : forall a parse lint l,
  check a = false -> parse (trad_flag a) = POk -> lang_ a = Some l ->
  (enable_optimize a = true -> lang_supports_opt l = true) ->
  (enable_optimize a = false -> truthy_list (filter_messages a) = false) ->
  decide a parse lint (render_model true) =
  AReturn (Some (mkReq (Some l) (enable_optimize a) (filter_messages a) (endian_ a))).
Proof.
  intros a parse lint l Hc HP Hl HS HF. rewrite decide_eq, HP, Hc. unfold req_of, render_model. rewrite Hl.
  cbn [negb truthy_opt rr_lang rr_opt].
  destruct (enable_optimize a) eqn:HO; cbn [negb andb].
  - rewrite (render_classes_supported true _ (HS eq_refl)). reflexivity.
  - rewrite (HF eq_refl), render_classes_std. reflexivity.
Qed.

Lemma decide_exit_nonzero_not_rendered : forall a parse lint render,
  exit_code (decide a parse lint render) <> 0 -> rendered_of (decide a parse lint render) = None.
Proof. intros a parse lint render H. exact (proj2 (refused _ H)). Qed.

(* lint is advisory: outside check mode neither the warning count nor -q is looked at *)
Definition same_but_linter (a b : args) : Prop :=
  lang_ a = lang_ b /\ check a = check b /\ enable_optimize a = enable_optimize b /\
  filter_messages a = filter_messages b /\ endian_ a = endian_ b.

Lemma decide_lint_advisory : forall a b parse l1 l2 render,
  same_but_linter a b -> check a = false ->
  decide a parse l1 render = decide b parse l2 render.
Proof.
  intros a b parse l1 l2 render (H1 & H2 & H3 & H4 & H5) Hc. rewrite !decide_eq. unfold trad_flag, req_of.
  rewrite <- H1, <- H2, <- H3, <- H4, <- H5, Hc. reflexivity.
Qed.

Lemma decide_check : forall a parse lint render, check a = true ->
  decide a parse lint render =
  match parse false with
  | POk => if Nat.ltb 0 (if negb (disable_linter a) then lint else 0%nat)
           then AFatal MsgNone 1 else AReturn None
  | PRaise e => parse_raised e
  end.
Proof. intros a parse lint render Hc. rewrite decide_eq. unfold trad_flag. rewrite Hc, andb_false_r. reflexivity. Qed.

Lemma decide_check_parse : forall a parse lint render,
  check a = true -> parse false <> POk ->
  exists m, decide a parse lint render = AFatal m 1 /\ m <> MsgNone \/
            exists e, decide a parse lint render = AUncaught e.
Proof.
  intros a parse lint render Hc HP. rewrite decide_check by exact Hc.
  destruct (parse false) as [|[]]; [congruence| | | |].
  - exists MsgErrorColored. left. split; [reflexivity|discriminate].
  - exists MsgErrorStr. left. split; [reflexivity|discriminate].
  - exists MsgNone. right. eexists; reflexivity.
  - exists MsgNone. right. eexists; reflexivity.
Qed.

(* the STATUS seen by the caller (low 8 bits of the code): in check mode the code is 0 or 1,
   never a count that could wrap to 0 *)
Lemma decide_check_code : forall a parse lint render,
  check a = true ->
  exit_code (decide a parse lint render) = 0 \/ exit_code (decide a parse lint render) = 1.
Proof.
  intros a parse lint render Hc. rewrite decide_check by exact Hc.
  destruct (parse false) as [|[]]; try (right; reflexivity).
  destruct (Nat.ltb 0 _); [right|left]; reflexivity.
Qed.

Lemma decide_check_exit : forall a parse lint render,
  check a = true ->
  (exit_code (decide a parse lint render) <> 0 <->
   parse false <> POk \/ (disable_linter a = false /\ (0 < lint)%nat)).
Proof.
  intros a parse lint render Hc. rewrite decide_check by exact Hc.
  destruct (parse false) as [|[]]; try (split; [intros _; left; discriminate|cbn; lia]).
  destruct (disable_linter a); cbn [negb].
  - cbn. split; [lia|]. intros [H|[H _]]; [congruence|discriminate].
  - destruct (Nat.ltb_spec 0 lint) as [E|E]; cbn [exit_code].
    + split; [intros _; right; split; [reflexivity|exact E]|lia].
    + split; [lia|]. intros [H|[_ H]]; [congruence|lia].
Qed.

Lemma decide_check_status : forall a parse lint render,
  check a = true ->
  (process_status (decide a parse lint render) <> 0 <->
   parse false <> POk \/ (disable_linter a = false /\ (0 < lint)%nat)).
Proof.
  intros a parse lint render Hc. rewrite <- (decide_check_exit a parse lint render Hc).
  unfold process_status. destruct (decide_check_code a parse lint render Hc) as [E|E]; rewrite E; cbn; lia.
Qed.

Lemma decide_check_never_renders : forall a parse lint render,
  check a = true -> rendered_of (decide a parse lint render) = None.
Proof.
  intros a parse lint render Hc. rewrite decide_check by exact Hc.
  destruct (parse false) as [|[]]; try reflexivity. destruct (Nat.ltb 0 _); reflexivity.
Qed.

(* what -F leaves of the unfiltered output: everything that is not an encoder / decoder function, and
   the functions of the selected messages *)
Definition keep_name (sel : bool) (b : string) : bool := negb (is_func_name b) || sel.
Definition keep (f : option (list string)) (e : emitted) : bool := is_decl e || selected f e.

(* ft: a filter is in force (-F given and non-empty); ni: the definition's name is listed in it.
   A dispatcher respects the filter when what it yields is what it yields in the unfiltered run,
   less the function blocks if the definition is not selected. *)
Definition disp_ok (disp : dispatcher) (ex : expander) : Prop :=
  forall k ft ni,
    items_of disp ex ft ni k = filter (keep_name (negb ft || ni)) (items_of disp ex false false k).

Lemma filter_keep_owner : forall f (d : bdef) (l : list string),
  filter (keep f) (map (fun s => (s, Some d)) l) =
  map (fun s => (s, Some d)) (filter (keep_name (selected_name f (d_name d))) l).
Proof.
  intros f d l. induction l as [|s r IH]; [reflexivity|].
  cbn [map filter]. rewrite IH.
  change (keep f (s, Some d)) with (keep_name (selected_name f (d_name d)) s).
  destruct (keep_name _ s); reflexivity.
Qed.

Lemma emit_disp_filter : forall disp ex f defs, disp_ok disp ex ->
  emit_disp disp ex f defs = filter (keep f) (emit_disp disp ex None defs).
Proof.
  intros disp ex f defs Hok. unfold emit_disp. induction defs as [|d r IH]; [reflexivity|].
  cbn [flat_map]. rewrite filter_app, IH, filter_keep_owner. f_equal.
  rewrite (Hok (d_kind d) (truthy_list f) (name_in f (d_name d))). reflexivity.
Qed.

Lemma assoc_in : forall A k (l : list (string * A)) v, assoc k l = Some v -> exists k', In (k', v) l.
Proof.
  intros A k l v. induction l as [|[k' v'] r IH]; cbn [assoc]; [discriminate|].
  destruct (String.eqb k k').
  - intro H. injection H as ->. exists k'. left. reflexivity.
  - intro H. destruct (IH H) as [k'' Hin]. exists k''. right. exact Hin.
Qed.

Definition table_ok (ds : list (string * dispatcher)) (ex : expander) : Prop :=
  forall k disp, In (k, disp) ds -> disp_ok disp ex.

Lemma emit_file_filter : forall blocks ds ex f defs, table_ok ds ex ->
  emit_file blocks ds ex f defs = filter (keep f) (emit_file blocks ds ex None defs).
Proof.
  intros blocks ds ex f defs Hok. unfold emit_file. induction blocks as [|b r IH]; [reflexivity|].
  cbn [flat_map]. rewrite filter_app, IH. f_equal.
  destruct (assoc b ds) as [disp|] eqn:E.
  - destruct (assoc_in _ _ _ _ E) as [k Hin]. exact (emit_disp_filter disp ex f defs (Hok k disp Hin)).
  - cbn [filter]. unfold keep, selected. cbn [snd]. rewrite orb_true_r. reflexivity.
Qed.

Ltac table_tac :=
  intros k disp Hin; cbn in Hin;
  repeat (destruct Hin as [Hin|Hin]; [injection Hin as _ <-; intros kd ft ni; destruct kd, ft, ni; vm_compute; reflexivity|]);
  contradiction.

Lemma table_c_src : table_ok c_src_dispatchers ex_c_src. Proof. table_tac. Qed.
Lemma table_c_hdr : table_ok c_hdr_dispatchers ex_c_hdr. Proof. table_tac. Qed.
Lemma table_go : table_ok go_dispatchers ex_go. Proof. table_tac. Qed.

(* with -F each output file is the unfiltered one, less the encoder / decoder functions of the messages
   that are not selected: same items, same order *)
Theorem emit_filter : forall t f defs, emit t f defs = filter (keep f) (emit t None defs).
Proof.
  intros t f defs. destruct t; cbn [emit]; apply emit_file_filter.
  - apply table_c_src.
  - apply table_c_hdr.
  - apply table_go.
Qed.

Lemma filter_exact : forall t f defs,
  funcs (emit t f defs) = filter (selected f) (funcs (emit t None defs)).
Proof.
  intros t f defs. rewrite emit_filter. unfold funcs. rewrite !filter_filter. apply filter_ext.
  intro e. unfold keep, is_decl. destruct (is_func e), (selected f e); reflexivity.
Qed.

Lemma decls_kept : forall t f defs, decls (emit t f defs) = decls (emit t None defs).
Proof.
  intros t f defs. rewrite emit_filter. unfold decls. rewrite filter_filter. apply filter_ext.
  intro e. unfold keep. destruct (is_decl e), (selected f e); reflexivity.
Qed.

Lemma selected_unqualified : forall f b1 b2 d1 d2,
  d_name d1 = d_name d2 -> selected f (b1, Some d1) = selected f (b2, Some d2).
Proof. intros f b1 b2 d1 d2 H. unfold selected. cbn [snd]. rewrite H. reflexivity. Qed.

Definition msg_only (ds : list (string * dispatcher)) (ex : expander) : Prop :=
  forall k disp kd, In (k, disp) ds -> kd <> KMessage ->
    filter is_func_name (items_of disp ex false false kd) = [].

Lemma msg_only_tables :
  msg_only c_src_dispatchers ex_c_src /\ msg_only c_hdr_dispatchers ex_c_hdr /\ msg_only go_dispatchers ex_go.
Proof.
  repeat split; intros k disp kd Hk Hne; cbn in Hk;
    repeat (destruct Hk as [Hk|Hk];
            [injection Hk as _ <-; destruct kd; first [contradiction Hne; reflexivity | vm_compute; reflexivity]|]);
    contradiction.
Qed.

(* without -F: only messages of the rendered proto own encoder / decoder functions *)
Lemma funcs_owner_message : forall t defs e,
  In e (funcs (emit t None defs)) -> exists d, snd e = Some d /\ In d defs /\ d_kind d = KMessage.
Proof.
  intros t defs e H. unfold funcs in H. apply filter_In in H as [Hin Hf].
  assert (G : forall blocks ds ex, In e (emit_file blocks ds ex None defs) ->
              forallb (fun b => negb (is_func_name b)) blocks = true -> msg_only ds ex ->
              exists d, snd e = Some d /\ In d defs /\ d_kind d = KMessage).
  { intros blocks ds ex Hi Hplain Hkind. unfold emit_file in Hi. apply in_flat_map in Hi as [b [Hb Hi]].
    destruct (assoc b ds) as [disp|] eqn:E.
    - unfold emit_disp in Hi. apply in_flat_map in Hi as [d [Hd Hi]]. apply in_map_iff in Hi as [s [<- Hs]].
      exists d. split; [reflexivity|]. split; [exact Hd|].
      destruct (defkind_eqb (d_kind d) KMessage) eqn:K; [apply defkind_eqb_eq, K|].
      exfalso. destruct (assoc_in _ _ _ _ E) as [k Hk].
      assert (Hne : d_kind d <> KMessage) by (intro X; rewrite X in K; discriminate K).
      assert (Hsin : In s (filter is_func_name (items_of disp ex false false (d_kind d)))).
      { apply filter_In. split; [exact Hs|exact Hf]. }
      rewrite (Hkind k disp (d_kind d) Hk Hne) in Hsin. exact Hsin.
    - (* a block of the file itself: none of them is a function block *)
      destruct Hi as [<-|[]]. rewrite forallb_forall in Hplain. specialize (Hplain b Hb).
      unfold is_func in Hf. cbn [fst] in Hf. rewrite Hf in Hplain. discriminate. }
  destruct msg_only_tables as (Tsrc & Thdr & Tgo).
  destruct t; cbn [emit] in Hin.
  - exact (G _ _ _ Hin eq_refl Tsrc).
  - exact (G _ _ _ Hin eq_refl Thdr).
  - exact (G _ _ _ Hin eq_refl Tgo).
Qed.

Lemma lang_refused_iff : forall l, lang_supports_opt l = false <-> l = LPy.
Proof. intros []; rewrite lang_supports_opt_table; split; intro H; try reflexivity; try discriminate; congruence. Qed.

Definition refusal (a : args) (root : list ftree) : Prop :=
  (enable_optimize a = true /\ any_marker root = true) \/
  (enable_optimize a = true /\ exists l, lang_ a = Some l /\ lang_supports_opt l = false) \/
  (enable_optimize a = false /\ truthy_list (filter_messages a) = true).

Lemma refusals_nonzero : forall a root lint io,
  check a = false -> refusal a root ->
  exit_code (decide a (parse_of root) lint (render_model io)) <> 0 /\
  rendered_of (decide a (parse_of root) lint (render_model io)) = None.
Proof.
  intros a root lint io Hc Hr. apply refused, decide_compile_exit; [exact Hc|].
  destruct Hr as [[HO Hm]|[[HO [l [Hl Hs]]]|[HO HF]]].
  - left. unfold trad_flag, parse_of. rewrite HO, Hc. cbn.
    destruct (parse_files true root) eqn:E; [discriminate|]. exfalso. exact (parse_files_marker root Hm E).
  - right; right; right. unfold req_of, render_model. rewrite Hl, HO. cbn.
    rewrite (render_classes_unsupported _ Hs). discriminate.
  - right; right; left. split; assumption.
Qed.

Lemma filter_membership : forall t f defs e,
  In e (funcs (emit t f defs)) <-> In e (funcs (emit t None defs)) /\ selected f e = true.
Proof. intros t f defs e. rewrite filter_exact. apply filter_In. Qed.
