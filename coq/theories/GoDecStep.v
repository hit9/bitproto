(* GoDecStep.v — the Go decoder at one leaf: what processBaseType (decode direction) over the
   emitted BpSetByte, followed by BpProcessInt, leaves in a leaf of the Go struct.
   The chunk loop is the hand-modelled skeleton GoRt.go_pbt_dec over the TRANSLATED helpers
   (BPGen.GenGo, with their explicit 64-bit / 8-bit wrap-arounds); the combining operation is
   the typed `m.F |= (T(b) << lshift)`; the sign handling is `m.F <<= d; m.F >>= d`.
   The path algebra (at_leaf, set_idx, slice) and the arithmetic of the chunk steps
   (unsigned_step, cast_step_sext) are shared with the Python proof (PyDecStep / PyDecLeaf). *)
From Coq Require Import ZArith List Lia.
From BP Require Import Bits Schema Spec PyRt ByteStep PyDecStep PyDecLeaf
                       GoRt GoHelpers.
From BPGen Require GenPy GenGo.
Import ListNotations.
Open Scope Z_scope.

(* sign extension by  x <<= d ; x >>= d  at the storage width w, d = w - n *)
Theorem go_sign_extend w n u :
  In w [8; 16; 32; 64] -> 1 <= n <= w -> 0 <= u < 2 ^ n ->
  Z.shiftr (GenGo.wrap_s w (Z.shiftl u (w - n))) (w - n) = sext n u.
Proof.
  intros _ Hn Hu. rewrite sext_sext' by lia. unfold sext'.
  rewrite Z.shiftl_mul_pow2, Z.shiftr_div_pow2 by lia.
  assert (Hd : 0 < 2 ^ (w - n)) by (apply pow2_pos; lia).
  assert (Hh : 0 < 2 ^ (n - 1)) by (apply pow2_pos; lia).
  assert (E1 : 2 ^ w = 2 ^ n * 2 ^ (w - n)) by (rewrite <- Z.pow_add_r by lia; f_equal; lia).
  assert (E2 : 2 ^ (w - 1) = 2 ^ (n - 1) * 2 ^ (w - n)) by (rewrite <- Z.pow_add_r by lia; f_equal; lia).
  rewrite wrap_s_spec by nia. rewrite E2.
  destruct (Z.ltb_spec u (2 ^ (n - 1))).
  - replace (u * 2 ^ (w - n) <? _) with true by nia. apply Z.div_mul. lia.
  - replace (u * 2 ^ (w - n) <? _) with false by nia.
    replace (u * 2 ^ (w - n) - 2 ^ w) with ((u - 2 ^ n) * 2 ^ (w - n)) by (rewrite E1; ring).
    apply Z.div_mul. lia.
Qed.

(* the typed accessor statement `m.F |= (T(b) << lshift)`: converting the byte to T before shifting
   loses nothing, and the operand equals the one the Python accessor ORs in (bp.intW(int(b) <<
   lshift) for signed, int(b) << lshift for unsigned).  T in {u}int8/16/32/64, b a byte, lshift in
   0..W-8 (what dec_lshift j = 8*(j/8) yields for j < n <= W): the shifted byte still fits W bits. *)
Theorem go_chunk_eq_py w b l :
  In w [8; 16; 32; 64] -> 0 <= b < 256 -> 0 <= l -> l + 8 <= w ->
  conv_to (GInt w) (Z.shiftl (GenGo.wrap_s w b) l) = Ok (cast_w w (Z.shiftl b l)) /\
  conv_to (GUint w) (Z.shiftl (GenGo.wrap_u w b) l) = Ok (Z.shiftl b l).
Proof.
  intros Hw Hb Hl Hlw.
  assert (Hw' : w = 8 \/ w = 16 \/ w = 32 \/ w = 64) by (cbn in Hw; lia).
  assert (H8 : 256 <= 2 ^ w) by (change 256 with (2 ^ 8); apply Z.pow_le_mono_r; lia).
  assert (Hx : 0 <= Z.shiftl b l < 2 ^ w).
  { rewrite Z.shiftl_mul_pow2 by lia.
    assert (E : 2 ^ w = 2 ^ (w - l) * 2 ^ l) by (rewrite <- Z.pow_add_r by lia; f_equal; lia).
    assert (256 <= 2 ^ (w - l)) by (change 256 with (2 ^ 8); apply Z.pow_le_mono_r; lia).
    assert (0 < 2 ^ l) by (apply Z.pow_pos_nonneg; lia). nia. }
  unfold conv_to. cbn [under]. split; f_equal.
  - rewrite cast_w_spec by assumption.
    destruct (Z.eq_dec w 8) as [->|Hne].
    + (* int8(b) can be negative, but then nothing is shifted *)
      assert (l = 0) by lia. subst l. rewrite !Z.shiftl_0_r.
      rewrite (wrap_s_spec 8 b) by lia. change (2 ^ (8 - 1)) with 128 in *. change (2 ^ 8) with 256 in *.
      destruct (b <? 128) eqn:E; apply wrap_s_id; change (2 ^ (8 - 1)) with 128; lia.
    + assert (512 <= 2 ^ (w - 1)) by (change 512 with (2 ^ 9); apply Z.pow_le_mono_r; lia).
      rewrite (wrap_s_id w b) by lia. apply wrap_s_spec; lia.
  - unfold GenGo.wrap_u. rewrite (Z.mod_small b) by lia. apply Z.mod_small. exact Hx.
Qed.

Lemma go_pbt_dec_step f n g acc fn stk j s i :
  0 <= j < n -> n <= 64 -> 0 <= i -> bytes_ok s -> i + (n - j) <= 8 * Z.of_nat (length s) ->
  go_lim s ->
  let cnt := GenPy.get_nbits_to_copy i j n in
  go_pbt_dec (S f) n g acc fn stk j {| cs := s; ci := i |} =
  (acc' <- go_set_byte g acc fn stk (GenPy.dec_lshift j)
             (GenPy.dec_d (nth (Z.to_nat (i / 8)) s 0) i j cnt) ;;
   go_pbt_dec f n g acc' fn stk (j + cnt) {| cs := s; ci := i + cnt |}).
Proof.
  intros Hj Hn Hi Hs Hlen Hsm cnt.
  destruct (go_step_eq s i j n Hsm ltac:(lia) Hj Hn) as (Ec & (_ & Ei) & (_ & El) & Ed & Wj & Wi).
  fold cnt in Ec, Ed, Wj, Wi.
  assert (Hq : 0 <= i / 8 < Z.of_nat (length s)).
  { split; [apply Z.div_pos; lia|apply Z.div_lt_upper_bound; lia]. }
  cbn [go_pbt_dec cs ci]. replace (j <? n) with true by lia.
  rewrite Ec. unfold go_dec_single_byte, buf_at. cbn [cs ci].
  rewrite Ei. unfold GenPy.dec_index.
  replace (i / 8 <? 0) with false by lia.
  rewrite (nth_error_nth' s 0) by lia. cbn [bind].
  rewrite El, (proj2 (Ed _ (nth_bytes_ok s _ Hs))). now rewrite Wj, Wi.
Qed.

Lemma go_chunks g fn stk n i0 s :
  n <= 64 -> 0 <= i0 -> bytes_ok s -> i0 + n <= 8 * Z.of_nat (length s) -> go_lim s ->
  is_chunk_loop (fun f acc j x => go_pbt_dec f n g acc fn stk j x) (fun acc l d => go_set_byte g acc fn stk l d)
                n i0 s.
Proof.
  intros Hn Hi0 Hs Hlen Hsm. split.
  - intros [|f] acc x; cbn [go_pbt_dec]; now rewrite Z.ltb_irrefl.
  - intros f acc j Hj. apply go_pbt_dec_step; try assumption; lia.
Qed.

(* the accessor shift 8 * (j / 8) of a chunk of an n-bit field leaves room for a byte below bit w *)
Lemma lshift_fits w n l :
  In w [8; 16; 32; 64] -> n <= w -> 0 <= l < n -> l mod 8 = 0 -> l + 8 <= w.
Proof. intros Hw. cbn in Hw. intros. Z.div_mod_to_equations. lia. Qed.

Section GLeaf.
  Variables (g : gcls) (vs : list (Z * val)) (fn : Z) (stk : list nat) (a : val).
  Hypothesis Hl : lookup fn vs = Some a.
  Variable cur0 : val.
  Hypothesis Hidx : index_val a stk = Ok cur0.

  Notation leaf := (at_leaf vs fn stk a).

  (* reading and writing a Go struct field is the Python attribute access of a class without
     enum proxies: the two pairs of definitions are convertible *)
  Lemma go_read_ref_at x : go_read_ref (leaf x) fn stk (length stk) = Ok x.
  Proof. exact (read_ref_at nil_cls vs fn stk a Hl cur0 Hidx eq_refl x). Qed.

  Lemma go_write_ref_at x y : go_write_ref (leaf x) fn stk (length stk) y = Ok (leaf y).
  Proof. exact (write_ref_at nil_cls vs fn stk a Hl cur0 Hidx eq_refl x y). Qed.

  Lemma go_set_or_unsigned e w :
    lookup fn (gc_set g) = Some e -> gs_depth e = length stk -> gs_kind e = GSOr ->
    (under (gs_conv e) = GUint w \/ (under (gs_conv e) = GByte /\ w = 8)) ->
    In w [8; 16; 32; 64] ->
    forall z lshift d, 0 <= d < 256 -> 0 <= lshift -> lshift + 8 <= w ->
      go_set_byte g (leaf (VZ z)) fn stk lshift d = Ok (leaf (VZ (Z.lor z (Z.shiftl d lshift)))).
  Proof.
    intros He Hd Hk Hu Hw z lshift d Hdr Hl0 Hlw. unfold go_set_byte. rewrite He, Hk, Hd.
    rewrite go_read_ref_at. cbn [bind int_of].
    destruct (go_chunk_eq_py w d lshift Hw Hdr Hl0 Hlw) as [_ Hc]. unfold conv_to in *. cbn [under] in Hc.
    injection Hc as Hc.
    destruct Hu as [Hu|[Hu ->]]; rewrite Hu; cbn [bind]; rewrite Hc; apply go_write_ref_at.
  Qed.

  Lemma go_set_or_signed e w :
    lookup fn (gc_set g) = Some e -> gs_depth e = length stk -> gs_kind e = GSOr ->
    under (gs_conv e) = GInt w -> In w [8; 16; 32; 64] ->
    forall z lshift d, 0 <= d < 256 -> 0 <= lshift -> lshift + 8 <= w ->
      go_set_byte g (leaf (VZ z)) fn stk lshift d =
      Ok (leaf (VZ (Z.lor z (cast_w w (Z.shiftl d lshift))))).
  Proof.
    intros He Hd Hk Hu Hw z lshift d Hdr Hl0 Hlw. unfold go_set_byte. rewrite He, Hk, Hd.
    rewrite go_read_ref_at. cbn [bind int_of].
    destruct (go_chunk_eq_py w d lshift Hw Hdr Hl0 Hlw) as [Hc _]. unfold conv_to in *. cbn [under] in Hc.
    injection Hc as Hc. rewrite Hu. cbn [bind]. rewrite Hc. apply go_write_ref_at.
  Qed.
End GLeaf.

Section GKinds.
  Variables (g : gcls) (vs : list (Z * val)) (fn : Z) (stk : list nat) (a : val).
  Hypothesis Hl : lookup fn vs = Some a.
  Variable cur0 : val.
  Hypothesis Hidx : index_val a stk = Ok cur0.
  Variables (s : list Z) (i0 n : Z).
  Hypothesis Hn : 1 <= n.

  Notation leaf := (at_leaf vs fn stk a).
  Let u := slice s i0 n.

  (* BpProcessInt: m.F <<= d ; m.F >>= d *)
  Lemma go_process_int_sign w gt ge :
    In w [8; 16; 32; 64] -> n < w ->
    lookup fn (gc_int g) = Some {| gi_depth := length stk; gi_d := w - n |} ->
    lookup fn (gc_struct g) = Some gt -> elem_gty gt (length stk) = Some ge -> under ge = GInt w ->
    go_process_int g (leaf (VZ u)) fn stk = Ok (leaf (VZ (sext' n u))).
  Proof.
    intros Hw Hnw Hint Hst Hel Hu. unfold go_process_int. rewrite Hint. cbn [gi_depth gi_d].
    rewrite (go_read_ref_at vs fn stk a Hl cur0 Hidx). cbn [bind int_of].
    rewrite Hst, Hel. unfold conv_to. rewrite Hu. cbn [bind].
    rewrite (go_write_ref_at vs fn stk a Hl cur0 Hidx). do 3 f_equal.
    pose proof (u_range s i0 n Hn) as Hur. fold u in Hur.
    rewrite (go_sign_extend w n u Hw ltac:(lia) Hur). apply sext_sext'; assumption.
  Qed.

  Lemma go_process_int_none d :
    lookup fn (gc_int g) = None -> go_process_int g (leaf d) fn stk = Ok (leaf d).
  Proof. intros H. unfold go_process_int. now rewrite H. Qed.
End GKinds.

(* one chunk of one bit, assigned through bp.Byte2bool *)
Lemma go_dec_bool g vs fn stk a cur0 s i0 e :
  lookup fn vs = Some a -> index_val a stk = Ok cur0 ->
  lookup fn (gc_set g) = Some e -> gs_depth e = length stk -> gs_kind e = GSBool ->
  under (gs_conv e) = GBool ->
  bytes_ok s -> 0 <= i0 -> i0 + 1 <= 8 * Z.of_nat (length s) -> go_lim s ->
  go_pbt_dec (fuel_of 1) 1 g (VM vs) fn stk 0 {| cs := s; ci := i0 |} =
  Ok (at_leaf vs fn stk a (VB (negb (slice s i0 1 =? 0))), {| cs := s; ci := i0 + 1 |}).
Proof.
  intros Hl Hidx He Hde Hke Hue Hs Hi0 Hlen Hsm.
  change (fuel_of 1) with 1%nat. rewrite go_pbt_dec_step by (try assumption; lia). cbv zeta.
  pose proof (nbits_to_copy_range i0 0 1 ltac:(lia)) as (Hc1 & Hc2 & Hc3 & Hc4).
  replace (GenPy.get_nbits_to_copy i0 0 1) with 1 in * by lia.
  destruct (dec_chunk_at s i0 0 1 Hs Hi0 ltac:(lia) ltac:(lia) Hc4 Hc3) as (Hdr & Hd).
  change (GenPy.dec_lshift 0) with 0 in *. rewrite Z.shiftl_0_r, Z.mul_1_r in Hd. rewrite Hd in *.
  unfold go_set_byte. rewrite He, Hke, Hue, Hde.
  rewrite <- (at_leaf_id vs fn stk a Hl cur0 Hidx).
  rewrite (go_write_ref_at vs fn stk a Hl cur0 Hidx). cbn [bind go_pbt_dec].
  change (0 + 1 <? 1) with false. cbv iota. now rewrite Byte2bool_spec by lia.
Qed.
