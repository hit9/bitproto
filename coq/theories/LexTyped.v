(* LexTyped.v — uintN / intN for EVERY N: at word boundaries on both sides, `uint` (resp. `int`) followed by
   a run of digits is matched by t_UINT_TYPE (resp. t_INT_TYPE) with the WHOLE run — the greedy `[0-9]+`
   followed by `\b` backtracks through the shorter runs, but none of those is at a boundary. *)
From Coq Require Import ZArith List Bool Lia.
From BP Require Import LexBase Lex LexSpec LexProofs LexMunch LexOrigin.
From BPGen Require Import GenLexer.
Import ListNotations.

Section Typed.
Variable uw : N -> bool.

Lemma digit_is_word c : ok_digit c = true -> is_word uw c = true.
Proof. rewrite ok_digit_spec. intro H. apply id_char_is_word. unfold is_id_char. rewrite H. apply orb_true_r. Qed.

Lemma lastc_digits d0 ds : ok_digit d0 = true -> forallb ok_digit ds = true ->
  exists d, lastc (Some d0) ds = Some d /\ ok_digit d = true.
Proof.
  intros H0 Hd. apply (lastc_sat ok_digit (d0 :: ds) None ltac:(discriminate)). cbn [forallb]. rewrite H0, Hd. reflexivity.
Qed.

Definition digit_class : rx := XIn false [(48, 57)]%N.

Lemma seq_then fuel A B s x :
  rmatch uw fuel A s = Some x -> mres uw fuel B x = [x] -> rmatch uw fuel (XSeq A B) s = Some x.
Proof.
  unfold rmatch. intros HA HB. cbn [mres]. destruct (mres uw fuel A s) as [|y l]; [discriminate|].
  cbn [hd_error] in HA. inversion HA; subst y. cbn [flat_map]. rewrite HB. reflexivity.
Qed.

Lemma plus_digits_bound fuel q d0 ds post :
  ok_digit d0 = true -> forallb ok_digit ds = true -> word_opt uw (hd_error post) = false ->
  (length (ds ++ post) <= fuel)%nat ->
  rmatch uw fuel (XSeq (XPlus true digit_class) XBound) (q, d0 :: ds ++ post) = Some (lastc (Some d0) ds, post).
Proof.
  intros H0 Hd Hq Hl.
  assert (Hstop : match post with c :: _ => ok_digit c = false | [] => True end).
  { destruct post as [|c r]; [exact I|]. cbn [hd_error word_opt] in Hq.
    destruct (ok_digit c) eqn:E; [|reflexivity]. rewrite (digit_is_word c E) in Hq. discriminate. }
  pose proof (class_then_greedy uw fuel digit_class digit_class q (d0 :: ds ++ post) eq_refl eq_refl) as K.
  cbv beta iota in K. change (atom_ok digit_class) with ok_digit in K. rewrite H0 in K. rewrite (span_app_stop ok_digit ds post Hd Hstop) in K. cbn [fst snd] in K.
  destruct (lastc_digits d0 ds H0 Hd) as (d & Hld & Hdd).
  assert (Hb : boundary uw (lastc (Some d0) ds, post) = true)
    by (rewrite Hld; exact (boundary_after uw d post (digit_is_word d Hdd) Hq)).
  apply seq_then.
  - apply K. cbn [length]. lia.
  - cbn [mres]. rewrite Hb. reflexivity.
Qed.

Theorem uint_typed fuel p d0 ds post :
  word_opt uw p = false -> word_opt uw (hd_error post) = false ->
  ok_digit d0 = true -> forallb ok_digit ds = true -> (length (ds ++ post) <= fuel)%nat ->
  exists r, first_rule uw fuel lex_rules (p, W_uint ++ d0 :: ds ++ post) = Some (r, (lastc (Some d0) ds, post))
            /\ r_name r = T_UINT_TYPE.
Proof.
  intros Hp Hq H0 Hd Hl. unfold W_uint. cbn [app]. rewrite first_rule_dispatch.
  let d := eval vm_compute in (dispatch 117) in change (dispatch 117) with d. cbn [first_rule r_rx].
  rewrite seq_bound by (apply boundary_before; [exact Hp|reflexivity]).
  rewrite !seq_char. fold digit_class. rewrite plus_digits_bound by assumption.
  eexists. split; reflexivity.
Qed.

Theorem int_typed fuel p d0 ds post :
  word_opt uw p = false -> word_opt uw (hd_error post) = false ->
  ok_digit d0 = true -> forallb ok_digit ds = true -> (length (ds ++ post) <= fuel)%nat ->
  exists r, first_rule uw fuel lex_rules (p, W_int ++ d0 :: ds ++ post) = Some (r, (lastc (Some d0) ds, post))
            /\ r_name r = T_INT_TYPE.
Proof.
  intros Hp Hq H0 Hd Hl. unfold W_int. cbn [app]. rewrite first_rule_dispatch.
  let d := eval vm_compute in (dispatch 105) in change (dispatch 105) with d. cbn [first_rule r_rx].
  rewrite seq_bound by (apply boundary_before; [exact Hp|reflexivity]).
  rewrite !seq_char. fold digit_class. rewrite plus_digits_bound by assumption.
  eexists. split; reflexivity.
Qed.

(* whole runs: an IDENTIFIER token spelled uint<digits> / int<digits> is glued to a word character *)
Theorem width_identifier_is_glued s its e rem a t lx b d0 ds :
  lex_run uw s = (its, e, rem) -> its = a ++ ITok t lx :: b ->
  cps_eqb (t_type t) T_IDENTIFIER = true ->
  (lx = W_uint ++ d0 :: ds \/ lx = W_int ++ d0 :: ds) -> ok_digit d0 = true -> forallb ok_digit ds = true ->
  word_opt uw (lastc None (items_text a)) = true \/ word_opt uw (hd_error (items_text b ++ rem)) = true.
Proof.
  intros Hrun Hits Hty Hlx H0 Hd. apply (identifier_is_glued uw s its e rem a t lx b Hrun Hits Hty).
  intros fuel p post Hp Hq Hlen.
  assert (Hl : (length (ds ++ post) <= fuel)%nat)
    by (destruct Hlx; subst lx; rewrite !app_length in Hlen; cbn [length] in Hlen; rewrite app_length; lia).
  destruct Hlx; subst lx; rewrite <- app_assoc; cbn [app].
  - destruct (uint_typed fuel p d0 ds post Hp Hq H0 Hd Hl) as (r & Hfr & Hn). exists r. eexists. rewrite Hn. split; [exact Hfr|reflexivity].
  - destruct (int_typed fuel p d0 ds post Hp Hq H0 Hd Hl) as (r & Hfr & Hn). exists r. eexists. rewrite Hn. split; [exact Hfr|reflexivity].
Qed.

End Typed.
