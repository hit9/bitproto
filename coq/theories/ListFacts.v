(* ListFacts.v — facts about firstn / skipn / forallb / existsb / filter / Forall2 / flat_map / NoDup
   and permutations, and about string concatenation, that Coq's libraries do not have; facts about
   single characters as sweeps over the 256 values of [ascii], and the view of disjoint character
   classes. *)
From Coq Require Import Bool Arith NArith Ascii String Lia Permutation List.
Import ListNotations.

Lemma firstn_app_l {A} (a b : list A) : firstn (length a) (a ++ b) = a.
Proof. rewrite firstn_app, Nat.sub_diag, firstn_all. apply app_nil_r. Qed.

Lemma skipn_app_l {A} (a b : list A) : skipn (length a) (a ++ b) = b.
Proof. rewrite skipn_app, Nat.sub_diag, skipn_all. reflexivity. Qed.

Lemma firstn_In {A} (l : list A) k a : In a (firstn k l) -> In a l.
Proof. intros H. rewrite <- (firstn_skipn k l). apply in_or_app. now left. Qed.

Lemma skipn_cons_nth {A} (l : list A) k d :
  (k < length l)%nat -> skipn k l = nth k l d :: skipn (S k) l.
Proof.
  revert k; induction l as [|a r IHl]; intros k Hk; [cbn in Hk; lia|].
  destruct k; [reflexivity|]. cbn [skipn nth]. apply IHl. cbn in Hk. lia.
Qed.

Lemma skipn_skipn' {A} (a b : nat) (l : list A) : skipn a (skipn b l) = skipn (b + a) l.
Proof.
  revert l; induction b as [|b IH]; intros l; [reflexivity|].
  destruct l as [|x l]; [now rewrite !skipn_nil|]. cbn [skipn plus]. apply IH.
Qed.

Lemma forallb_impl {A} (p q : A -> bool) l :
  (forall x, p x = true -> q x = true) -> forallb p l = true -> forallb q l = true.
Proof.
  intros H Hp. apply forallb_forall. intros x Hx. apply H.
  rewrite forallb_forall in Hp. apply Hp, Hx.
Qed.

Lemma forallb_map {A B} (f : A -> B) (p : B -> bool) l :
  forallb p (map f l) = forallb (fun x => p (f x)) l.
Proof. induction l as [|x r IH]; [reflexivity|]. cbn [map forallb]. rewrite IH. reflexivity. Qed.

Lemma forallb_flat_map {A B} (f : A -> list B) (p : B -> bool) l :
  forallb p (flat_map f l) = forallb (fun x => forallb p (f x)) l.
Proof.
  induction l as [|x r IH]; [reflexivity|]. cbn [flat_map forallb]. rewrite forallb_app, IH. reflexivity.
Qed.

Lemma forallb_true {A} (l : list A) : forallb (fun _ => true) l = true.
Proof. induction l; [reflexivity|]. assumption. Qed.

Lemma existsb_false_forall {A} (p : A -> bool) l :
  (forall x, In x l -> p x = false) -> existsb p l = false.
Proof.
  induction l as [|x r IH]; intros H; [reflexivity|]. cbn [existsb].
  rewrite (H x (or_introl eq_refl)). apply IH. intros y Hy. apply H. right. exact Hy.
Qed.

Lemma forallb_existsb_false {A} (p q : A -> bool) l :
  (forall x, p x = true -> q x = false) -> forallb p l = true -> existsb q l = false.
Proof.
  intros H Hp. apply existsb_false_forall. intros x Hx. apply H. rewrite forallb_forall in Hp. apply Hp, Hx.
Qed.

Lemma forallb_agree {A} (f g : A -> bool) l :
  (forall d, In d l -> f d = g d) -> forallb f l = forallb g l.
Proof.
  intros H. induction l as [|x l IH]; cbn; [reflexivity|].
  rewrite (H x (or_introl eq_refl)), IH; [reflexivity|]. intros d Hd. apply H. right; exact Hd.
Qed.

Lemma existsb_eqb_false {A} (eqb : A -> A -> bool) (Heq : forall a b, eqb a b = true <-> a = b) x l :
  existsb (eqb x) l = false <-> ~ In x l.
Proof.
  rewrite <- not_true_iff_false, existsb_exists. split.
  - intros N Hin. apply N. exists x. split; [exact Hin|now apply Heq].
  - intros N [y [Hy E]]. apply Heq in E. now subst.
Qed.

Lemma filter_all {A} (p : A -> bool) l : forallb p l = true -> filter p l = l.
Proof.
  induction l as [|x r IH]; intros H; [reflexivity|]. cbn [forallb] in H.
  apply andb_true_iff in H. destruct H as [H1 H2]. cbn [filter]. rewrite H1, IH by exact H2. reflexivity.
Qed.

Lemma filter_none {A} (p : A -> bool) l : forallb (fun x => negb (p x)) l = true -> filter p l = [].
Proof.
  induction l as [|x r IH]; intros H; [reflexivity|]. cbn [forallb] in H.
  apply andb_true_iff in H. destruct H as [H1 H2]. cbn [filter].
  apply negb_true_iff in H1. rewrite H1. apply IH, H2.
Qed.

Lemma filter_filter {A} (p q : A -> bool) l : filter p (filter q l) = filter (fun x => q x && p x) l.
Proof.
  induction l as [|x r IH]; [reflexivity|]. cbn [filter].
  destruct (q x); cbn [filter andb]; rewrite IH; reflexivity.
Qed.

Lemma Forall2_nth {A B} (R : A -> B -> Prop) l l' k a :
  Forall2 R l l' -> nth_error l k = Some a -> exists b, nth_error l' k = Some b /\ R a b.
Proof.
  intros H. revert k. induction H as [|x y l l' Hxy _ IH]; intros k Hk; [destruct k; discriminate|].
  destruct k as [|k]; cbn [nth_error] in *.
  - inversion Hk; subst. now exists y.
  - now apply IH.
Qed.

Lemma Forall2_rev {A B} (P : A -> B -> Prop) l l' : Forall2 P l l' -> Forall2 P (rev l) (rev l').
Proof.
  induction 1 as [|a b l l' Hab _ IH]; [constructor|]. cbn [rev]. apply Forall2_app; [exact IH|].
  constructor; [exact Hab|constructor].
Qed.

Lemma map_ext_forallb {A B} (f g : A -> B) (p : A -> bool) l :
  (forall x, p x = true -> f x = g x) -> forallb p l = true -> map f l = map g l.
Proof.
  intros H Hl. apply map_ext_in. intros x Hx. apply H. rewrite forallb_forall in Hl. apply Hl, Hx.
Qed.

Lemma map_id_forallb {A} (f : A -> A) (p : A -> bool) l :
  (forall x, p x = true -> f x = x) -> forallb p l = true -> map f l = l.
Proof. intros H Hl. rewrite (map_ext_forallb f (fun x => x) p l H Hl). apply map_id. Qed.

Lemma map_flat_map {A B C} (g : B -> C) (f : A -> list B) l :
  map g (flat_map f l) = flat_map (fun x => map g (f x)) l.
Proof. induction l as [|x r IH]; [reflexivity|]. cbn [flat_map]. rewrite map_app, IH. reflexivity. Qed.

Lemma flat_map_single {A B} (f : A -> B) l : flat_map (fun x => [f x]) l = map f l.
Proof. induction l as [|x r IH]; [reflexivity|]. cbn. rewrite IH. reflexivity. Qed.

Lemma flat_map_map' {A C D} (g : A -> C) (f : C -> list D) l : flat_map f (map g l) = flat_map (fun a => f (g a)) l.
Proof. induction l as [|a r IH]; [reflexivity|]. cbn. now rewrite IH. Qed.

Lemma flat_map_ext_in {A B} (f g : A -> list B) l :
  (forall a, In a l -> f a = g a) -> flat_map f l = flat_map g l.
Proof.
  induction l as [|a r IH]; intros H; cbn [flat_map]; [reflexivity|].
  rewrite H by (left; reflexivity). rewrite IH; [reflexivity|]. intros; apply H; right; assumption.
Qed.

Lemma flat_map_length_const {A B} (f : A -> list B) (l : list A) (n : nat) :
  (forall a, In a l -> length (f a) = n) -> length (flat_map f l) = (length l * n)%nat.
Proof.
  induction l as [|a r IH]; intros H; [reflexivity|].
  cbn [flat_map length]. rewrite app_length, H, IH by (intros; try apply H; cbn; auto). lia.
Qed.

Lemma flat_map_filter {A B} (g : A -> list B) (p : A -> bool) l :
  flat_map g (filter p l) = flat_map (fun x => if p x then g x else []) l.
Proof. induction l as [|x r IH]; [reflexivity|]. cbn. destruct (p x); cbn; rewrite IH; reflexivity. Qed.

Lemma NoDup_app_intro {A} (a b : list A) :
  NoDup a -> NoDup b -> (forall x, In x a -> ~ In x b) -> NoDup (a ++ b).
Proof.
  induction a as [|x r IH]; intros Ha Hb H; [exact Hb|]. inversion Ha as [|? ? Hx Hr]; subst. cbn [app].
  constructor.
  - intros Hin. apply in_app_or in Hin. destruct Hin as [Hin | Hin]; [contradiction|].
    apply (H x); [left; reflexivity | exact Hin].
  - apply IH; [exact Hr | exact Hb|]. intros y Hy. apply H. right. exact Hy.
Qed.

Lemma NoDup_app_elim {A} (a b : list A) :
  NoDup (a ++ b) -> NoDup a /\ NoDup b /\ (forall x, In x a -> ~ In x b).
Proof.
  induction a as [|x r IH]; intros H.
  - split; [constructor | split; [exact H | intros x []]].
  - cbn [app] in H. inversion H as [|? ? Hx Hr]; subst. destruct (IH Hr) as [H1 [H2 H3]]. split; [|split].
    + constructor; [|exact H1]. intros Hin. apply Hx. apply in_or_app. left. exact Hin.
    + exact H2.
    + intros y [<- | Hy] Hy'; [apply Hx; apply in_or_app; right; exact Hy' | apply (H3 y Hy Hy')].
Qed.

Lemma NoDup_map_inj_on {A B} (g : A -> B) l :
  NoDup l -> (forall x y, In x l -> In y l -> g x = g y -> x = y) -> NoDup (map g l).
Proof.
  induction 1 as [|x r Hx _ IH]; intros Hinj; [constructor|]. cbn [map]. constructor.
  - intros Hin. apply in_map_iff in Hin. destruct Hin as [y [E Hy]].
    assert (y = x) by (apply Hinj; [right; exact Hy | left; reflexivity | exact E]). subst. contradiction.
  - apply IH. intros a b Ha Hb. apply Hinj; right; assumption.
Qed.

Lemma NoDup_map_transfer {A B C} (g : A -> B) (h : A -> C) l :
  (forall x y, h x = h y -> g x = g y) -> NoDup (map g l) -> NoDup (map h l).
Proof.
  intros Hgh. induction l as [|x r IH]; intros H; [constructor|]. cbn [map] in *. inversion H; subst.
  constructor; [|apply IH; assumption]. intros Hin. apply H2. apply in_map_iff in Hin. destruct Hin as [y [E Hy]].
  apply in_map_iff. exists y. split; [apply Hgh; exact E | exact Hy].
Qed.

Lemma NoDup_map_filter {A B} (g : A -> B) (p : A -> bool) l : NoDup (map g l) -> NoDup (map g (filter p l)).
Proof.
  induction l as [|x r IH]; intros H; [constructor|]. cbn [map] in H. inversion H; subst. cbn [filter].
  destruct (p x); [|apply IH; assumption]. cbn [map]. constructor; [|apply IH; assumption].
  intros Hin. apply H2. apply in_map_iff in Hin. destruct Hin as [y [E Hy]]. apply filter_In in Hy.
  apply in_map_iff. exists y. split; [exact E | apply Hy].
Qed.

Lemma NoDup_flat_map {A B} (g : A -> list B) l :
  (forall x, In x l -> NoDup (g x)) ->
  (forall l1 x l2 y l3, l = l1 ++ x :: l2 ++ y :: l3 -> forall b, In b (g x) -> ~ In b (g y)) ->
  NoDup (flat_map g l).
Proof.
  induction l as [|x r IH]; intros H1 H2; [constructor|]. cbn [flat_map].
  apply NoDup_app_intro.
  - apply H1. left. reflexivity.
  - apply IH.
    + intros y Hy. apply H1. right. exact Hy.
    + intros l1 a l2 c l3 E. apply (H2 (x :: l1) a l2 c l3). rewrite E. reflexivity.
  - intros b Hb Hb'. apply in_flat_map in Hb'. destruct Hb' as [y [Hy Hby]].
    destruct (in_split _ _ Hy) as [l2 [l3 E]]. apply (H2 [] x l2 y l3) with (b := b); [rewrite E; reflexivity | exact Hb | exact Hby].
Qed.

Lemma NoDup_flat_map_elim {A B} (g : A -> list B) l :
  NoDup (flat_map g l) ->
  (forall x, In x l -> NoDup (g x)) /\
  (forall l1 x l2 y l3, l = l1 ++ x :: l2 ++ y :: l3 -> forall b, In b (g x) -> ~ In b (g y)).
Proof.
  induction l as [|a r IH]; intros H.
  - split; [intros x []|]. intros l1 x l2 y l3 E. destruct l1; discriminate.
  - cbn [flat_map] in H. destruct (NoDup_app_elim _ _ H) as [Ha [Hr Hd]].
    destruct (IH Hr) as [IH1 IH2]. split.
    + intros x [<- | Hx]; [exact Ha | apply IH1; exact Hx].
    + intros l1 x l2 y l3 E b Hb Hb'. destruct l1 as [|c l1]; cbn [app] in E; inversion E; subst.
      * apply (Hd b Hb). apply in_flat_map. exists y. split; [apply in_or_app; right; left; reflexivity | exact Hb'].
      * apply (IH2 l1 x l2 y l3 eq_refl b Hb Hb').
Qed.

(* The things listed in [l] each declare BASE names and names DERIVED from what they own: the image of
   tokens (which template, which payload) under a map [skey] that is injective on admissible
   tokens.  All the names are distinct when the base names are, no admissible base name is a
   derived name, and tokens of two things differ because each is built from something its thing owns. *)
Lemma NoDup_base_derived {A K X O} (base : A -> list K) (skey : X -> K) (badm : K -> Prop) (sadm : X -> Prop)
      (sown : X -> O) (owns : A -> O -> Prop) (sp : A -> list X) (l : list A) :
  NoDup (flat_map base l) ->
  (forall l1 x l2 y l3, l = l1 ++ x :: l2 ++ y :: l3 -> forall o, owns x o -> ~ owns y o) ->
  (forall a b, sadm a -> sadm b -> skey a = skey b -> a = b) ->
  (forall k t, badm k -> sadm t -> k <> skey t) ->
  (forall x k, In x l -> In k (base x) -> badm k) ->
  (forall x, In x l -> NoDup (sp x)) ->
  (forall x t, In x l -> In t (sp x) -> sadm t) ->
  (forall x t, In t (sp x) -> owns x (sown t)) ->
  NoDup (flat_map (fun x => base x ++ map skey (sp x)) l).
Proof.
  intros Hb Hown sinj apart badm1 nodup1 sadm1 sids. destruct (NoDup_flat_map_elim _ _ Hb) as [Hb1 Hb2].
  assert (D : forall x k, In x l -> In k (map skey (sp x)) -> exists t, In t (sp x) /\ sadm t /\ k = skey t).
  { intros x k Hx Hk. apply in_map_iff in Hk. destruct Hk as [t [<- Ht]]. eauto. }
  apply NoDup_flat_map.
  - intros x Hx. apply NoDup_app_intro.
    + apply Hb1, Hx.
    + apply NoDup_map_inj_on; [apply nodup1, Hx|]. intros a b Ha Hb'. apply sinj; eapply sadm1; eassumption.
    + intros k Hk Hk'. destruct (D x k Hx Hk') as [t [_ [Ad E]]]. exact (apart k t (badm1 x k Hx Hk) Ad E).
  - intros l1 x l2 y l3 E k Hx Hy.
    assert (Hlx : In x l) by (rewrite E; apply in_elt).
    assert (Hly : In y l) by (rewrite E; apply in_or_app; right; right; apply in_elt).
    apply in_app_or in Hx. apply in_app_or in Hy. destruct Hx as [Hx | Hx], Hy as [Hy | Hy].
    + exact (Hb2 l1 x l2 y l3 E k Hx Hy).
    + destruct (D y k Hly Hy) as [t [_ [Ad Et]]]. exact (apart k t (badm1 x k Hlx Hx) Ad Et).
    + destruct (D x k Hlx Hx) as [t [_ [Ad Et]]]. exact (apart k t (badm1 y k Hly Hy) Ad Et).
    + destruct (D x k Hlx Hx) as [t [Ht [Ad ->]]]. destruct (D y _ Hly Hy) as [t' [Ht' [Ad' Et]]].
      apply (sinj t t' Ad Ad') in Et. subst t'. exact (Hown l1 x l2 y l3 E _ (sids x t Ht) (sids y t Ht')).
Qed.

Lemma flat_map_app_perm {A B} (g h : A -> list B) l :
  Permutation (flat_map g l ++ flat_map h l) (flat_map (fun x => g x ++ h x) l).
Proof.
  induction l as [|x r IH]; [constructor|]. cbn [flat_map].
  rewrite <- app_assoc. rewrite <- app_assoc. apply Permutation_app_head.
  rewrite app_assoc. rewrite (Permutation_app_comm (flat_map g r) (h x)). rewrite <- app_assoc.
  apply Permutation_app_head. exact IH.
Qed.

Lemma flat_map_perm_ext {A B} (g h : A -> list B) l :
  (forall x, Permutation (g x) (h x)) -> Permutation (flat_map g l) (flat_map h l).
Proof. intros H. induction l as [|x r IH]; [constructor|]. cbn [flat_map]. apply Permutation_app; [apply H | exact IH]. Qed.

Lemma NoDup_flat_map_app_r {A B} (g h : A -> list B) l :
  NoDup (flat_map (fun x => g x ++ h x) l) -> NoDup (flat_map h l).
Proof.
  intros H. apply (Permutation_NoDup (Permutation_sym (flat_map_app_perm g h l))) in H.
  apply (NoDup_app_elim _ _ H).
Qed.

Lemma append_nil_r (s : string) : (s ++ "")%string = s.
Proof. induction s as [|c s IH]; cbn; [reflexivity|]. rewrite IH. reflexivity. Qed.

Lemma length_append (a b : string) : String.length (a ++ b) = String.length a + String.length b.
Proof. induction a as [|c a IH]; cbn; [reflexivity|]. rewrite IH. reflexivity. Qed.

Lemma sapp_assoc (a b c : string) : ((a ++ b) ++ c)%string = (a ++ (b ++ c))%string.
Proof. induction a as [|x a IH]; [reflexivity|]. cbn [String.append]. rewrite IH. reflexivity. Qed.

Lemma sapp_inj_l p : forall a b, (p ++ a = p ++ b)%string -> a = b.
Proof. induction p as [|c p IH]; intros a b H; [exact H|]. cbn in H. injection H as H. apply IH. exact H. Qed.

Lemma sapp_inj_r c : forall a b, (a ++ c = b ++ c)%string -> a = b.
Proof.
  induction a as [|x a IH]; intros [|y b] H; [reflexivity | | |].
  - exfalso. apply (f_equal String.length) in H. cbn in H. rewrite length_append in H. lia.
  - exfalso. apply (f_equal String.length) in H. cbn in H. rewrite length_append in H. lia.
  - cbn in H. injection H as -> H. f_equal. apply IH. exact H.
Qed.

Lemma range1 a c : (N.leb a c && N.leb c a) = N.eqb c a.
Proof.
  destruct (N.eqb_spec c a) as [->|Hne].
  - rewrite N.leb_refl. reflexivity.
  - destruct (N.leb_spec a c), (N.leb_spec c a); cbn [andb]; try reflexivity. lia.
Qed.

(* A fact about single characters is finite: a boolean predicate that evaluates to true on the
   256 values of [ascii] holds of every character. *)
Lemma ascii_sweep (P : ascii -> bool) :
  forallb P (map ascii_of_nat (seq 0 256)) = true -> forall c, P c = true.
Proof.
  intros H c. rewrite <- (ascii_nat_embedding c). apply (proj1 (forallb_forall _ _) H), in_map, in_seq.
  split; [apply Nat.le_0_l | apply nat_ascii_bounded].
Qed.

Lemma ascii_sweep_impl (P Q : ascii -> bool) :
  forallb (fun c => implb (P c) (Q c)) (map ascii_of_nat (seq 0 256)) = true ->
  forall c, P c = true -> Q c = true.
Proof.
  intros H c HP. pose proof (ascii_sweep (fun c => implb (P c) (Q c)) H c) as Hc.
  cbv beta in Hc. rewrite HP in Hc. exact Hc.
Qed.

(* Disjoint character classes, said once as a view: for six class tests of which at most one
   holds of a character, [destruct] of a [char_class] fact leaves seven cases in each of which
   every test is a constant.  A model proves [one_of (p1 c) .. (p6 c) = true] by [ascii_sweep]. *)
Variant char_class : bool -> bool -> bool -> bool -> bool -> bool -> Prop :=
| CUpper : char_class true false false false false false
| CLower : char_class false true false false false false
| CDigit : char_class false false true false false false
| CUs : char_class false false false true false false
| CNl : char_class false false false false true false
| CDash : char_class false false false false false true
| COther : char_class false false false false false false.

Definition one_of (a b c d e f : bool) : bool :=
  match a, b, c, d, e, f with
  | true, false, false, false, false, false | false, true, false, false, false, false
  | false, false, true, false, false, false | false, false, false, true, false, false
  | false, false, false, false, true, false | false, false, false, false, false, true
  | false, false, false, false, false, false => true
  | _, _, _, _, _, _ => false
  end.

Lemma one_of_class a b c d e f : one_of a b c d e f = true -> char_class a b c d e f.
Proof. destruct a, b, c, d, e, f; try discriminate; constructor. Qed.
