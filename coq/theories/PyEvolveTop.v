(* PyEvolveTop.v — top-level statements for C05 (Python runtime). *)
From Coq Require Import ZArith List Lia.
From BP Require Import Bits Schema Spec PyRt PyEncProofs PyEncTop PyDecProofs Evolve.
From BP Require Export PyEvolve.
Import ListNotations.
Open Scope Z_scope.

(* S1-generated decoder on an S2-encoded buffer *)
Theorem py_forward_compat t1 t2 v2 :
  PyEncTop.is_msg t1 = true ->
  evolvesb (norm t1) (norm t2) = true ->
  wf (norm t1) = true -> wf (norm t2) = true -> dec_guard (norm t1) = true ->
  has_ty (norm t2) v2 = true ->
  py_decode t1 (wire t2 v2) = Ok (proj (norm t1) v2).
Proof.
  intros Hm He Hw1 Hw2 Hg Ht. unfold py_decode, py_decode_proc.
  pose proof (evolved_nbits_le t1 t2 v2 He Hw1 Hw2 Ht) as Hle. rewrite !nbits_norm in Hle.
  destruct (wire_at_0 t2 v2 Hw2 (has_ty_shape _ _ Ht)) as [Hlen8 Hslice].
  replace (Z.of_nat (length (wire t2 v2)) <? nbytes t1) with false.
  2:{ symmetry. apply Z.ltb_ge. rewrite (wire_length t2 v2 Hw2 Ht). unfold nbytes.
      apply Z.div_le_mono; lia. }
  rewrite (py_default_zero _ Hg).
  pose proof (rd_evolved _ _ v2 _ 0 He Hw1 Hw2 Ht ltac:(lia) Hslice) as E.
  set (T1 := norm t1) in *.
  destruct (is_msg_norm t1 Hm) as (x & fs & ET). fold T1 in ET. rewrite ET in *.
  pose proof (proj2 py_rd x fs (wire t2 v2) Hw1 (pack_bytes_ok _) I) as H. unfold py_Dtop in H.
  rewrite E in H. rewrite H by (cbn [snd]; lia). reflexivity.
Qed.
