(* Bits.v — bit lists, bytes, and the arithmetic every wire-level proof uses.
   Bit lists are LSB first.  Bytes are Z in [0,256).  A byte buffer is a list Z and is viewed as
   one big little-endian number by [bufZ]; [chunk u j c] is bits [j, j+c) of a number.  A writer
   is described by [placed] (a number added at the cursor of a buffer that is empty from there
   on), an encoder by [cut] (the finished stream up to its cursor); [lsd]: digits in any base. *)
From Coq Require Import ZArith List Bool Lia.
Import ListNotations.
Open Scope Z_scope.

Fixpoint bits_of (n : nat) (z : Z) : list bool :=
  match n with
  | O => []
  | S k => Z.odd z :: bits_of k (Z.div2 z)
  end.

Fixpoint Z_of_bits (l : list bool) : Z :=
  match l with
  | [] => 0
  | b :: r => Z.b2z b + 2 * Z_of_bits r
  end.

(* group a bit list into bytes, zero padding the last one *)
Fixpoint pack_fuel (fuel : nat) (l : list bool) : list Z :=
  match fuel with
  | O => []
  | S f =>
      match l with
      | [] => []
      | _ => Z_of_bits (firstn 8 l) :: pack_fuel f (skipn 8 l)
      end
  end.

Definition pack (l : list bool) : list Z := pack_fuel (length l) l.

Fixpoint bufZ (s : list Z) : Z :=
  match s with
  | [] => 0
  | b :: r => b + 256 * bufZ r
  end.

Definition is_byte (b : Z) : Prop := 0 <= b < 256.
Definition bytes_ok (s : list Z) : Prop := Forall is_byte s.

Fixpoint bytes_of (k : nat) (z : Z) : list Z :=
  match k with
  | O => []
  | S k' => (z mod 256) :: bytes_of k' (z / 256)
  end.

Fixpoint upd {A} (l : list A) (k : nat) (x : A) : list A :=
  match l, k with
  | [], _ => []
  | _ :: r, O => x :: r
  | a :: r, S k' => a :: upd r k' x
  end.

Fixpoint zeros (n : nat) : list Z :=
  match n with O => [] | S k => 0 :: zeros k end.

Lemma pow2_pos k : 0 <= k -> 0 < 2 ^ k.
Proof. intros; apply Z.pow_pos_nonneg; lia. Qed.

Lemma pow2_half n : 1 <= n -> 2 ^ n = 2 * 2 ^ (n - 1).
Proof. intros. rewrite <- Z.pow_succ_r by lia. f_equal. lia. Qed.

Lemma pow256 k : 0 <= k -> 256 ^ k = 2 ^ (8 * k).
Proof. intros. change 256 with (2 ^ 8). rewrite <- Z.pow_mul_r by lia. reflexivity. Qed.

Lemma pow2_byte_split j : 0 <= j -> 2 ^ j = 2 ^ (j mod 8) * 2 ^ (8 * (j / 8)).
Proof. intros Hj. rewrite <- Z.pow_add_r by (Z.div_mod_to_equations; lia). f_equal. Z.div_mod_to_equations; lia. Qed.

Lemma mod_mod_pow z a b : 0 <= a <= b -> (z mod 2 ^ b) mod 2 ^ a = z mod 2 ^ a.
Proof.
  intros H. replace (2 ^ b) with (2 ^ a * 2 ^ (b - a)).
  2:{ rewrite <- Z.pow_add_r by lia. f_equal. lia. }
  pose proof (pow2_pos a ltac:(lia)). pose proof (pow2_pos (b - a) ltac:(lia)).
  rewrite Z.rem_mul_r, Z.mul_comm, Z.mod_add by lia. apply Z.mod_mod. lia.
Qed.

Lemma mod_pow2_split z j c :
  0 <= j -> 0 <= c -> z mod 2 ^ (j + c) = z mod 2 ^ j + 2 ^ j * ((z / 2 ^ j) mod 2 ^ c).
Proof.
  intros Hj Hc. assert (0 < 2 ^ j /\ 0 < 2 ^ c) as [? ?] by (split; apply Z.pow_pos_nonneg; lia).
  rewrite Z.pow_add_r, Z.rem_mul_r by lia. reflexivity.
Qed.

Lemma mod_pow2_signed n z : 1 <= n -> - 2 ^ (n - 1) <= z < 2 ^ (n - 1) ->
  z mod 2 ^ n = if z <? 0 then z + 2 ^ n else z.
Proof.
  intros Hn Hz. pose proof (pow2_half n Hn) as E. pose proof (pow2_pos (n - 1) ltac:(lia)) as P.
  destruct (Z.ltb_spec z 0).
  - symmetry. apply (Z.mod_unique z (2 ^ n) (-1)); lia.
  - apply Z.mod_small. lia.
Qed.

Lemma top_bit n u : 1 <= n -> 0 <= u < 2 ^ n -> u / 2 ^ (n - 1) = if u <? 2 ^ (n - 1) then 0 else 1.
Proof.
  intros Hn Hu. pose proof (pow2_half n Hn). pose proof (pow2_pos (n - 1) ltac:(lia)).
  destruct (Z.ltb_spec u (2 ^ (n - 1))); [apply Z.div_small; lia|].
  symmetry. apply Z.div_unique with (r := u - 2 ^ (n - 1)); lia.
Qed.

Lemma place_bound p m j c w :
  0 <= j -> 0 <= c -> j + c <= w -> 0 <= p < 2 ^ j -> 0 <= m < 2 ^ c -> 0 <= p + m * 2 ^ j < 2 ^ w.
Proof.
  intros Hj Hc Hw Hp Hm.
  assert (2 ^ c * 2 ^ j <= 2 ^ w) by (rewrite <- Z.pow_add_r by lia; apply Z.pow_le_mono_r; lia).
  nia.
Qed.

Lemma land_mod_mask y w m : 0 <= w -> 0 <= m < 2 ^ w -> Z.land (y mod 2 ^ w) m = Z.land y m.
Proof.
  intros Hw Hm. rewrite <- Z.land_ones by lia. rewrite <- Z.land_assoc. f_equal.
  rewrite Z.land_comm, Z.land_ones by lia. apply Z.mod_small. lia.
Qed.

(* j - i may be negative: Z.shiftr then shifts left *)
Lemma land_shiftr_mask b i j c :
  0 <= i -> 0 <= c ->
  Z.land (Z.shiftr b (j - i)) ((2 ^ c - 1) * 2 ^ i) = (Z.shiftr b j mod 2 ^ c) * 2 ^ i.
Proof.
  intros Hi Hc. rewrite <- !Z.shiftl_mul_pow2 by lia.
  change (2 ^ c - 1) with (Z.pred (2 ^ c)). rewrite <- Z.ones_equiv.
  apply Z.bits_inj'. intros n Hn. rewrite Z.land_spec.
  destruct (Z.lt_ge_cases n i).
  - rewrite !Z.shiftl_spec_low by lia. apply andb_false_r.
  - rewrite !Z.shiftl_spec, Z.shiftr_spec by lia.
    destruct (Z.lt_ge_cases (n - i) c).
    + rewrite Z.ones_spec_low, Z.mod_pow2_bits_low, Z.shiftr_spec, andb_true_r by lia.
      f_equal. lia.
    + rewrite Z.ones_spec_high, Z.mod_pow2_bits_high by lia. apply andb_false_r.
Qed.

Lemma lor_disjoint_low z j m :
  0 <= j -> 0 <= z < 2 ^ j -> Z.lor z (m * 2 ^ j) = z + m * 2 ^ j.
Proof.
  intros Hj Hz.
  assert (Hland : Z.land z (m * 2 ^ j) = 0).
  { apply Z.bits_inj'. intros i Hi. rewrite Z.land_spec, Z.bits_0.
    destruct (Z.lt_ge_cases i j) as [Hlt|Hge].
    - rewrite Z.mul_pow2_bits_low by lia. apply andb_false_r.
    - replace z with (z mod 2 ^ j) by (apply Z.mod_small; lia).
      rewrite Z.mod_pow2_bits_high by lia. reflexivity. }
  rewrite <- Z.lxor_lor by exact Hland. symmetry. now apply Z.add_nocarry_lxor.
Qed.

Lemma bits_of_length n z : length (bits_of n z) = n.
Proof. revert z; induction n; simpl; intros; [reflexivity|now rewrite IHn]. Qed.

Lemma Z_of_bits_range l : 0 <= Z_of_bits l < 2 ^ Z.of_nat (length l).
Proof.
  induction l as [|b r IH]; [simpl; lia|].
  cbn [Z_of_bits length]. rewrite Nat2Z.inj_succ, Z.pow_succ_r by lia.
  remember (2 ^ Z.of_nat (length r)) as p in *.
  destruct b; cbn [Z.b2z]; lia.
Qed.

Lemma Z_of_bits_app a b :
  Z_of_bits (a ++ b) = Z_of_bits a + 2 ^ Z.of_nat (length a) * Z_of_bits b.
Proof.
  induction a as [|x a IH].
  { cbn [app Z_of_bits length]. change (2 ^ Z.of_nat 0) with 1. lia. }
  cbn [app Z_of_bits length]. rewrite IH, Nat2Z.inj_succ, Z.pow_succ_r by lia. ring.
Qed.

Lemma odd_div2 z : z = Z.b2z (Z.odd z) + 2 * Z.div2 z.
Proof. rewrite (Z.div2_odd z) at 1. lia. Qed.

Lemma Z_of_bits_of n z : Z_of_bits (bits_of n z) = z mod 2 ^ Z.of_nat n.
Proof.
  revert z; induction n as [|n IH]; intros z.
  - simpl. now rewrite Z.mod_1_r.
  - cbn [bits_of Z_of_bits]. rewrite IH, Nat2Z.inj_succ, Z.pow_succ_r by lia.
    assert (H2 : 0 < 2 ^ Z.of_nat n) by (apply Z.pow_pos_nonneg; lia).
    rewrite Z.rem_mul_r by lia. rewrite Z.div2_div, Zmod_odd.
    destruct (Z.odd z); cbn [Z.b2z]; lia.
Qed.

Lemma bits_of_testbit n z k :
  (k < n)%nat -> nth k (bits_of n z) false = Z.testbit z (Z.of_nat k).
Proof.
  revert z k; induction n as [|n IH]; intros z k Hk; [lia|].
  destruct k as [|k]; cbn [bits_of nth].
  - now rewrite Z.bit0_odd.
  - rewrite IH by lia. rewrite Z.div2_spec, Z.shiftr_spec by lia.
    f_equal; lia.
Qed.

Lemma Z_of_bits_testbit l k :
  Z.testbit (Z_of_bits l) (Z.of_nat k) = nth k l false.
Proof.
  revert k; induction l as [|b r IH]; intros k.
  - rewrite Z.testbit_0_l. destruct k; reflexivity.
  - cbn [Z_of_bits]. destruct k as [|k].
    + cbn [nth]. rewrite Z.add_comm, Z.testbit_0_r. reflexivity.
    + cbn [nth]. rewrite Nat2Z.inj_succ, Z.add_comm, Z.testbit_succ_r by lia. apply IH.
Qed.

Lemma bits_of_congr n z1 z2 :
  z1 mod 2 ^ Z.of_nat n = z2 mod 2 ^ Z.of_nat n -> bits_of n z1 = bits_of n z2.
Proof.
  intros H. apply nth_ext with (d := false) (d' := false).
  - now rewrite !bits_of_length.
  - intros k Hk. rewrite bits_of_length in Hk. rewrite !bits_of_testbit by assumption.
    rewrite <- (Z.mod_pow2_bits_low z1 (Z.of_nat n)), <- (Z.mod_pow2_bits_low z2 (Z.of_nat n)) by lia.
    now rewrite H.
Qed.

(* bits [j, j+c) of a number; a byte list is read through [bufZ] *)
Definition chunk (u j c : Z) : Z := (u / 2 ^ j) mod 2 ^ c.

Lemma chunk_range u j c : 0 <= c -> 0 <= chunk u j c < 2 ^ c.
Proof. intros. apply Z.mod_pos_bound, pow2_pos. lia. Qed.

Lemma chunk_0 u c : chunk u 0 c = u mod 2 ^ c.
Proof. unfold chunk. now rewrite Z.div_1_r. Qed.

Lemma chunk_div u a j c : 0 <= a -> 0 <= j -> chunk (u / 2 ^ a) j c = chunk u (a + j) c.
Proof.
  intros. unfold chunk. rewrite Z.pow_add_r, Z.div_div by (try apply pow2_pos; lia). reflexivity.
Qed.

Lemma chunk_split u j a b :
  0 <= j -> 0 <= a -> 0 <= b -> chunk u j (a + b) = chunk u j a + 2 ^ a * chunk u (j + a) b.
Proof.
  intros. rewrite <- chunk_div by lia. unfold chunk at 1 2. now rewrite mod_pow2_split by lia.
Qed.

Lemma chunk_chunk u a n j c :
  0 <= a -> 0 <= j -> 0 <= c -> j + c <= n -> chunk (chunk u a n) j c = chunk u (a + j) c.
Proof.
  intros Ha Hj Hc Hn. rewrite <- chunk_div by lia. unfold chunk. set (x := u / 2 ^ a).
  replace n with (j + (n - j)) by lia. rewrite mod_pow2_split by lia.
  pose proof (pow2_pos j Hj). pose proof (Z.mod_pos_bound x (2 ^ j) ltac:(lia)).
  rewrite Z.mul_comm, Z.div_add, Z.div_small, Z.add_0_l by lia. apply mod_mod_pow. lia.
Qed.

(* bits [j, j+c) lie in byte j/8 when they do not cross its end *)
Lemma chunk_byte u j c :
  0 <= j -> 0 <= c -> c <= 8 - j mod 8 -> chunk (chunk u (8 * (j / 8)) 8) (j mod 8) c = chunk u j c.
Proof.
  intros Hj Hc Hle. rewrite chunk_chunk by (Z.div_mod_to_equations; lia). f_equal. Z.div_mod_to_equations; lia.
Qed.

(* a number below 2^j has nothing in byte j/8 at or above bit j mod 8 *)
Lemma byte_below p j :
  0 <= j -> 0 <= p < 2 ^ j ->
  chunk p (8 * (j / 8)) 8 = p / 2 ^ (8 * (j / 8)) /\ 0 <= p / 2 ^ (8 * (j / 8)) < 2 ^ (j mod 8).
Proof.
  intros Hj Hp. pose proof (Z.mod_pos_bound j 8 ltac:(lia)) as Hr.
  rewrite (pow2_byte_split j) in Hp by lia.
  pose proof (pow2_pos (8 * (j / 8)) ltac:(Z.div_mod_to_equations; lia)).
  assert (0 <= p / 2 ^ (8 * (j / 8)) < 2 ^ (j mod 8))
    by (split; [apply Z.div_pos|apply Z.div_lt_upper_bound]; lia).
  assert (2 ^ (j mod 8) <= 2 ^ 8) by (apply Z.pow_le_mono_r; lia).
  split; [|assumption]. apply Z.mod_small. lia.
Qed.

(* a chunk given as a sum of two parts: the parts are those of chunk_split *)
Lemma chunk_parts u j a b m m' :
  0 <= j -> 0 <= a -> 0 <= b -> 0 <= m < 2 ^ a ->
  chunk u j (a + b) = m + 2 ^ a * m' -> chunk u j a = m /\ chunk u (j + a) b = m'.
Proof.
  intros Hj Ha Hb Hm H. rewrite chunk_split in H by lia.
  pose proof (chunk_range u j a Ha). pose proof (pow2_pos a Ha).
  destruct (Z.div_mod_unique (2 ^ a) (chunk u (j + a) b) m' (chunk u j a) m); lia.
Qed.

Lemma chunk_app u j n m b1 b2 :
  0 <= j -> 0 <= m -> Z.of_nat (length b1) = n ->
  chunk u j (n + m) = Z_of_bits (b1 ++ b2) ->
  chunk u j n = Z_of_bits b1 /\ chunk u (j + n) m = Z_of_bits b2.
Proof.
  intros Hj Hm <- H. rewrite Z_of_bits_app in H.
  exact (chunk_parts _ _ _ _ _ _ Hj (Nat2Z.is_nonneg _) Hm (Z_of_bits_range b1) H).
Qed.

Lemma bufZ_pack_fuel fuel l :
  (length l <= fuel)%nat -> bufZ (pack_fuel fuel l) = Z_of_bits l.
Proof.
  revert l; induction fuel as [|f IH]; intros l Hl.
  - destruct l; [reflexivity|simpl in Hl; lia].
  - cbn [pack_fuel]. destruct l as [|b r]; [reflexivity|].
    cbn [bufZ]. rewrite IH.
    2:{ rewrite skipn_length. simpl length in *. lia. }
    rewrite <- (firstn_skipn 8 (b :: r)) at 3. rewrite Z_of_bits_app.
    destruct (Nat.le_gt_cases 8 (length (b :: r))) as [Hge|Hlt].
    + rewrite firstn_length_le by exact Hge. reflexivity.
    + rewrite (skipn_all2 (b :: r)) by lia. cbn [Z_of_bits]. lia.
Qed.

Lemma bufZ_pack l : bufZ (pack l) = Z_of_bits l.
Proof. apply bufZ_pack_fuel. lia. Qed.

Lemma pack_fuel_length fuel l :
  (length l <= fuel)%nat ->
  Z.of_nat (length (pack_fuel fuel l)) = (Z.of_nat (length l) + 7) / 8.
Proof.
  revert l; induction fuel as [|f IH]; intros l Hl.
  - destruct l; [reflexivity|simpl in Hl; lia].
  - cbn [pack_fuel]. destruct l as [|b r]; [reflexivity|].
    remember (b :: r) as l eqn:El.
    assert (Hn : (0 < length l)%nat) by (subst l; simpl; lia).
    cbn [length]. rewrite Nat2Z.inj_succ, IH by (rewrite skipn_length; lia).
    rewrite skipn_length. Z.div_mod_to_equations; lia.
Qed.

Lemma pack_length l : Z.of_nat (length (pack l)) = (Z.of_nat (length l) + 7) / 8.
Proof. apply pack_fuel_length. lia. Qed.

Lemma Z_of_bits_firstn8_byte l : is_byte (Z_of_bits (firstn 8 l)).
Proof.
  pose proof (Z_of_bits_range (firstn 8 l)) as H.
  pose proof (firstn_le_length 8 l) as H8.
  unfold is_byte. split; [lia|].
  eapply Z.lt_le_trans; [apply H|].
  change 256 with (2 ^ 8). apply Z.pow_le_mono_r; lia.
Qed.

Lemma pack_fuel_bytes_ok fuel l : bytes_ok (pack_fuel fuel l).
Proof.
  revert l; induction fuel as [|f IH]; intros l; cbn [pack_fuel]; [constructor|].
  destruct l; constructor; [apply Z_of_bits_firstn8_byte | apply IH].
Qed.

Lemma pack_bytes_ok l : bytes_ok (pack l).
Proof. apply pack_fuel_bytes_ok. Qed.

Lemma bufZ_range s : bytes_ok s -> 0 <= bufZ s < 256 ^ Z.of_nat (length s).
Proof.
  induction 1 as [|b r Hb Hr IH]; [simpl; lia|].
  cbn [bufZ length]. rewrite Nat2Z.inj_succ, Z.pow_succ_r by lia.
  unfold is_byte in Hb. lia.
Qed.

Lemma bufZ_inj s1 s2 :
  bytes_ok s1 -> bytes_ok s2 -> length s1 = length s2 -> bufZ s1 = bufZ s2 -> s1 = s2.
Proof.
  intros H1; revert s2; induction H1 as [|b r Hb Hr IH]; intros s2 H2 Hl He.
  - destruct s2; [reflexivity|discriminate].
  - destruct s2 as [|b2 r2]; [discriminate|].
    inversion H2 as [|? ? Hb2 Hr2]; subst. cbn [bufZ length] in *.
    unfold is_byte in *.
    assert (b = b2) by lia. subst b2.
    f_equal. apply IH; [assumption|lia|lia].
Qed.

Lemma bufZ_zeros n : bufZ (zeros n) = 0.
Proof. induction n; cbn [bufZ zeros]; lia. Qed.

Lemma zeros_length n : length (zeros n) = n.
Proof. induction n; simpl; congruence. Qed.

Lemma zeros_bytes_ok n : bytes_ok (zeros n).
Proof. induction n; constructor; [unfold is_byte; lia|assumption]. Qed.

Lemma upd_length {A} (l : list A) k x : length (upd l k x) = length l.
Proof. revert k; induction l; intros [|k]; simpl; auto. Qed.

Lemma bufZ_upd s k x :
  (k < length s)%nat ->
  bufZ (upd s k x) = bufZ s + (x - nth k s 0) * 256 ^ Z.of_nat k.
Proof.
  revert k; induction s as [|b r IH]; intros k Hk; [simpl in Hk; lia|].
  destruct k as [|k]; cbn [upd bufZ nth].
  - simpl. lia.
  - rewrite IH by (simpl in Hk; lia).
    rewrite Nat2Z.inj_succ, Z.pow_succ_r by lia. ring.
Qed.

Lemma upd_bytes_ok s k x : bytes_ok s -> is_byte x -> bytes_ok (upd s k x).
Proof.
  intros Hs Hx; revert k; induction Hs as [|b r Hb Hr IH]; intros [|k]; cbn [upd].
  - constructor.
  - constructor.
  - constructor; assumption.
  - constructor; [assumption|apply IH].
Qed.

Lemma nth_bytes_ok s k : bytes_ok s -> is_byte (nth k s 0).
Proof.
  intros Hs; revert k; induction Hs; intros [|k]; simpl; auto; unfold is_byte; lia.
Qed.

Lemma bufZ_byte s k : bytes_ok s -> nth k s 0 = chunk (bufZ s) (8 * Z.of_nat k) 8.
Proof.
  intros Hs. unfold chunk. rewrite <- pow256 by lia. change (2 ^ 8) with 256.
  revert k; induction Hs as [|b r Hb Hr IH]; intros k.
  - rewrite Z.div_0_l by (apply Z.pow_nonzero; lia). destruct k; reflexivity.
  - unfold is_byte in Hb. destruct k as [|k]; cbn [nth bufZ].
    + change (256 ^ Z.of_nat 0) with 1. rewrite Z.div_1_r. Z.div_mod_to_equations; lia.
    + rewrite IH, Nat2Z.inj_succ, Z.pow_succ_r by lia.
      assert (HP: 0 < 256 ^ Z.of_nat k) by (apply Z.pow_pos_nonneg; lia).
      rewrite <- Z.div_div by lia.
      replace ((b + 256 * bufZ r) / 256) with (bufZ r) by (Z.div_mod_to_equations; lia).
      reflexivity.
Qed.

Lemma chunk_through_byte s i c :
  bytes_ok s -> 0 <= i -> 0 <= c -> c <= 8 - i mod 8 ->
  chunk (nth (Z.to_nat (i / 8)) s 0) (i mod 8) c = chunk (bufZ s) i c.
Proof.
  intros Hs Hi Hc Hle. rewrite bufZ_byte, Z2Nat.id by (assumption || apply Z.div_pos; lia).
  now apply chunk_byte.
Qed.

Lemma bytes_of_length w v : length (bytes_of w v) = w.
Proof. revert v; induction w; intros; cbn [bytes_of length]; [reflexivity|now rewrite IHw]. Qed.

Lemma bufZ_bytes_of w v : bufZ (bytes_of w v) = v mod 256 ^ Z.of_nat w.
Proof.
  revert v; induction w as [|w IH]; intros v.
  - cbn. now rewrite Z.mod_1_r.
  - cbn [bytes_of bufZ]. rewrite IH, Nat2Z.inj_succ, Z.pow_succ_r by lia.
    rewrite Z.rem_mul_r by (try lia; apply Z.pow_pos_nonneg; lia). reflexivity.
Qed.

Lemma bytes_of_ok w v : bytes_ok (bytes_of w v).
Proof.
  revert v; induction w; intros; cbn [bytes_of]; constructor; [|apply IHw].
  unfold is_byte. apply Z.mod_pos_bound. lia.
Qed.

Lemma bytes_of_bufZ s : bytes_ok s -> bytes_of (length s) (bufZ s) = s.
Proof.
  intros H. apply bufZ_inj; try assumption.
  - apply bytes_of_ok.
  - apply bytes_of_length.
  - rewrite bufZ_bytes_of. apply Z.mod_small. apply bufZ_range. exact H.
Qed.

(* what a writer does to a buffer that is empty from its cursor i on: s' is s with the number m
   added at bit i.  Writers compose by [placed_seq], which is chunk_split read from right to left. *)
Definition placed (s : list Z) (i m : Z) (s' : list Z) : Prop :=
  length s' = length s /\ bytes_ok s' /\ bufZ s' = bufZ s + 2 ^ i * m.

Lemma placed_0 s i : bytes_ok s -> placed s i 0 s.
Proof. intros H. repeat split; [exact H|lia]. Qed.

Lemma placed_seq s i c m m' s1 s2 :
  0 <= i -> 0 <= c -> placed s i m s1 -> placed s1 (i + c) m' s2 -> placed s i (m + 2 ^ c * m') s2.
Proof.
  intros Hi Hc (L1 & _ & B1) (L2 & O2 & B2). split; [congruence|]. split; [exact O2|].
  rewrite B2, B1, Z.pow_add_r by lia. ring.
Qed.

(* the byte under the cursor holds only bits below i mod 8, and adding a chunk there places it *)
Lemma bufZ_place s i m c :
  bytes_ok s -> 0 <= i < 8 * Z.of_nat (length s) -> 0 <= bufZ s < 2 ^ i ->
  0 <= c -> c <= 8 - i mod 8 -> 0 <= m < 2 ^ c ->
  let k := Z.to_nat (i / 8) in
  let old := nth k s 0 in
  0 <= old < 2 ^ (i mod 8) /\ is_byte (old + m * 2 ^ (i mod 8)) /\
  placed s i m (upd s k (old + m * 2 ^ (i mod 8))).
Proof.
  intros Hs Hi HB Hc Hc8 Hm k old.
  assert (Z.of_nat k = i / 8 /\ (k < length s)%nat) as [Hk Hlt] by (unfold k; Z.div_mod_to_equations; lia).
  pose proof (Z.mod_pos_bound i 8 ltac:(lia)) as Hr.
  assert (Hold : 0 <= old < 2 ^ (i mod 8)).
  { unfold old. rewrite bufZ_byte, Hk by assumption. now destruct (byte_below (bufZ s) i) as [-> ?]. }
  assert (Hnv : is_byte (old + m * 2 ^ (i mod 8))) by (apply (place_bound old m (i mod 8) c 8); lia).
  split; [exact Hold|]. split; [exact Hnv|]. split; [apply upd_length|]. split; [now apply upd_bytes_ok|].
  rewrite bufZ_upd by exact Hlt. fold old. rewrite Hk, pow256, (pow2_byte_split i) by lia. ring.
Qed.

Lemma placed_below s i c m s' :
  0 <= i -> 0 <= c -> placed s i m s' -> 0 <= bufZ s < 2 ^ i -> 0 <= m < 2 ^ c ->
  0 <= bufZ s' < 2 ^ (i + c).
Proof.
  intros Hi Hc (_ & _ & ->) Hs Hm. rewrite Z.mul_comm. apply (place_bound _ m i c); assumption || lia.
Qed.

(* The stream while it is being written.  sf is the FINISHED stream.  An encoder whose cursor is
   at bit i holds sf with everything from bit i on still zero: [cut sf i].  So the encoder's buffer
   is a function of (sf, i), what a node does is an equation between two cuts, and nodes compose
   by rewriting. *)
Definition cut (sf : list Z) (i : Z) : list Z := bytes_of (length sf) (bufZ sf mod 2 ^ i).

Lemma cut_length sf i : length (cut sf i) = length sf.
Proof. apply bytes_of_length. Qed.

Lemma cut_bytes_ok sf i : bytes_ok (cut sf i).
Proof. apply bytes_of_ok. Qed.

(* what an encoder needs of its buffer: nothing at or above the cursor *)
Lemma bufZ_cut sf i :
  0 <= i <= 8 * Z.of_nat (length sf) ->
  bufZ (cut sf i) = bufZ sf mod 2 ^ i /\ 0 <= bufZ (cut sf i) < 2 ^ i.
Proof.
  intros Hi. pose proof (Z.mod_pos_bound (bufZ sf) (2 ^ i) (pow2_pos i ltac:(lia))) as Hm.
  assert (bufZ (cut sf i) = bufZ sf mod 2 ^ i); [|lia].
  unfold cut. rewrite bufZ_bytes_of, pow256 by lia. apply Z.mod_small.
  pose proof (Z.pow_le_mono_r 2 i (8 * Z.of_nat (length sf))). lia.
Qed.

Lemma cut_next sf i n s' :
  0 <= i -> 0 <= n -> i + n <= 8 * Z.of_nat (length sf) ->
  placed (cut sf i) i (chunk (bufZ sf) i n) s' -> s' = cut sf (i + n).
Proof.
  intros Hi Hn Hr (L & O & B). rewrite <- (bytes_of_bufZ s' O), L, cut_length. unfold cut. f_equal.
  rewrite B, (proj1 (bufZ_cut sf i ltac:(lia))). unfold chunk. symmetry. apply mod_pow2_split; lia.
Qed.

Lemma cut_0 sf : cut sf 0 = zeros (length sf).
Proof.
  unfold cut. change (2 ^ 0) with 1. rewrite Z.mod_1_r.
  induction (length sf) as [|k IH]; [reflexivity|]. cbn [bytes_of zeros].
  change (0 mod 256) with 0. change (0 / 256) with 0. now rewrite IH.
Qed.

Lemma cut_full sf i : bytes_ok sf -> 0 <= bufZ sf < 2 ^ i -> cut sf i = sf.
Proof. intros O B. unfold cut. rewrite Z.mod_small by exact B. now apply bytes_of_bufZ. Qed.

(* Positional notation: the little-endian digits of n >= 0 in base b, and their value.  [fuel]
   bounds the number of digits; log2 n + 1 is enough in any base >= 2 (log2_fuel). *)
Fixpoint lsd (fuel : nat) (b n : Z) : list Z :=
  match fuel with
  | O => []
  | S f => (n mod b) :: (if n / b =? 0 then [] else lsd f b (n / b))
  end.

Definition lsd_val (b : Z) (ds : list Z) : Z := fold_right (fun d a => d + b * a) 0 ds.

Lemma log2_fuel n : 0 <= n -> n < 2 ^ Z.of_nat (S (Z.to_nat (Z.log2 n))).
Proof.
  intros Hn. rewrite Nat2Z.inj_succ, Z2Nat.id by apply Z.log2_nonneg.
  destruct (Z.eq_dec n 0) as [->|Hz]; [cbn; lia|].
  apply Z.log2_spec. lia.
Qed.

Lemma div_fuel b n (f : nat) : 2 <= b -> 0 <= n < 2 ^ Z.of_nat (S f) -> 0 <= n / b < 2 ^ Z.of_nat f.
Proof.
  intros Hb Hn. rewrite Nat2Z.inj_succ, Z.pow_succ_r in Hn by lia. set (P := 2 ^ Z.of_nat f) in *.
  split; [apply Z.div_pos; lia|]. apply Z.div_lt_upper_bound; [lia|]. nia.
Qed.

Lemma lsd_value fuel : forall b n, 2 <= b -> 0 <= n < 2 ^ Z.of_nat fuel -> lsd_val b (lsd fuel b n) = n.
Proof.
  induction fuel as [|f IH]; intros b n Hb Hn.
  - cbn in Hn. cbn. lia.
  - cbn [lsd lsd_val fold_right].
    pose proof (div_fuel b n f Hb Hn) as Hq.
    pose proof (Z.div_mod n b ltac:(lia)) as Hdm.
    destruct (Z.eqb_spec (n / b) 0) as [E|E].
    + cbn [fold_right]. lia.
    + fold (lsd_val b (lsd f b (n / b))). rewrite IH by assumption. lia.
Qed.

Lemma lsd_range fuel : forall b n, 2 <= b -> 0 <= n -> Forall (fun d => 0 <= d < b) (lsd fuel b n).
Proof.
  induction fuel as [|f IH]; intros b n Hb Hn; cbn [lsd]; [constructor|].
  constructor.
  - apply Z.mod_pos_bound; lia.
  - destruct (n / b =? 0); [constructor|]. apply IH; [assumption|]. apply Z.div_pos; lia.
Qed.

Lemma lsd_last fuel : forall b n, 2 <= b -> 0 < n < 2 ^ Z.of_nat fuel ->
  exists ds d, lsd fuel b n = ds ++ [d] /\ 0 < d < b.
Proof.
  induction fuel as [|f IH]; intros b n Hb Hn.
  - cbn in Hn. lia.
  - cbn [lsd].
    pose proof (div_fuel b n f Hb ltac:(lia)) as Hq.
    pose proof (Z.div_mod n b ltac:(lia)) as Hdm.
    pose proof (Z.mod_pos_bound n b ltac:(lia)) as Hm.
    destruct (Z.eqb_spec (n / b) 0) as [E|E].
    + exists [], (n mod b). split; [reflexivity|]. lia.
    + destruct (IH b (n / b) Hb ltac:(lia)) as (ds & d & Hds & Hd).
      exists (n mod b :: ds), d. rewrite Hds. split; [reflexivity|assumption].
Qed.

Lemma lsd_length fuel : forall b n k, 2 <= b -> 0 <= n < b ^ k -> 1 <= k ->
  Z.of_nat (length (lsd fuel b n)) <= k.
Proof.
  induction fuel as [|f IH]; intros b n k Hb Hn Hk; cbn [lsd length]; [lia|].
  destruct (Z.eqb_spec (n / b) 0) as [E|E].
  - cbn [length]. lia.
  - rewrite Nat2Z.inj_succ.
    assert (Hk2 : 2 <= k).
    { destruct (Z.eq_dec k 1) as [->|]; [|lia]. rewrite Z.pow_1_r in Hn.
      rewrite Z.div_small in E by lia. congruence. }
    assert (Hp : b ^ k = b * b ^ (k - 1)).
    { replace k with (Z.succ (k - 1)) at 1 by lia. rewrite Z.pow_succ_r by lia. reflexivity. }
    assert (0 <= n / b < b ^ (k - 1)).
    { split; [apply Z.div_pos; lia|]. apply Z.div_lt_upper_bound; [lia|]. lia. }
    specialize (IH b (n / b) (k - 1) Hb H ltac:(lia)). lia.
Qed.
