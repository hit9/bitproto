(* ConstExpr.v — constant expressions of bitproto (property C13).

   MODEL (follows the code; tables and actions come from BPGen.GenC13, translated from
   parser.py / lexer.py on every run):
     token, eval_tokens   a precedence-climbing evaluator over the token list, driven by
                          Parser.precedence (levels, associativity) and the four semantic actions;
                          values are computed at the moment yacc would reduce
     const_value, run_stmts, run_files
                          const declarations, constant references (also through an import alias),
                          array capacities and option values
   SPECIFICATION (independent of the code):
     expr, denote         ordinary arithmetic on an expression tree: + - * and floor division,
                          decimal / hexadecimal literals, references
     pretty               prints a tree with only the parentheses that standard precedence and
                          left associativity require

   ply's tokenizer and LALR driver are not part of this model (tied by T2): the evaluator stands
   for "the LALR automaton of the calculation_expression rules with its shift/reduce conflicts
   resolved by Parser.precedence".  LRExprC13.v links it to the real tables: they parse what
   [pretty] prints back to the tree it was printed from (integer leaves; no values there). *)
From Coq Require Import ZArith List Bool String Lia.
From BPGen Require Import GenC13.
From BP Require Import ConstLit.
Import ListNotations.
Open Scope list_scope.
Open Scope Z_scope.

Inductive op := OPlus | OMinus | OTimes | ODivide.

Definition op_name (o : op) : string :=
  match o with OPlus => "PLUS" | OMinus => "MINUS" | OTimes => "TIMES" | ODivide => "DIVIDE" end%string.

(* INT_LITERAL carries its digit text, HEX_LITERAL the digits after 0x; TIdent is a dotted identifier *)
Inductive token :=
| TInt (s : text) | THex (s : text) | TIdent (x : string)
| TOp (o : op) | TLParen | TRParen.

Notation TPlus := (TOp OPlus).
Notation TMinus := (TOp OMinus).
Notation TTimes := (TOp OTimes).
Notation TDivide := (TOp ODivide).

Inductive err :=
| EGrammar                     (* GrammarError *)
| EUndefined (x : string)      (* ReferencedConstantNotDefined *)
| ENotInteger (x : string)     (* CalculationExpressionError / InvalidArrayCap: non-integer constant referenced *)
| EDivisionByZero              (* a diagnosed division by zero (what the property expects) *)
| ECrashZeroDivision           (* Python ZeroDivisionError escaping from the semantic action *)
| EBadLiteral
| EDuplicated (x : string)     (* DuplicatedDefinition *)
| EInvalidEscape               (* InvalidEscapingChar *)
| ECrashIndex                  (* IndexError in the escape loop *)
| EBadImport
| EFuel.

Inductive res (A : Type) := Ok (a : A) | Err (e : err).
Arguments Ok {A} a.
Arguments Err {A} e.

Definition bind {A B} (x : res A) (k : A -> res B) : res B :=
  match x with Ok a => k a | Err e => Err e end.

(* ------------------------------------------------------------------------------------ *)
(* precedence table                                                                      *)
(* ------------------------------------------------------------------------------------ *)

Fixpoint mem_string (x : string) (l : list string) : bool :=
  match l with [] => false | y :: r => String.eqb x y || mem_string x r end.

(* level (1 = lowest) and associativity of a token name; level 0 = not listed *)
Fixpoint find_level (nm : string) (tbl : list (string * list string)) (k : nat) : nat * string :=
  match tbl with
  | [] => (O, ""%string)
  | (a, names) :: r => if mem_string nm names then (k, a) else find_level nm r (S k)
  end.

Definition prec (o : op) : nat := fst (find_level (op_name o) precedence 1).
Definition is_right (o : op) : bool := String.eqb (snd (find_level (op_name o) precedence 1)) "right".

(* ------------------------------------------------------------------------------------ *)
(* values, environment, semantic actions                                                 *)
(* ------------------------------------------------------------------------------------ *)

Definition env := list (string * cvalue).

Fixpoint lookup (x : string) (e : env) : option cvalue :=
  match e with
  | [] => None
  | (y, v) :: r => if String.eqb x y then Some v else lookup x r
  end.

(* p_constant_reference + p_constant_reference_for_calculation *)
Definition ref_value (e : env) (x : string) : res Z :=
  match lookup x e with
  | None => Err (EUndefined x)
  | Some (VInt z) => Ok z
  | Some _ => Err (ENotInteger x)
  end.

(* t_INT_LITERAL / t_HEX_LITERAL: int(text, base) *)
Definition lit_value (base : Z) (s : text) : res Z :=
  match int_of_text base s with Some v => Ok v | None => Err EBadLiteral end.

Definition div_zero_err : err := if divide_guard then EDivisionByZero else ECrashZeroDivision.

(* the action bound to the operator token; a zero divisor raises in Python *)
Definition apply_op (o : op) (a b : Z) : res Z :=
  let '(v, ds) := match o with
                  | OPlus => (act_PLUS a b, act_PLUS_divisors a b)
                  | OMinus => (act_MINUS a b, act_MINUS_divisors a b)
                  | OTimes => (act_TIMES a b, act_TIMES_divisors a b)
                  | ODivide => (act_DIVIDE a b, act_DIVIDE_divisors a b)
                  end in
  if existsb (Z.eqb 0) ds then Err div_zero_err else Ok v.

(* ------------------------------------------------------------------------------------ *)
(* the evaluator                                                                         *)
(* ------------------------------------------------------------------------------------ *)

Section Eval.
Variable E : env.

Fixpoint parse_expr (fuel : nat) (minp : nat) (ts : list token) {struct fuel} : res (Z * list token) :=
  match fuel with
  | O => Err EFuel
  | S f =>
    match ts with
    | TInt s :: r => bind (lit_value int_literal_base s) (fun v => parse_loop f minp v r)
    | THex s :: r => bind (lit_value hex_literal_base s) (fun v => parse_loop f minp v r)
    | TIdent x :: r => bind (ref_value E x) (fun v => parse_loop f minp v r)
    | TLParen :: r =>
        bind (parse_expr f 0 r) (fun vr =>
          match snd vr with
          | TRParen :: r' => parse_loop f minp (fst vr) r'
          | _ => Err EGrammar
          end)
    | _ => Err EGrammar
    end
  end
with parse_loop (fuel : nat) (minp : nat) (lhs : Z) (ts : list token) {struct fuel} : res (Z * list token) :=
  match fuel with
  | O => Err EFuel
  | S f =>
    match ts with
    | TOp o :: r =>
        if (prec o <? minp)%nat then Ok (lhs, ts)
        else bind (parse_expr f (if is_right o then prec o else S (prec o)) r) (fun vr =>
               bind (apply_op o lhs (fst vr)) (fun v => parse_loop f minp v (snd vr)))
    | _ => Ok (lhs, ts)
    end
  end.

Definition eval_fuel (ts : list token) : nat := (2 * List.length ts + 2)%nat.

Definition eval_tokens (ts : list token) : res Z :=
  bind (parse_expr (eval_fuel ts) 0 ts) (fun vr =>
    match snd vr with [] => Ok (fst vr) | _ => Err EGrammar end).

End Eval.

(* ------------------------------------------------------------------------------------ *)
(* specification: trees, ordinary arithmetic, minimal parentheses                         *)
(* ------------------------------------------------------------------------------------ *)

Inductive expr :=
| EDec (n : N)                 (* decimal literal *)
| EHex (n : N)                 (* hexadecimal literal *)
| ERef (x : string)            (* reference to an earlier constant *)
| EBin (o : op) (l r : expr).

Definition spec_op (o : op) (a b : Z) : res Z :=
  match o with
  | OPlus => Ok (a + b)
  | OMinus => Ok (a - b)
  | OTimes => Ok (a * b)
  | ODivide => if b =? 0 then Err EDivisionByZero else Ok (a / b)     (* floor division *)
  end.

Fixpoint denote (e : expr) (E : env) : res Z :=
  match e with
  | EDec n => Ok (Z.of_N n)
  | EHex n => Ok (Z.of_N n)
  | ERef x => ref_value E x
  | EBin o l r => bind (denote l E) (fun a => bind (denote r E) (fun b => spec_op o a b))
  end.

(* standard precedence: * and / bind tighter than + and - ; everything associates to the left *)
Definition sprec (o : op) : nat :=
  match o with OPlus | OMinus => 1%nat | OTimes | ODivide => 2%nat end.

Fixpoint pp (ctx : nat) (e : expr) : list token :=
  match e with
  | EDec n => [TInt (nat_digits 10 (Z.of_N n))]
  | EHex n => [THex (nat_digits 16 (Z.of_N n))]
  | ERef x => [TIdent x]
  | EBin o l r =>
      let body := pp (sprec o) l ++ TOp o :: pp (S (sprec o)) r in
      if (sprec o <? ctx)%nat then TLParen :: body ++ [TRParen] else body
  end.

Definition pretty (e : expr) : list token := pp 0 e.

(* what a tree does whose DIVIDE action does not diagnose a zero divisor (divide_guard = false);
   the identity on the current tree (ConstExprProofs.divide_guard_on) *)
Definition crashify {A} (r : res A) : res A :=
  match r with Err EDivisionByZero => Err div_zero_err | _ => r end.

(* ------------------------------------------------------------------------------------ *)
(* declarations: const, array capacity, option value, import                              *)
(* ------------------------------------------------------------------------------------ *)

Inductive rhs :=
| RCalc (ts : list token)       (* calculation_expression, or a lone constant_reference *)
| RBool (spelling : text)       (* BOOL_LITERAL *)
| RStr (raw : text).            (* STRING_LITERAL: the text between the quotes *)

Inductive useref :=
| UInt (s : text)               (* INT_LITERAL *)
| UHex (s : text)               (* HEX_LITERAL (option values only) *)
| UBool (spelling : text)
| UStr (raw : text)
| URef (x : string).            (* constant_reference *)

Inductive stmt :=
| SConst (x : string) (r : rhs)
| SCap (u : useref)             (* T[u] *)
| SOpt (u : useref)             (* option name = u *)
| SImport (alias : string) (k : nat).   (* import alias "file k" (an earlier element of the list) *)

Definition lex_string (raw : text) : res cvalue :=
  match unescape raw [] with
  | LexOk v => Ok (VStr v)
  | LexInvalidEscape => Err EInvalidEscape
  | LexIndexError => Err ECrashIndex
  end.

Definition lex_bool (sp : text) : res cvalue :=
  if text_mem sp bool_spellings then Ok (VBool (text_mem sp bool_true_spellings)) else Err EGrammar.

(* p_const_value: `const X = Y` with a lone reference reduces by const_value : constant_reference
   (the earlier rule wins ply's reduce/reduce conflict), so Y may be of any kind *)
Definition const_value (E : env) (r : rhs) : res cvalue :=
  match r with
  | RCalc [TIdent y] => match lookup y E with Some v => Ok v | None => Err (EUndefined y) end
  | RCalc ts => bind (eval_tokens E ts) (fun z => Ok (VInt z))
  | RBool sp => lex_bool sp
  | RStr raw => lex_string raw
  end.

(* p_array_capacity / p_constant_reference_for_array_capacity *)
Definition cap_value (E : env) (u : useref) : res cvalue :=
  match u with
  | UInt s => bind (lit_value int_literal_base s) (fun z => Ok (VInt z))
  | URef x => bind (ref_value E x) (fun z => Ok (VInt z))
  | _ => Err EGrammar
  end.

(* p_option_value *)
Definition opt_value (E : env) (u : useref) : res cvalue :=
  match u with
  | UInt s => bind (lit_value int_literal_base s) (fun z => Ok (VInt z))
  | UHex s => bind (lit_value hex_literal_base s) (fun z => Ok (VInt z))
  | UBool sp => lex_bool sp
  | UStr raw => lex_string raw
  | URef x => match lookup x E with Some v => Ok v | None => Err (EUndefined x) end
  end.

Definition prefix_env (alias : string) (e : env) : env :=
  map (fun p : string * cvalue => (alias ++ "." ++ fst p, snd p)%string) e.

(* state: constants of this file (latest first), entries visible through import aliases,
   observed uses (capacities, option values) in source order *)
Record fstate := { own : env; imported : env; uses : list cvalue }.

Definition visible (st : fstate) : env := own st ++ imported st.

Definition run_stmt (done : list env) (st : fstate) (s : stmt) : res fstate :=
  match s with
  | SConst x r =>
      match lookup x (own st) with
      | Some _ => Err (EDuplicated x)
      | None => bind (const_value (visible st) r) (fun v =>
                  Ok {| own := (x, v) :: own st; imported := imported st; uses := uses st |})
      end
  | SCap u => bind (cap_value (visible st) u) (fun v =>
                Ok {| own := own st; imported := imported st; uses := uses st ++ [v] |})
  | SOpt u => bind (opt_value (visible st) u) (fun v =>
                Ok {| own := own st; imported := imported st; uses := uses st ++ [v] |})
  | SImport alias k =>
      match nth_error done k with
      | Some e => Ok {| own := own st; imported := prefix_env alias e ++ imported st; uses := uses st |}
      | None => Err EBadImport
      end
  end.

Fixpoint run_stmts (done : list env) (st : fstate) (ss : list stmt) : res fstate :=
  match ss with
  | [] => Ok st
  | s :: r => bind (run_stmt done st s) (fun st' => run_stmts done st' r)
  end.

Definition empty_state : fstate := {| own := []; imported := []; uses := [] |}.

(* files in dependency order; the result of each: its constants (declaration order) and uses.
   A failing file contributes an empty environment to later ones and its error is kept. *)
Fixpoint run_files (done : list env) (fs : list (list stmt)) : list (res (env * list cvalue)) :=
  match fs with
  | [] => []
  | f :: r =>
      match run_stmts done empty_state f with
      | Ok st => Ok (rev (own st), uses st) :: run_files (done ++ [rev (own st)]) r
      | Err e => Err e :: run_files (done ++ [[]]) r
      end
  end.

(* ------------------------------------------------------------------------------------ *)
(* equalities for the case files                                                         *)
(* ------------------------------------------------------------------------------------ *)

Definition op_eqb (a b : op) : bool :=
  match a, b with
  | OPlus, OPlus | OMinus, OMinus | OTimes, OTimes | ODivide, ODivide => true
  | _, _ => false
  end.

Definition token_eqb (a b : token) : bool :=
  match a, b with
  | TInt x, TInt y => text_eqb x y
  | THex x, THex y => text_eqb x y
  | TIdent x, TIdent y => String.eqb x y
  | TOp x, TOp y => op_eqb x y
  | TLParen, TLParen => true
  | TRParen, TRParen => true
  | _, _ => false
  end.

Fixpoint tokens_eqb (a b : list token) : bool :=
  match a, b with
  | [], [] => true
  | x :: r, y :: s => token_eqb x y && tokens_eqb r s
  | _, _ => false
  end.

Definition err_code (e : err) : Z :=
  match e with
  | EGrammar => 1 | EUndefined _ => 2 | ENotInteger _ => 3 | EDivisionByZero => 4
  | ECrashZeroDivision => 5 | EBadLiteral => 6 | EDuplicated _ => 7 | EInvalidEscape => 8
  | ECrashIndex => 9 | EBadImport => 10 | EFuel => 11
  end.

Definition resz_eqb (a b : res Z) : bool :=
  match a, b with
  | Ok x, Ok y => x =? y
  | Err x, Err y => err_code x =? err_code y
  | _, _ => false
  end.

Definition resv_eqb (a b : res cvalue) : bool :=
  match a, b with
  | Ok x, Ok y => cvalue_eqb x y
  | Err x, Err y => err_code x =? err_code y
  | _, _ => false
  end.

Fixpoint values_eqb (a b : list cvalue) : bool :=
  match a, b with
  | [], [] => true
  | x :: r, y :: s => cvalue_eqb x y && values_eqb r s
  | _, _ => false
  end.

Fixpoint env_eqb (a b : env) : bool :=
  match a, b with
  | [], [] => true
  | (x, v) :: r, (y, w) :: s => String.eqb x y && cvalue_eqb v w && env_eqb r s
  | _, _ => false
  end.

(* the grammar rules the evaluator stands for, as the model expects them (compared with the
   translated table BPGen.GenC13.grammar by ConstExprProofs.grammar_as_modelled) *)
Definition expected_grammar : list (string * list (list string)) := [
  ("const", [["CONST"; "IDENTIFIER"; "'='"; "const_value"; "optional_semicolon"]]);
  ("const_value", [["boolean_literal"]; ["string_literal"]; ["constant_reference"]; ["calculation_expression"]]);
  ("calculation_expression", [["calculation_expression_plus"]; ["calculation_expression_minus"];
      ["calculation_expression_times"]; ["calculation_expression_divide"]; ["calculation_expression_group"];
      ["integer_literal"]; ["constant_reference_for_calculation"]]);
  ("calculation_expression_plus", [["calculation_expression"; "PLUS"; "calculation_expression"]]);
  ("calculation_expression_minus", [["calculation_expression"; "MINUS"; "calculation_expression"]]);
  ("calculation_expression_times", [["calculation_expression"; "TIMES"; "calculation_expression"]]);
  ("calculation_expression_divide", [["calculation_expression"; "DIVIDE"; "calculation_expression"]]);
  ("calculation_expression_group", [["'('"; "calculation_expression"; "')'"]]);
  ("constant_reference_for_calculation", [["constant_reference"]]);
  ("constant_reference", [["dotted_identifier"]]);
  ("option", [["OPTION"; "dotted_identifier"; "'='"; "option_value"; "optional_semicolon"]]);
  ("option_value", [["boolean_literal"]; ["integer_literal"]; ["string_literal"]; ["constant_reference"]]);
  ("array_capacity", [["INT_LITERAL"]; ["constant_reference_for_array_capacity"]]);
  ("constant_reference_for_array_capacity", [["constant_reference"]]);
  ("boolean_literal", [["BOOL_LITERAL"]]);
  ("integer_literal", [["INT_LITERAL"]; ["HEX_LITERAL"]]);
  ("string_literal", [["STRING_LITERAL"]]);
  ("dotted_identifier", [["IDENTIFIER"; "'.'"; "dotted_identifier"]; ["IDENTIFIER"]])
]%string.

Definition expected_passthrough : list (string * Z) :=
  [("const_value", 1); ("calculation_expression", 1); ("calculation_expression_group", 2);
   ("array_capacity", 1); ("boolean_literal", 1); ("integer_literal", 1); ("string_literal", 1)]%string.

Fixpoint strings_eqb (a b : list string) : bool :=
  match a, b with
  | [], [] => true
  | x :: r, y :: s => String.eqb x y && strings_eqb r s
  | _, _ => false
  end.
Fixpoint alts_eqb (a b : list (list string)) : bool :=
  match a, b with
  | [], [] => true
  | x :: r, y :: s => strings_eqb x y && alts_eqb r s
  | _, _ => false
  end.
Fixpoint grammar_eqb (a b : list (string * list (list string))) : bool :=
  match a, b with
  | [], [] => true
  | (x, p) :: r, (y, q) :: s => String.eqb x y && alts_eqb p q && grammar_eqb r s
  | _, _ => false
  end.
Fixpoint passthrough_eqb (a b : list (string * Z)) : bool :=
  match a, b with
  | [], [] => true
  | (x, p) :: r, (y, q) :: s => String.eqb x y && (p =? q) && passthrough_eqb r s
  | _, _ => false
  end.
