(* CDecProofs.v — the decoding side of the C model below its walk (CEvolveProofs.v), for
   (B,E) = (LE,LE) and (BE,BE): the segment of a stream at a cursor ([seg]), what a decoder needs
   of its context ([dec_pre]), the scalars (every integer two's complement in its storage width,
   i.e. sign-extended), the read 16-bit prefix of extensible nodes, the zeroed object a decoder
   starts on, and the slice/splice of one element's bytes inside an array object that the
   element loops of both walks go through. *)
From Coq Require Import ZArith List Bool Lia.
From BP Require Import ListFacts Bits Schema Spec CMem CMemProofs CRt CBaseProofs CEncProofs.
From BPGen Require Import GenC.
Import ListNotations.
Open Scope Z_scope.

(* the same number as [Bits.chunk (bufZ s) i n] and as the reader's [PyDecStep.slice s i n], by
   conversion; in the C row the bare name [slice] is CMem's byte sub-list *)
Definition seg (s : list Z) (i n : Z) : Z := (bufZ s / 2 ^ i) mod 2 ^ n.

Lemma seg_range s i n : 0 <= n -> 0 <= seg s i n < 2 ^ n.
Proof. apply chunk_range. Qed.

Lemma seg_split s i a b : 0 <= i -> 0 <= a -> 0 <= b ->
  seg s i (a + b) = seg s i a + 2 ^ a * seg s (i + a) b.
Proof. apply chunk_split. Qed.

Lemma bits16 v : 0 <= v < 65536 -> Z_of_bits (bits_of 16 v) = v.
Proof.
  intros H. change (bits_of 16 v) with (bits_of (Z.to_nat 16) v).
  rewrite Z_of_bits_of. change (2 ^ Z.of_nat (Z.to_nat 16)) with 65536. apply Z.mod_small. exact H.
Qed.

Definition dec_pre (x : cctx) (n : Z) : Prop :=
  bytes_ok (xs x) /\ 0 <= xi x /\ xi x + n <= 8 * Z.of_nat (length (xs x)).

Lemma dec_pre_weaken x n m : dec_pre x (n + m) -> 0 <= m -> dec_pre x n.
Proof. unfold dec_pre. intuition lia. Qed.

Lemma dec_pre_next x n m : dec_pre x (n + m) -> 0 <= n ->
  dec_pre {| xs := xs x; xi := xi x + n |} m.
Proof. unfold dec_pre. cbn [xs xi]. intuition lia. Qed.

Section DecScalars.
  Variables (B E : endian).
  Hypothesis HBE : B = E.

  Lemma dec_base n x :
    1 <= n <= 64 -> dec_pre x n ->
    on_bytes (OB (zeros (Z.to_nat (int_size n)))) (base_type B E false n x)
    = COk ({| xs := xs x; xi := xi x + n |}, store_int E n (seg (xs x) (xi x) n)).
  Proof.
    intros Hn (Hs & Hi & Hl).
    destruct (width_facts n Hn).
    destruct (base_dec B E n x (Z.to_nat (int_size n)) HBE ltac:(lia) Hs Hi Hl ltac:(lia))
      as (d' & E1 & L1 & O1 & V1).
    { intros _. split; [exact Hn|]. lia. }
    unfold on_bytes. rewrite E1. cbn [cbind fst snd]. f_equal. f_equal. unfold store_int. f_equal.
    now rewrite <- (native_bytes_val E d' O1), L1, V1.
  Qed.

  Lemma dec_int n x :
    1 <= n <= 64 -> dec_pre x n ->
    on_bytes (OB (zeros (Z.to_nat (int_size n)))) (endecode_int B E false (int_size n) n x)
    = COk ({| xs := xs x; xi := xi x + n |}, store_int E n (sext n (seg (xs x) (xi x) n))).
  Proof.
    intros Hn (Hs & Hi & Hl).
    destruct (width_facts n Hn).
    destruct (base_dec B E n x (Z.to_nat (int_size n)) HBE ltac:(lia) Hs Hi Hl ltac:(lia))
      as (d' & E1 & L1 & O1 & V1).
    { intros _. split; [exact Hn|]. lia. }
    unfold on_bytes, endecode_int. rewrite E1. cbn [cbind fst snd].
    rewrite (sign_spec E n d' Hn O1).
    - cbn [cbind]. unfold store_int. now rewrite L1, V1.
    - rewrite L1. lia.
    - rewrite V1. apply Z.mod_pos_bound, pow2_pos. lia.
  Qed.

  Lemma decode_ahead_seg x v :
    dec_pre x 16 -> seg (xs x) (xi x) 16 = v ->
    decode_ahead B E x = COk ({| xs := xs x; xi := xi x + 16 |}, v).
  Proof.
    intros (Hs & Hi & Hl) Hseg. unfold decode_ahead.
    rewrite ah_size_2, ah_nbits_16. change (Z.to_nat 2) with 2%nat.
    destruct (base_dec B E 16 x 2 HBE ltac:(lia) Hs Hi Hl ltac:(lia)) as (d' & E1 & L1 & O1 & V1).
    { intros _. split; [lia|reflexivity]. }
    rewrite E1. cbn [cbind fst snd]. rewrite <- L1 at 1. rewrite (ld_whole E d'). cbn [cbind].
    rewrite V1. fold (seg (xs x) (xi x) 16). now rewrite Hseg.
  Qed.
End DecScalars.

Definition zero_fields :=
  fix go (l : list (Z * ty)) : list (Z * obj) :=
    match l with
    | [] => []
    | kf :: r => (fst kf, zero_obj (snd kf)) :: go r
    end.

Lemma zero_obj_msg x fs : zero_obj (TMsg x fs) = OS (zero_fields fs).
Proof. reflexivity. Qed.

Lemma set_assoc_app_notin k nv (l1 l2 : list (Z * obj)) :
  ~ In k (map fst l1) -> set_assoc k nv (l1 ++ l2) = l1 ++ set_assoc k nv l2.
Proof.
  induction l1 as [|h r IH]; intros H; [reflexivity|].
  cbn [app set_assoc]. cbn [map In] in H.
  destruct (fst h =? k) eqn:Ek; [apply Z.eqb_eq in Ek; tauto|]. f_equal. apply IH. tauto.
Qed.

Definition dec_ok (B E : endian) (t : ty) : Prop :=
  forall v x, wf t = true -> cwf t = true -> has_ty t v = true -> dec_pre x (nbits t) ->
    seg (xs x) (xi x) (nbits t) = Z_of_bits (enc_bits t v) ->
    core B E false t x (zero_obj t) = COk ({| xs := xs x; xi := xi x + nbits t |}, store E t v).

Lemma zeros_app a b : zeros (a + b) = zeros a ++ zeros b.
Proof. induction a; cbn [zeros plus app]; [reflexivity|now rewrite IHa]. Qed.

Lemma zero_flat e : flat e = true -> wf e = true -> zero_obj e = OB (zeros (Z.to_nat (csize e))).
Proof.
  induction e as [| | n | n | n ms | t IH | x c e IH | x fs IH] using ty_ind'; intros Hf Hw; try reflexivity.
  - cbn [zero_obj flat wf csize] in *. apply IH; assumption.
  - cbn [zero_obj flat wf csize] in *. rewrite Hf. rewrite !andb_true_iff in Hw. destruct Hw as [_ Hwe].
    pose proof (csize_nonneg e Hwe). f_equal. f_equal. rewrite Z2Nat.inj_mul, Nat2Z.id by lia. reflexivity.
  - discriminate.
Qed.

Lemma slice_app pre mid post :
  slice (pre ++ mid ++ post) (Z.of_nat (length pre)) (Z.of_nat (length mid)) = COk mid.
Proof.
  rewrite slice_ok by (rewrite ?app_length; lia). rewrite !Nat2Z.id. f_equal.
  now rewrite skipn_app_l, firstn_app_l.
Qed.

Lemma splice_app pre mid post new : length new = length mid ->
  splice (pre ++ mid ++ post) (Z.of_nat (length pre)) new = COk (pre ++ new ++ post).
Proof.
  intros Hl. unfold splice.
  replace ((0 <=? Z.of_nat (length pre)) && (Z.of_nat (length pre) + Z.of_nat (length new) <=? Z.of_nat (length (pre ++ mid ++ post))))
    with true by (symmetry; apply andb_true_iff; split; apply Z.leb_le; rewrite ?app_length; lia).
  f_equal. rewrite Nat2Z.id, firstn_app_l.
  f_equal. f_equal. now rewrite Hl, <- app_length, app_assoc, skipn_app_l.
Qed.

Lemma std_skip n : BpIsNbitsStandard n = true -> sg_skip n = true.
Proof. unfold BpIsNbitsStandard, sg_skip. lia. Qed.

Lemma flat_map_bufZ {A} (g : A -> list bool) (f : A -> list Z) (esz : nat) (l : list A) :
  (forall a, In a l -> Z_of_bits (g a) = bufZ (f a) /\ Z.of_nat (length (g a)) = 8 * Z.of_nat esz /\ length (f a) = esz) ->
  Z_of_bits (flat_map g l) = bufZ (flat_map f l).
Proof.
  induction l as [|a r IH]; intros H; [reflexivity|].
  cbn [flat_map]. destruct (H a (or_introl eq_refl)) as (Hv & Hlg & Hlf).
  rewrite Z_of_bits_app, bufZ_app, Hv, Hlg, Hlf, pow256 by lia.
  rewrite IH by (intros b Hb; apply H; now right). reflexivity.
Qed.

