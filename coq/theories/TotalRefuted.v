(* TotalRefuted.v — C09: witnesses of the KNOWN FINDINGS on the current tree (when a defect is
   fixed its lemma is deleted and its known_findings.jsonl entry flipped to "fixed"). *)
From Coq Require Import Ascii ZArith List Lia.
From BP Require Import Re TotalBase Schema Total TotalProofs.
From BPGen Require Import GenC09.
Import ListNotations.
Open Scope Z_scope.

(* beyond CPython's digit limit EVERY decimal literal / width crashes the token rule *)
Theorem int_literal_crashes_beyond_limit tv :
  matches int_literal_re tv -> py_int_max_str_digits < zlen tv -> lex_int_literal tv = Crash ValueError.
Proof. intros H Hl. exact (proj2 (cap_rule_spec [] tv H) Hl). Qed.

Theorem uint_width_crashes_beyond_limit tv :
  matches uint_type_re tv -> py_int_max_str_digits + 4 < zlen tv -> lex_uint_cap tv = Crash ValueError.
Proof. intros H Hl. exact (proj2 (cap_rule_spec [117; 105; 110; 116]%nat tv H) Hl). Qed.

Theorem int_width_crashes_beyond_limit tv :
  matches int_type_re tv -> py_int_max_str_digits + 3 < zlen tv -> lex_int_cap tv = Crash ValueError.
Proof. intros H Hl. exact (proj2 (cap_rule_spec [105; 110; 116]%nat tv H) Hl). Qed.

Lemma ones_match n : matches (RPlus dec_class) (repeat "1"%char (S n)).
Proof.
  unfold RPlus. change (repeat "1"%char (S n)) with (["1"%char] ++ repeat "1"%char n).
  constructor; [apply MAtom; reflexivity|].
  induction n as [|n IH]; [constructor|].
  change (repeat "1"%char (S n)) with (["1"%char] ++ repeat "1"%char n).
  constructor; [apply MAtom; reflexivity|exact IH].
Qed.

(* witnesses at the digit limit, without evaluating 10^4300 *)
Definition huge : Z := 10 ^ py_int_max_str_digits.

Lemma str_int_huge : str_int huge = Crash ValueError.
Proof.
  apply str_int_big. unfold huge. rewrite Z.abs_eq; [lia|].
  apply Z.pow_nonneg. lia.
Qed.

Lemma p_error_huge :
  exists path z, In path p_error_paths /\ p_error_path_outcome path (TInt z) = Crash ValueError.
Proof.
  destruct (find (fun p => snd (fst p)) p_error_paths) as [path|] eqn:E; [|vm_compute in E; discriminate].
  apply find_some in E. destruct E as [Hin Hu]. exists path, huge. split; [exact Hin|].
  destruct path as [[c u] l]. cbn [fst snd] in Hu. subst u.
  unfold p_error_path_outcome. rewrite str_int_huge. reflexivity.
Qed.

Lemma array_token_huge : exists cap, array_type_token cap = Crash ValueError.
Proof.
  exists huge. unfold array_type_token. change array_type_formats_cap with true. cbv iota.
  exact str_int_huge.
Qed.

Lemma render_huge : exists c, forall l, render l (TMsg false []) [c] = Crash ValueError.
Proof.
  exists huge. intro l. unfold render. cbn [render_ints]. unfold render_int.
  change format_int_value_guarded with false. cbv iota. rewrite str_int_huge. reflexivity.
Qed.
