(* FrontSim.v — the relation "fs' is fs with the fields of some messages renumbered" (C12): in the
   scope under construction field numbers go through a map g (statement [IField … k] against
   [IField … (g k)]); each message below chooses idz or the one map g0, which must be monotone
   on that message's numbers.  That [Front.check] respects it is FrontRewrite.check_rel. *)
From Coq Require Import ZArith List.
From BP Require Import Schema Front WireEq.
Import ListNotations.
Open Scope Z_scope.

Definition nrel (g : Z -> Z) (R : ty -> ty -> Prop) (a b : Z * ty) : Prop := fst b = g (fst a) /\ R (snd a) (snd b).

Section Sim.
  Variable g0 : Z -> Z.                                (* the renumbering of the rewritten message *)
  Definition idz (k : Z) : Z := k.
  (* The numbering allowed between the field lists of two related message types: kept, or the
     one map g0 where it preserves the order of that message's numbers.  One map for the whole
     schema is enough for the rewrite in view (renumbering by a fixed table) and keeps the
     relation on types a plain binary one. *)
  Definition gcond (gb : Z -> Z) (keys : list Z) : Prop := gb = idz \/ (gb = g0 /\ mono_on g0 keys).

  Definition renum_item (g : Z -> Z) (it : item) : item :=
    match it with IField l t nm k => IField l t nm (g k) | _ => it end.

  Lemma renum_item_id it : renum_item idz it = it.
  Proof. destruct it; reflexivity. Qed.

  Definition body_numbers (body : list item) : list Z :=
    flat_map (fun it => match it with IField _ _ _ k => [k] | _ => [] end) body.

  Fixpoint trel (g : Z -> Z) (it it' : item) {struct it} : Prop :=
    it' = renum_item g it \/
    match it, it' with
    | IMsg l n x b, IMsg l' n' x' b' =>
        l = l' /\ n = n' /\ x = x' /\
        exists gb, gcond gb (body_numbers b) /\
          (fix go (b b' : list item) : Prop :=
             match b, b' with
             | [], [] => True
             | i :: r, i' :: r' => trel gb i i' /\ go r r'
             | _, _ => False
             end) b b'
    | IEnum l n s b, IEnum l' n' s' b' =>
        l = l' /\ n = n' /\ s = s' /\
        (fix go (b b' : list item) : Prop :=
           match b, b' with
           | [], [] => True
           | i :: r, i' :: r' => trel idz i i' /\ go r r'
           | _, _ => False
           end) b b'
    | _, _ => False
    end.

  Fixpoint lrel (g : Z -> Z) (b b' : list item) : Prop :=
    match b, b' with
    | [], [] => True
    | i :: r, i' :: r' => trel g i i' /\ lrel g r r'
    | _, _ => False
    end.

  Lemma lrel_fix g b : forall b',
    (fix go (b b' : list item) : Prop :=
       match b, b' with
       | [], [] => True
       | i :: r, i' :: r' => trel g i i' /\ go r r'
       | _, _ => False
       end) b b' <-> lrel g b b'.
  Proof.
    induction b as [|i r IH]; intros [|i' r']; cbn [lrel]; try tauto. rewrite (IH r'). tauto.
  Qed.

  Lemma lrel_same g b : lrel g b (map (renum_item g) b).
  Proof. induction b as [|i r IH]; [exact I|]. cbn [map lrel]. split; [|exact IH]. destruct i; now left. Qed.

  Fixpoint frelT (fs fs' : files) : Prop :=
    match fs, fs' with
    | [], [] => True
    | a :: r, a' :: r' => fst a = fst a' /\ lrel idz (snd a) (snd a') /\ frelT r r'
    | _, _ => False
    end.

End Sim.
