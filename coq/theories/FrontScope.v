(* FrontScope.v — C11, the part that speaks of accepted statements: which definition a field's
   type is taken from, and that only textually earlier statements are visible.  What an accepted
   statement did is read off FrontValid.item_ok (FrontValidProofs.proc_item_ok, which asks nothing
   of the parse of imported files). *)
From Coq Require Import ZArith List String.
From BP Require Import ListFacts Schema Front FrontProofs FrontValid FrontValidProofs.
Import ListNotations.
Open Scope Z_scope.

Section Scope.
  Variable pc : list string -> string -> res def.
  Variable kf : string -> bool.
  Variable trad : bool.
  Variable file : string.
  Variable fstack : list string.

  Notation PI := (proc_item pc kf trad file fstack).
  Notation PIS := (proc_items pc kf trad file fstack).
  Notation binds := (binds pc).
  Notation reach := (reach pc kf trad file fstack).

  (* a field whose type is a (dotted) name: the member pushed into the message carries the
     type of exactly the definition lookup returns, and records where that definition is *)
  Theorem field_type_used outer cur l p name num cur' :
    PI outer cur (IField l (XSingle (SRef p)) name num) = Ok cur' ->
    exists d t,
      lookup (cur :: outer) p = Some d /\ def_type d = Some t /\
      fmem cur' = (name, DField (mkloc file l) num t (Some (def_loc d))) :: fmem cur.
  Proof.
    intros H. apply proc_item_ok in H. destruct H as (_ & ty & r & Ht & _ & _ & _ & ->).
    inversion Ht as [? ? ? Hs|]; subst. inversion Hs; subst. now exists d, ty.
  Qed.

  Theorem field_array_type_used outer cur l p c ext name num cur' :
    PI outer cur (IField l (XArr (SRef p) c ext) name num) = Ok cur' ->
    exists d t n,
      lookup (cur :: outer) p = Some d /\ def_type d = Some t /\
      resolve_cap file (cur :: outer) l c = Ok n /\
      fmem cur' = (name, DField (mkloc file l) num (TArr ext (Z.to_nat n) t) (Some (def_loc d))) :: fmem cur.
  Proof.
    intros H. apply proc_item_ok in H. destruct H as (_ & ty & r & Ht & _ & _ & _ & ->).
    inversion Ht as [|? ? ? t ? n Hs Hc]; subst. inversion Hs; subst. exists d, t, n.
    repeat split; try assumption. now apply resolve_cap_spec.
  Qed.

  Lemma proc_item_adds outer cur it cur' :
    PI outer cur it = Ok cur' ->
    fmem cur' = fmem cur \/ exists n d, binds it n /\ cur' = add_member cur n d.
  Proof.
    intros H. apply proc_item_ok in H.
    destruct it as [l nm|l a g|l nm v|l nm v|l nm t|l nm b body|l nm x body|l t nm k|l nm v];
      cbn [item_ok] in H; cbv zeta in H.
    2:{ destruct H as (_ & _ & _ & _ & child & name & Hc & -> & _ & _ & ->). right. eexists _, child. split; [|reflexivity].
        destruct a as [a|]; [reflexivity|].
        destruct child as [| | | |cf cn cm| | |]; try (exists fstack, EmptyString, []; now right). exists fstack, cf, cm. now left. }
    1: left; destruct H as [_ ->]; reflexivity.
    (* every other clause of item_ok ends in [cur' = add_member cur name d], name the statement's own *)
    all: right; decompose [ex and] H; match goal with E : _ = add_member _ _ _ |- _ => rewrite E end; eexists _, _; split; reflexivity.
  Qed.

  Lemma add_member_names f name d n :
    has_name n (fmem (add_member f name d)) = true -> has_name n (fmem f) = true \/ n = name.
  Proof.
    unfold has_name. cbn [add_member fmem assoc fst snd]. destruct (String.eqb_spec name n) as [->|_]; [now right|now left].
  Qed.

  Lemma proc_item_binds outer cur it cur' :
    PI outer cur it = Ok cur' ->
    forall n, has_name n (fmem cur') = true -> has_name n (fmem cur) = true \/ binds it n.
  Proof.
    intros H n Hn. destruct (proc_item_adds _ _ _ _ H) as [E|[m [d [Hb ->]]]]; [left; now rewrite <- E|].
    apply add_member_names in Hn. destruct Hn as [Hn| ->]; [now left|now right].
  Qed.

  Lemma proc_items_binds outer pre : forall cur cur',
    PIS outer cur pre = Ok cur' ->
    forall n, has_name n (fmem cur') = true ->
              has_name n (fmem cur) = true \/ exists it, In it pre /\ binds it n.
  Proof.
    induction pre as [|i r IH]; intros cur cur' H n Hn.
    - cbn [proc_items] in H. inversion H; subst. now left.
    - cbn [proc_items] in H. apply bind_ok in H. destruct H as (f & Ei & H).
      destruct (IH f cur' H n Hn) as [Hf|[it [Hin Hb]]].
      + destruct (proc_item_binds _ _ _ _ Ei n Hf) as [Hc|Hb]; [now left|].
        right. exists i. split; [now left|exact Hb].
      + right. exists it. split; [now right|exact Hb].
  Qed.

  Definition names_from (f : frame) (pre : list item) : Prop :=
    forall n, has_name n (fmem f) = true -> exists it0, In it0 pre /\ binds it0 n.

  Lemma proc_items_names outer cur pre cur' :
    PIS outer cur pre = Ok cur' -> fmem cur = [] -> names_from cur' pre.
  Proof.
    intros Hp Hc n Hn. destruct (proc_items_binds _ _ _ _ Hp n Hn) as [Hf|Hb]; [|exact Hb].
    rewrite Hc in Hf. discriminate.
  Qed.

  Lemma reach_names outer ops cur body st ps it :
    reach outer ops cur body st ps it ->
    Forall2 names_from outer ops -> fmem cur = [] -> Forall2 names_from st ps.
  Proof.
    induction 1 as [outer ops cur pre it post cur' Hp
                   |outer ops cur pre l name ext body post cur' st ps it Hp Hx _ IH
                   |outer ops cur pre l name n body post cur' st ps it Hp Hx _ IH];
      intros Ho Hc; [|apply IH; [|reflexivity]..];
      (constructor; [now apply (proc_items_names outer cur)|exact Ho]).
  Qed.

  (* whatever a name resolves to at [it], its first component was declared by a statement that
     textually precedes [it] in one of the enclosing scopes of the same file *)
  Theorem lookup_only_earlier items st ps it n rest d :
    reach [] [] (mkframe (FProto None) []) items st ps it ->
    lookup st (n :: rest) = Some d ->
    exists k pre it0, nth_error ps k = Some pre /\ In it0 pre /\ binds it0 n.
  Proof.
    intros Hr Hl. apply lookup_declares in Hl. destruct Hl as [k [f [Hn [Hd _]]]].
    assert (HF : Forall2 names_from st ps) by (eapply reach_names; [exact Hr|constructor|reflexivity]).
    destruct (Forall2_nth _ _ _ _ _ HF Hn) as [pre [Hpre Hnames]].
    destruct (Hnames n Hd) as [it0 [Hin Hb]]. now exists k, pre, it0.
  Qed.

  (* hence a name that no preceding statement declares does not resolve, whatever follows *)
  Theorem undeclared_before_not_found items st ps it n rest :
    reach [] [] (mkframe (FProto None) []) items st ps it ->
    (forall pre it0, In pre ps -> In it0 pre -> ~ binds it0 n) ->
    lookup st (n :: rest) = None.
  Proof.
    intros Hr Hno. destruct (lookup st (n :: rest)) as [d|] eqn:E; [|reflexivity].
    destruct (lookup_only_earlier _ _ _ _ _ _ _ Hr E) as [k [pre [it0 [Hk [Hin Hb]]]]].
    exfalso. apply (Hno pre it0); [now apply nth_error_In in Hk|exact Hin|exact Hb].
  Qed.

  (* ... and a field that uses it as its type makes the whole file fail with
     ReferencedTypeNotDefined at the field's line *)
  Theorem use_before_definition_rejected items f st' ps l n rest name num :
    reach [] [] (mkframe (FProto None) []) items (f :: st') ps (IField l (XSingle (SRef (n :: rest))) name num) ->
    is_proto_frame f = false ->
    (forall pre it0, In pre ps -> In it0 pre -> ~ binds it0 n) ->
    PIS [] (mkframe (FProto None) []) items = Err KRefTypeNotDefined file l.
  Proof.
    intros Hr Hp Hno. eapply reach_error; [exact Hr|reflexivity|].
    cbn [proc_item]. rewrite Hp. cbn [resolve_tyx resolve_sty]. unfold resolve_type_ref.
    now rewrite (undeclared_before_not_found _ _ _ _ _ _ Hr Hno).
  Qed.
End Scope.
