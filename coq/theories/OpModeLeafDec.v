(* OpModeLeafDec.v — one scalar field at an arbitrary bit offset, decode direction: the
   statements of every target (C byte-pointer, C value-based, Go) rebuild exactly the field's
   bits in a zeroed object, then the sign statements extend them; for every width 1..64,
   every offset, every buffer content. *)
From Coq Require Import ZArith List Bool Lia.
From BP Require Import Bits OpMode OpModeStep OpModeLeaf.
From BPGen Require Import GenOpMode.
Import ListNotations.
Open Scope Z_scope.

(* what the decoder leaves in the object for stream bits X = (buffer >> offset) *)
Definition dec_pat (lf : leaf) (X : Z) : Z :=
  match lk lf with
  | KInt n => let p := X mod 2 ^ n in
              (if p <? 2 ^ (n - 1) then p else p - 2 ^ n) mod 2 ^ storage_bits n
  | _ => X mod 2 ^ leaf_bits lf
  end.

Definition dec_view (S : list Z) (M0 : mem) (ch : chain) (d : Z) (st : state) : Prop :=
  st = mkst S (mem_set M0 ch d).

Lemma buf_read S i c :
  bytes_ok S -> 0 <= i -> 0 <= c -> c <= 8 - i mod 8 -> i < 8 * Z.of_nat (length S) ->
  exists b, rd S (i / 8) = Some b /\ 0 <= b < 256 /\ chunk b (i mod 8) c = chunk (bufZ S) i c.
Proof.
  intros Hs Hi Hc Hc8 Hlen. exists (nth (Z.to_nat (i / 8)) S 0).
  split; [apply rd_nth; Z.div_mod_to_equations; lia|]. split; [now apply nth_bytes_ok|].
  now apply chunk_through_byte.
Qed.

Lemma set_byte_add p j m c asg :
  0 <= j -> 0 <= p < 2 ^ j -> 0 <= m < 2 ^ c -> 0 <= c -> c <= 8 - j mod 8 ->
  (asg = true -> j mod 8 = 0) ->
  set_byte p (j / 8) (store_byte asg (get_byte p (j / 8)) (m * 2 ^ (j mod 8))) = p + m * 2 ^ j.
Proof.
  intros Hj Hp Hm Hc Hc8 Ha.
  pose proof (Z.mod_pos_bound j 8 ltac:(lia)) as Hr. destruct (byte_below p j Hj Hp) as [Hg Hob].
  unfold set_byte. change (get_byte p (j / 8)) with (chunk p (8 * (j / 8)) 8). rewrite Hg.
  rewrite store_byte_place with (c := c) by (assumption || lia). rewrite (pow2_byte_split j Hj). ring.
Qed.

Lemma csz_pos_or T : (csz T = 8 \/ csz T = 16 \/ csz T = 32 \/ csz T = 64) -> 1 <= csz T.
Proof. lia. Qed.

Lemma upat_mod T z : is_cbool T = false -> upat T z = z mod 2 ^ csz T.
Proof. destruct T; cbn; intros; try discriminate; reflexivity. Qed.

Lemma or_pat T p y :
  is_cbool T = false -> 1 <= csz T -> 0 <= p < 2 ^ csz T -> 0 <= y < 2 ^ csz T ->
  upat T (Z.lor (sval T p) (sval T y)) = Z.lor p y.
Proof.
  intros Hb Hsz Hp Hy. rewrite upat_mod by assumption.
  rewrite <- Z.land_ones by lia. rewrite Z.land_lor_distr_l.
  rewrite !Z.land_ones by lia. rewrite !sval_mod by assumption. reflexivity.
Qed.

Lemma conv_small T y : is_cbool T = false -> 0 <= y < 2 ^ csz T -> conv T y = sval T y.
Proof.
  intros Hb Hy. unfold conv. rewrite upat_mod by assumption. now rewrite Z.mod_small.
Qed.

(* ch |= y, for an object holding j bits and y = c further bits placed above them *)
Lemma or_place T p m j c :
  is_cbool T = false -> 0 <= j -> 1 <= c -> j + c <= csz T -> 0 <= p < 2 ^ j -> 0 <= m < 2 ^ c ->
  upat T (Z.lor (sval T p) (sval T (m * 2 ^ j))) = p + m * 2 ^ j.
Proof.
  intros Hb Hj Hc Hsz Hp Hm.
  pose proof (place_bound 0 m j c (csz T) Hj ltac:(lia) Hsz ltac:(pose proof (pow2_pos j Hj); lia) Hm).
  assert (2 ^ j <= 2 ^ csz T) by (apply Z.pow_le_mono_r; lia).
  rewrite or_pat by (try assumption; lia). apply lor_disjoint_low; lia.
Qed.

Lemma leaf_bool_cases lf :
  (leaf_cty lf = CBool /\ lk lf = KBool /\ leaf_bits lf = 1) \/
  (is_cbool (leaf_cty lf) = false /\ is_kbool lf = false /\ go_conv_of lf = GPlain).
Proof. unfold leaf_cty, leaf_bits, is_kbool, go_conv_of. destruct (lk lf); auto. Qed.

(* C, value based:  ch |= (ct)((ut)(((unsigned)(s[si]) sh) & mask) << 8*fi);  the cast to ut and
   the shift are only printed for fi > 0.  The masked byte goes to byte fi of the object. *)
Lemma exec_dec_be S M ch ct sz si sh mask fi b e1 cl :
  0 <= fi -> 8 * fi + 8 <= sz ->
  rd S si = Some b -> c_shift (CU 32) b sh = Some e1 -> 0 <= Z.land e1 mask < 256 ->
  mem_get M ch = Some cl ->
  exec (mkst S M) (SDecBE ch ct (if 0 <? fi then Some (CU sz) else None) si sh mask
                     (if 0 <? fi then 8 * fi else 0)) =
  Some (mkst S (mem_set M ch
     (upat (cty_of cl) (Z.lor (sval (cty_of cl) (pat cl)) (conv ct (Z.land e1 mask * 2 ^ (8 * fi))))))).
Proof.
  intros Hfi Hfit Hrd E1 Hbv Hget.
  cbn [exec buf objs]. rewrite Hrd. cbn [bind]. rewrite E1. cbn [bind]. cbv zeta.
  set (bv := Z.land e1 mask) in *.
  destruct (Z.ltb_spec 0 fi) as [Hpos|H0].
  2:{ replace fi with 0 by lia. cbn [Z.eqb Z.mul bind]. rewrite Hget. cbn [bind].
      change (2 ^ 0) with 1. now rewrite Z.mul_1_r. }
  pose proof (place_bound 0 bv (8 * fi) 8 sz ltac:(lia) ltac:(lia) ltac:(lia)
                ltac:(pose proof (pow2_pos (8 * fi)); lia) Hbv) as Hb.
  assert (H256 : 2 ^ 8 <= 2 ^ sz) by (apply Z.pow_le_mono_r; lia). change (2 ^ 8) with 256 in H256.
  cbn [is_unsigned andb upat]. replace (0 <? 8 * fi) with true by lia.
  rewrite Z.mod_small by lia.
  unfold c_shift. cbn [csz].
  replace (- (8 * fi) =? 0) with false by lia. replace (0 <? - (8 * fi)) with false by lia.
  replace (Z.max 32 sz <=? - - (8 * fi)) with false by lia.
  replace (- - (8 * fi)) with (8 * fi) by lia.
  assert (Hsh : (if sz <? 32
                 then if bv * 2 ^ (8 * fi) <? 2 ^ 31 then Some (bv * 2 ^ (8 * fi)) else None
                 else Some ((bv * 2 ^ (8 * fi)) mod 2 ^ sz)) = Some (bv * 2 ^ (8 * fi))).
  { destruct (sz <? 32) eqn:E32.
    - apply Z.ltb_lt in E32.
      assert (2 ^ sz <= 2 ^ 31) by (apply Z.pow_le_mono_r; lia).
      now replace (bv * 2 ^ (8 * fi) <? 2 ^ 31) with true by lia.
    - now rewrite Z.mod_small by lia. }
  rewrite Hsh. cbn [bind]. rewrite Hget. reflexivity.
Qed.

(* every target ends up adding the chunk of the stream byte to the object, which so far
   holds only bits below j *)
Lemma dec_item L lf ch S M0 u0 i j c p st :
  leaf_ok lf -> mem_get M0 ch = Some (mkcell (leaf_cty lf) u0) -> bytes_ok S ->
  0 <= i -> 0 <= j -> 1 <= c -> j + c <= leaf_bits lf -> c <= 8 - i mod 8 -> c <= 8 - j mod 8 ->
  i + c <= 8 * Z.of_nat (length S) -> 0 <= p < 2 ^ j -> dec_view S M0 ch p st ->
  exists st', exec st (item L false lf ch (i, j, c)) = Some st' /\
              dec_view S M0 ch (p + chunk (bufZ S) i c * 2 ^ j) st'.
Proof.
  intros Hok Hget0 HS Hi Hj Hc1 Hc2 Hc4 Hc3 Hlen Hp ->.
  destruct (buf_read S i c HS Hi ltac:(lia) Hc4 ltac:(lia)) as (b & Hrd & Hb & <-).
  pose proof (mem_get_set _ _ _ p Hget0) as Hget. cbn [cty_of] in Hget.
  set (M := mem_set M0 ch p) in *.
  enough (exec (mkst S M) (item L false lf ch (i, j, c)) =
          Some (mkst S (mem_set M ch (p + chunk b (i mod 8) c * 2 ^ j)))) as ->
    by (eexists; split; [reflexivity|]; unfold dec_view, M; now rewrite mem_set_set).
  destruct (leaf_facts lf Hok) as (Hn & Hsz & Hut).
  set (sz := csz (leaf_cty lf)) in *.
  pose proof (Z.mod_pos_bound i 8 ltac:(lia)) as Hmi.
  pose proof (Z.mod_pos_bound j 8 ltac:(lia)) as Hmj.
  pose proof (Z.div_mod j 8 ltac:(lia)) as Hdj.
  assert (Hfi : 0 <= j / 8) by (apply Z.div_pos; lia).
  pose proof (chunk_range b (i mod 8) c ltac:(lia)) as Hm. set (m := chunk b (i mod 8) c) in *.
  (* the masked byte, and the same moved to byte j/8 *)
  pose proof (place_bound 0 m (j mod 8) c 8 ltac:(lia) ltac:(lia) ltac:(lia)
                ltac:(pose proof (pow2_pos (j mod 8)); lia) Hm) as Hbv.
  change (2 ^ 8) with 256 in Hbv. cbn [Z.add] in Hbv.
  assert (Hy : m * 2 ^ (j mod 8) * 2 ^ (8 * (j / 8)) = m * 2 ^ j).
  { rewrite (pow2_byte_split j Hj). ring. }
  destruct (dec_pos i j c) as (Esi & Efi & Er).
  destruct L; cbn [item]; rewrite Esi, Efi, ?Er; unfold dec_shift, dec_mask.
  - (* C, byte pointer *)
    destruct (c_expr 8 b (i mod 8) (j mod 8) c ltac:(auto) Hb ltac:(lia) Hc1 ltac:(lia) Hmj Hc3)
      as (e1 & E1 & E2).
    cbn [exec buf objs]. rewrite Hrd. cbn [bind].
    rewrite E1. cbn [bind]. rewrite Hget. cbn [bind cty_of pat].
    fold sz. replace ((0 <=? j / 8) && (8 * (j / 8) <? sz)) with true by lia.
    rewrite E2. destruct (assign_spec (j mod 8)) as (_ & _ & ->).
    now rewrite (set_byte_add p j m c) by lia.
  - (* C, value based *)
    destruct (c_expr 32 b (i mod 8) (j mod 8) c ltac:(auto) ltac:(lia) ltac:(lia) Hc1 ltac:(lia) Hmj Hc3)
      as (e1 & E1 & E2).
    destruct (be_shift_spec (j / 8) 0) as (_ & -> & ->). rewrite Hut.
    rewrite (exec_dec_be S M ch _ sz _ _ _ (j / 8) b e1 _ Hfi ltac:(lia) Hrd E1 ltac:(now rewrite E2) Hget).
    rewrite E2. fold m. rewrite Hy. cbn [cty_of pat]. do 3 f_equal.
    destruct (leaf_bool_cases lf) as [(-> & _ & Hb1)|(Hnb & _ & _)].
    + (* one bit: j = 0, c = 1, the object holds 0 *)
      replace j with 0 in * by lia. replace c with 1 in * by lia.
      change (2 ^ 0) with 1 in *. change (2 ^ 1) with 2 in Hm.
      replace p with 0 by lia. assert (Hm01 : m = 0 \/ m = 1) by lia.
      destruct Hm01 as [-> | ->]; reflexivity.
    + rewrite conv_small by (try assumption; fold sz; apply (place_bound 0 m j c); lia).
      apply (or_place _ p m j c); try assumption; fold sz; lia.
  - (* Go *)
    destruct (go_bshift_spec (j / 8)) as (_ & _ & -> & ->).
    replace (if 0 <? j / 8 then 8 * (j / 8) else 0) with (8 * (j / 8))
      by (destruct (Z.ltb_spec 0 (j / 8)); lia).
    cbn [exec buf objs]. rewrite Hrd. cbn [bind].
    rewrite Hget. cbn [bind cty_of pat]. rewrite cty_eqb_refl.
    pose proof (mask_byte (j mod 8) c ltac:(lia) ltac:(lia) ltac:(lia)) as Hmask.
    replace ((0 <=? 8 * (j / 8)) && (0 <=? op_mode_get_mask (j mod 8) c) &&
             (op_mode_get_mask (j mod 8) c <? 256) && true) with true by lia.
    rewrite go_expr by lia. fold m.
    destruct (leaf_bool_cases lf) as [(ET & Hlk & Hb1)|(Hnb & -> & ->)].
    + replace j with 0 in * by lia. replace c with 1 in * by lia.
      change (2 ^ 0) with 1 in *. change (2 ^ 1) with 2 in Hm.
      replace p with 0 by lia. assert (Hm01 : m = 0 \/ m = 1) by lia.
      unfold go_conv_of, is_kbool. rewrite Hlk, ET.
      destruct (lalias lf); destruct Hm01 as [-> | ->]; reflexivity.
    + rewrite Hnb. do 3 f_equal.
      assert (Hinner : upat (leaf_cty lf) (conv (leaf_cty lf) (m * 2 ^ (j mod 8)) * 2 ^ (8 * (j / 8)))
                       = m * 2 ^ j).
      { assert (H256 : 2 ^ 8 <= 2 ^ sz) by (apply Z.pow_le_mono_r; lia).
        change (2 ^ 8) with 256 in H256.
        rewrite conv_small, upat_mod by (try assumption; fold sz; lia). fold sz.
        rewrite <- Z.mul_mod_idemp_l by (apply Z.pow_nonzero; lia).
        rewrite sval_mod by (fold sz; lia). fold sz. rewrite Hy.
        apply Z.mod_small, (place_bound 0 m j c); lia. }
      unfold conv at 1. rewrite Hinner.
      apply (or_place _ p m j c); try assumption; fold sz; lia.
Qed.

Lemma sign_bit p n :
  1 <= n -> 0 <= p < 2 ^ n -> Z.land (Z.shiftr p (n - 1)) 1 = if p <? 2 ^ (n - 1) then 0 else 1.
Proof.
  intros Hn Hp. rewrite Z.shiftr_div_pow2 by lia.
  change 1 with (Z.ones 1) at 2. rewrite Z.land_ones by lia. change (2 ^ 1) with 2.
  assert (Hh : 0 < 2 ^ (n - 1)) by (apply pow2_pos; lia).
  pose proof (pow2_half n ltac:(lia)) as H2.
  destruct (Z.ltb_spec p (2 ^ (n - 1))) as [Hlt|Hge].
  - rewrite Z.div_small by lia. reflexivity.
  - assert (1 <= p / 2 ^ (n - 1)) by (apply Z.div_le_lower_bound; lia).
    assert (p / 2 ^ (n - 1) < 2) by (apply Z.div_lt_upper_bound; lia).
    now replace (p / 2 ^ (n - 1)) with 1 by lia.
Qed.

(* u0: whatever the object at ch held before the item statements ran (only its type matters);
   p: the n field bits they have left there *)
Section Sign.
  Variables (ch : chain) (M0 : mem) (S : list Z) (n : Z) (u0 p : Z).
  Hypothesis Hn : 1 <= n <= 64.
  Hypothesis Hns : c_no_sign_stmt n = false.
  Hypothesis Hget : mem_get M0 ch = Some (mkcell (CS (storage_bits n)) u0).
  Hypothesis Hp : 0 <= p < 2 ^ n.

  Let sb := storage_bits n.

  Lemma sign_facts : n < sb /\ sb <= 64 /\ 2 ^ n <= 2 ^ (sb - 1) /\ c_sign_mask n = - 2 ^ n /\
                     go_sign_d sb n = sb - n /\ go_no_sign_stmt n = false.
  Proof.
    destruct (width_spec n Hn) as (A & B & C & D & E & F & G). fold sb in A, B, C, D, G |- *.
    specialize (D Hns). repeat split; try lia; try congruence.
    apply Z.pow_le_mono_r; lia.
  Qed.

  Lemma sign_cell q : mem_get (mem_set M0 ch q) ch = Some (mkcell (CS sb) q).
  Proof. now rewrite (mem_get_set _ _ _ _ Hget). Qed.

  (* sp: SSignC's flag for the mask spelled (-9223372036854775807 - 1); exec ignores it *)
  Lemma sign_c sp :
    exec (mkst S (mem_set M0 ch p)) (SSignC ch (n - 1) (c_sign_mask n) sp) =
    Some (mkst S (mem_set M0 ch ((if p <? 2 ^ (n - 1) then p else p - 2 ^ n) mod 2 ^ sb))).
  Proof.
    destruct sign_facts as (Hlt & H64 & Hpow & Hmask & _ & _).
    assert (Hsbp : 2 ^ n < 2 ^ sb) by (apply Z.pow_lt_mono_r; lia).
    cbn [exec objs buf]. rewrite sign_cell. cbn [bind cty_of pat csz].
    replace ((0 <=? n - 1) && (n - 1 <? Z.max 32 sb)) with true by lia.
    cbn [sval]. replace (p <? 2 ^ (sb - 1)) with true by lia.
    rewrite sign_bit by lia.
    destruct (Z.ltb_spec p (2 ^ (n - 1))) as [Hl|Hg]; cbn [Z.eqb].
    - rewrite Z.mod_small by lia. reflexivity.
    - rewrite mem_set_set. cbn [upat]. rewrite Hmask.
      replace (- 2 ^ n) with ((-1) * 2 ^ n) by ring.
      rewrite lor_disjoint_low by lia.
      replace (p + -1 * 2 ^ n) with (p - 2 ^ n) by ring. reflexivity.
  Qed.

  Lemma shl_go q d : 0 <= d ->
    exec (mkst S (mem_set M0 ch q)) (SShlGo ch d) =
    Some (mkst S (mem_set M0 ch (upat (CS sb) (sval (CS sb) q * 2 ^ d)))).
  Proof.
    intros Hd. cbn [exec objs buf]. rewrite sign_cell. cbn [bind cty_of pat is_cbool orb].
    replace (d <? 0) with false by lia. now rewrite mem_set_set.
  Qed.

  Lemma shr_go q d : 0 <= d ->
    exec (mkst S (mem_set M0 ch q)) (SShrGo ch d) =
    Some (mkst S (mem_set M0 ch (upat (CS sb) (Z.shiftr (sval (CS sb) q) d)))).
  Proof.
    intros Hd. cbn [exec objs buf]. rewrite sign_cell. cbn [bind cty_of pat is_cbool orb].
    replace (d <? 0) with false by lia. now rewrite mem_set_set.
  Qed.

  Lemma sign_go :
    run [SShlGo ch (go_sign_d sb n); SShrGo ch (go_sign_d sb n)] (mkst S (mem_set M0 ch p)) =
    Some (mkst S (mem_set M0 ch ((if p <? 2 ^ (n - 1) then p else p - 2 ^ n) mod 2 ^ sb))).
  Proof.
    destruct sign_facts as (Hlt & H64 & Hpow & _ & Hd & _). rewrite Hd.
    set (d := sb - n).
    assert (Hpd : 0 < 2 ^ d) by (apply pow2_pos; lia).
    assert (Hsplit : 2 ^ sb = 2 ^ n * 2 ^ d).
    { rewrite <- Z.pow_add_r by lia. f_equal. lia. }
    assert (Hhalf : 2 ^ (sb - 1) = 2 ^ (n - 1) * 2 ^ d).
    { rewrite <- Z.pow_add_r by lia. f_equal. lia. }
    pose proof (pow2_half n ltac:(lia)) as H2n.
    assert (Hh : 0 < 2 ^ (n - 1)) by (apply pow2_pos; lia).
    cbn [run]. rewrite shl_go by lia. cbn [bind]. rewrite shr_go by lia. cbn [bind].
    do 3 f_equal.
    cbn [sval upat]. replace (p <? 2 ^ (sb - 1)) with true by lia.
    rewrite (Z.mod_small (p * 2 ^ d)) by nia.
    rewrite Z.shiftr_div_pow2 by lia.
    destruct (Z.ltb_spec p (2 ^ (n - 1))) as [Hl|Hg].
    - replace (p * 2 ^ d <? 2 ^ (sb - 1)) with true by nia.
      now rewrite Z.div_mul by lia.
    - replace (p * 2 ^ d <? 2 ^ (sb - 1)) with false by nia.
      replace (p * 2 ^ d - 2 ^ sb) with ((p - 2 ^ n) * 2 ^ d) by (rewrite Hsplit; ring).
      now rewrite Z.div_mul by lia.
  Qed.
End Sign.

Lemma post_dec L lf ch M0 S X :
  leaf_ok lf -> mem_get M0 ch = Some (mkcell (leaf_cty lf) 0) ->
  run (post L false lf ch) (mkst S (mem_set M0 ch (X mod 2 ^ leaf_bits lf))) =
  Some (mkst S (mem_set M0 ch (dec_pat lf X))).
Proof.
  intros Hok Hget. unfold post, dec_pat, leaf_bits, leaf_ok, leaf_cty in *.
  destruct (lk lf) as [| |n|n|n]; try reflexivity. cbv zeta.
  assert (Hp : 0 <= X mod 2 ^ n < 2 ^ n) by (apply Z.mod_pos_bound, pow2_pos; lia).
  destruct (width_spec n Hok) as (A & B & C & D & E & F & G).
  destruct (c_no_sign_stmt n) eqn:Ens.
  - rewrite (C eq_refl).
    pose proof (sval_mod (CS n) _ Hp ltac:(cbn [csz]; lia)) as Hs. cbn [sval csz] in Hs. rewrite Hs.
    (* no statement in any target; Go tests go_no_sign_stmt *)
    destruct L; try rewrite E; reflexivity.
  - (* both C targets print the same statement; Go is left *)
    destruct L;
      try (cbn [run]; rewrite (sign_c ch M0 S n 0 (X mod 2 ^ n) Hok Ens Hget Hp); reflexivity).
    rewrite E. apply (sign_go ch M0 S n 0 (X mod 2 ^ n) Hok Ens Hget Hp).
Qed.

Theorem leaf_decode L lf ch M0 S i0 :
  leaf_ok lf -> mem_get M0 ch = Some (mkcell (leaf_cty lf) 0) ->
  0 <= i0 -> bytes_ok S -> i0 + leaf_bits lf <= 8 * Z.of_nat (length S) ->
  run (leaf_stmts L false (ch, lf) i0) (mkst S M0) =
  Some (mkst S (mem_set M0 ch (dec_pat lf (bufZ S / 2 ^ i0)))).
Proof.
  intros Hok Hget Hi0 HS Hlen.
  destruct (leaf_facts lf Hok) as (Hn & _ & _).
  unfold leaf_stmts. cbn [fst snd]. rewrite run_app.
  destruct (copy_loop (dec_view S M0 ch) (item L false lf ch) (bufZ S) i0 0 (leaf_bits lf))
    with (d0 := 0) (st := mkst S M0) as (st' & Hrun & ->); try lia.
  - intros j c d st. rewrite Z.add_0_r, Z.add_0_l. intros. eapply dec_item; eassumption || lia.
  - unfold dec_view. f_equal. symmetry. eapply mem_set_same. exact Hget.
  - rewrite Z.add_0_r in Hrun. rewrite Hrun. cbn [bind].
    rewrite Z.add_0_l, Z.mul_1_r. apply (post_dec L lf ch M0 S (bufZ S / 2 ^ i0)); assumption.
Qed.
