(* EmitSpec.v — what the front end guarantees about an elaborated schema ([wf]), the
   property's own precondition ([pre]: generated base names distinct after flattening and
   case conversion, not reserved), and the guards that delimit the regions in which the
   faithful model REFUTES the property on the current tree (DESIGN §5 keys in brackets). *)
From Coq Require Import String Ascii List ZArith Bool Arith.
From BP Require Import EmitBase EmitNames Emit.
From BPGen Require Import GenC10.
Import ListNotations.
Open Scope string_scope.
Open Scope list_scope.
Open Scope nat_scope.

(* ---- references of a definition ---- *)
Fixpoint ty_refs (t : tyx) : list ref :=
  match t with TBase _ => [] | TRef r => [r] | TArr e _ _ => ty_refs e end.
Definition def_refs (d : def) : list ref :=
  match d with
  | DAlias _ t => ty_refs t
  | DMsg _ _ _ fs => flat_map (fun fl => ty_refs (fl_ty fl)) fs
  | _ => []
  end.

(* follow a chain of import member names *)
Fixpoint follow (s : schema) (i : nat) (via : list string) : option nat :=
  match via with
  | [] => Some i
  | m :: r => match find (fun mj => String.eqb (fst mj) m) (f_imports (getf s i)) with
              | Some mj => follow s (snd mj) r
              | None => None
              end
  end.

Definition targets (r : ref) (fd : fdef) : bool := fdef_is (r_k r) (r_path r) (r_name r) fd.

(* a reference written without an import chain resolves to a definition of the same file that
   is COMPLETE at that point (parser.py: a scope is pushed into its parent when it closes,
   _lookup_referenced_member only sees members already pushed) = earlier in Scope.filter
   order; a reference through imports resolves to a definition of the file the chain leads to *)
Definition ref_wf (s : schema) (i : nat) (seen : list fdef) (r : ref) : bool :=
  match r_via r with
  | [] => (r_file r =? i) && existsb (targets r) seen
  | via => match follow s i via with
           | Some j => (r_file r =? j) && negb (j =? i) && existsb (targets r) (flat_file (getf s j))
           | None => false
           end
  end.

Fixpoint refs_wf (s : schema) (i : nat) (seen : list fdef) (l : list fdef) : bool :=
  match l with
  | [] => true
  | fd :: r => forallb (ref_wf s i seen) (def_refs (fd_def fd)) && refs_wf s i (seen ++ [fd]) r
  end.

Fixpoint nodup_str (l : list string) : bool :=
  match l with [] => true | x :: r => negb (existsb (String.eqb x) r) && nodup_str r end.

Definition file_wf (s : schema) (i : nat) : bool :=
  let f := getf s i in
  forallb (fun mj => (snd mj <? length s) && negb (snd mj =? i) && negb (String.eqb (fst mj) "")) (f_imports f) &&
  nodup_str (map fst (f_imports f)) &&
  refs_wf s i [] (flat_file f).

(* field numbers of a message are distinct (DuplicatedMessageFieldNumber) *)
Definition fields_wf (s : schema) (i : nat) : bool :=
  forallb (fun fd => match fd_def fd with
                     | DMsg _ _ _ fs => nodup_str (map (fun fl => dec (fl_num fl)) fs)
                     | _ => true end) (flat_file (getf s i)).

(* options of an accepted file pass their validators (options.py, translated into gen/GenC10.v) *)
Definition opts_wf (s : schema) (i : nat) : bool := align_valid (o_calign (f_opts (getf s i))).

Definition wf (s : schema) : bool :=
  forallb (fun i => file_wf s i && fields_wf s i && opts_wf s i) (seq 0 (length s)).

(* ---- the property's precondition ---- *)
Definition ns_macro (L : lang) : ns := match L with LC => NsMacro | _ => NsMod end.
Definition ns_ord (L : lang) : ns := match L with LC => NsOrd | _ => NsMod end.
Definition ns_tag (L : lang) : ns := match L with LC => NsTag | _ => NsMod end.

(* the name of the primary declaration(s) of a definition *)
Definition base_keys (L : lang) (px : string) (fd : fdef) : list key :=
  let pth := fd_path fd in
  match fd_def fd with
  | DConst n _ => [(ns_macro L, dname L KConstant px pth n)]
  | DAlias n _ => [(ns_ord L, dname L KAlias px pth n)]
  | DEnum n _ ms => (ns_ord L, dname L KEnum px pth n)
                    :: map (fun m => (ns_macro L, dname L KEnumField px pth (fst m))) ms
  | DMsg n _ _ _ => [(ns_tag L, dname L KMessage px pth n)]
  end.

Definition file_base_keys (L : lang) (s : schema) (i : nat) : list key :=
  flat_map (base_keys L (own_px s i L)) (flat_file (getf s i)).

Definition msg_names (L : lang) (s : schema) (i : nat) : list string :=
  flat_map (fun fd => match fd_def fd with
                      | DMsg n _ _ _ => [dname L KMessage (own_px s i L) (fd_path fd) n]
                      | _ => [] end) (flat_file (getf s i)).
Definition enum_names (L : lang) (s : schema) (i : nat) : list string :=
  flat_map (fun fd => match fd_def fd with
                      | DEnum n _ _ => [dname L KEnum (own_px s i L) (fd_path fd) n]
                      | _ => [] end) (flat_file (getf s i)).
Definition alias_names (L : lang) (s : schema) (i : nat) : list string :=
  flat_map (fun fd => match fd_def fd with
                      | DAlias n _ => [dname L KAlias (own_px s i L) (fd_path fd) n]
                      | _ => [] end) (flat_file (getf s i)).
Definition array_alias_names (L : lang) (s : schema) (i : nat) : list string :=
  flat_map (fun fd => match fd_def fd with
                      | DAlias n t => if is_arr t then [dname L KAlias (own_px s i L) (fd_path fd) n] else []
                      | _ => [] end) (flat_file (getf s i)).

(* reserved words: language keywords and the identifiers the generated code / runtime use *)
Definition reserved (L : lang) : list string :=
  match L with
  | LC => ["auto";"break";"case";"char";"const";"continue";"default";"do";"double";"else";"enum";"extern";"float";
           "for";"goto";"if";"inline";"int";"long";"register";"restrict";"return";"short";"signed";"sizeof";
           "static";"struct";"switch";"typedef";"union";"unsigned";"void";"volatile";"while";"bool";"true";"false";
           (* C++ (the header is included from C++) *)
           "class";"new";"delete";"this";"template";"namespace";"private";"public";"protected";"virtual";"friend";
           "operator";"try";"catch";"throw";"using";"and";"or";"not";"xor";"asm";"export";"typename";"mutable";
           "explicit";"bitand";"bitor";"compl";"not_eq";"or_eq";"xor_eq";"and_eq";"nullptr";"constexpr";
           "decltype";"noexcept";"static_assert";"thread_local";"alignas";"alignof";"char16_t";"char32_t";"wchar_t";
           "int8_t";"int16_t";"int32_t";"int64_t";"uint8_t";"uint16_t";"uint32_t";"uint64_t";"size_t";"NULL"]
  | LPy => ["False";"None";"True";"and";"as";"assert";"async";"await";"break";"class";"continue";"def";"del";"elif";
            "else";"except";"finally";"for";"from";"global";"if";"import";"in";"is";"lambda";"nonlocal";"not";"or";
            "pass";"raise";"return";"try";"while";"with";"yield";"_";
            (* names the generated module / class body itself uses *)
            "field";"json";"bp";"dataclass";"ClassVar";"Dict";"List";"Union";"IntEnum";"unique";"int";"bool";
            "str";"bytearray";"property";"isinstance";"getattr";"range";"len";"BYTES_LENGTH";"encode";"decode";
            "bp_processor";"bp_set_byte";"bp_get_byte";"bp_get_accessor";"bp_process_int";"dict_factory";
            "to_dict";"to_json"]
  | LGo => ["break";"default";"func";"interface";"select";"case";"defer";"go";"map";"struct";"chan";"else";"goto";
            "package";"switch";"const";"fallthrough";"if";"range";"type";"continue";"for";"import";"return";"var";
            "bool";"byte";"error";"int";"int8";"int16";"int32";"int64";"uint";"uint8";"uint16";"uint32";"uint64";
            "uintptr";"string";"rune";"true";"false";"nil";"iota";"len";"cap";"make";"new";"append";"copy";"panic";
            "bp";"json";"strconv";"formatInt";"jsonMarshal";"Size";"String";"Encode";"Decode";"BpProcessor";
            "BpGetAccessor";"BpSetByte";"BpGetByte";"BpProcessInt"]
  end.
Definition is_reserved (L : lang) (x : string) : bool := existsb (String.eqb x) (reserved L).

Definition field_names_ok (L : lang) (fd : fdef) : bool :=
  match fd_def fd with
  | DMsg _ _ _ fs =>
      let ns := map (fun fl => conv L KMessageField (fl_name fl)) fs in
      nodup_str ns && forallb (fun x => negb (is_reserved L x)) ns
  | _ => true
  end.

(* size-constant stems (C macro BYTES_LENGTH_x, Go const) and Python value-map names are
   derived through a further case conversion that must stay injective *)
Definition derived_stems (L : lang) (s : schema) (i : nat) : list string :=
  match L with
  | LPy => map upper_case (enum_names L s i)
  | _ => map (fun m => upper_case (snake_case m)) (msg_names L s i)
  end.

(* names from which function names are derived: aliases and messages share the C function name
   space although typedef names and struct tags do not *)
Definition fn_stems (L : lang) (s : schema) (i : nat) : list string :=
  flat_map (fun fd => match fd_def fd with
                      | DAlias n _ => [dname L KAlias (own_px s i L) (fd_path fd) n]
                      | DMsg n _ _ _ => [dname L KMessage (own_px s i L) (fd_path fd) n]
                      | _ => [] end) (flat_file (getf s i)).

Definition pre (L : lang) (s : schema) (i : nat) : bool :=
  nodup_keys (file_base_keys L s i) &&
  nodup_str (derived_stems L s i) &&
  nodup_str (fn_stems L s i) &&
  forallb (fun k => negb (is_reserved L (snd k))) (file_base_keys L s i) &&
  forallb (field_names_ok L) (flat_file (getf s i)).

(* ---- guards = complements of the refuted regions ---- *)

Fixpoint last_char (s : string) : option ascii :=
  match s with
  | EmptyString => None
  | String c EmptyString => Some c
  | String _ r => last_char r
  end.
Definition digit_tail (s : string) : bool :=
  match last_char s with Some c => is_digit c | None => false end.

Fixpoint starts_with (p s : string) : bool :=
  match p, s with
  | EmptyString, _ => true
  | String a p', String b s' => Ascii.eqb a b && starts_with p' s'
  | _, _ => false
  end.
Definition starts_any (ps : list string) (x : string) : bool := existsb (fun p => starts_with p x) ps.

(* [helper-collision]: C helper names concatenate message name and field number *)
Definition g_helper (s : schema) (i : nat) : bool :=
  forallb (fun x => negb (digit_tail x)) (msg_names LC s i ++ array_alias_names LC s i).

(* [derived-name-collision]: generated names are a fixed prefix + a user name *)
Definition c_ord_prefixes : list string := ["Encode"; "Decode"; "Json"; "Bp"].
Definition g_derived (L : lang) (s : schema) (i : nat) : bool :=
  match L with
  | LC =>
      forallb (fun x => negb (starts_any c_ord_prefixes x)) (alias_names LC s i ++ enum_names LC s i) &&
      forallb (fun x => negb (starts_with "Array" x)) (msg_names LC s i ++ alias_names LC s i) &&
      forallb (fun k => match fst k with
                        | NsMacro => negb (starts_any ["BYTES_LENGTH_"; "__BITPROTO__"; "BITPROTO_"] (snd k))
                        | _ => true end) (file_base_keys LC s i)
  | LPy => forallb (fun k => negb (starts_any ["bp_"; "_"] (snd k))) (file_base_keys LPy s i)
  | LGo => forallb (fun k => negb (starts_any ["BYTES_LENGTH_"] (snd k))) (file_base_keys LGo s i)
  end.

Definition file_refs (s : schema) (i : nat) : list ref :=
  flat_map (fun fd => def_refs (fd_def fd)) (flat_file (getf s i)).

(* [py-nested-import]: a definition of another file is qualified only when it is a top-level
   definition of a DIRECTLY imported file *)
Definition direct_ref (r : ref) : bool :=
  match r_via r with
  | [] => true
  | [_] => match r_path r with [] => true | _ => false end
  | _ => false
  end.
Definition single_hop (r : ref) : bool := length (r_via r) <=? 1.
Definition g_qualify (L : lang) (s : schema) (i : nat) : bool :=
  match L with
  | LC => forallb single_hop (file_refs s i)
  | _ => forallb direct_ref (file_refs s i)
  end.

(* [import-filename]: include / import lines use the proto name, files the source base name *)
Definition g_import (L : lang) (s : schema) (i : nat) : bool :=
  forallb (fun mj => let g := getf s (snd mj) in
                     match L with
                     | LC => String.eqb (f_proto g) (f_base g)
                     | LPy => String.eqb (py_module_of s (snd mj)) (f_base g ++ "_bp")%string
                     | LGo => true
                     end) (f_imports (getf s i)).

(* [py-attr-collision]: inside the dataclass of a message the renderer adds attributes whose
   names start with an underscore (_enum_field_proxy__<f>, _get_<f>, _set_<f>, __post_init__) *)
Definition g_py_attrs (s : schema) (i : nat) : bool :=
  forallb (fun fd => match fd_def fd with
                     | DMsg _ _ _ fs => forallb (fun fl => negb (starts_with "_" (conv LPy KMessageField (fl_name fl)))) fs
                     | _ => true end) (flat_file (getf s i)).

(* [go-unused-import] *)
Definition g_go_used (s : schema) (i : nat) : bool :=
  forallb (fun mj => existsb (fun r => match r_via r with [m] => String.eqb m (fst mj) | _ => false end)
                             (file_refs s i)) (f_imports (getf s i)).

(* [empty-struct] *)
Definition g_struct_nonempty (s : schema) (i : nat) : bool :=
  forallb (fun fd => match fd_def fd with DMsg _ _ _ [] => false | _ => true end) (flat_file (getf s i)).

(* gcc needs a power of two in aligned(n).  Since the fix of [align-nonpow2] this follows from
   [wf] (EmitDbu.align_of_wf): it is no longer a guard of any theorem *)
Definition g_align (s : schema) (i : nat) : bool := align_ok (o_calign (f_opts (getf s i))).
