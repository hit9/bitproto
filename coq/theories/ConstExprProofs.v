(* ConstExprProofs.v — the token evaluator computes ordinary arithmetic on what [pretty] prints. *)
From Coq Require Import ZArith List Bool Lia.
From BPGen Require Import GenC13.
From BP Require Import ConstLit ConstLitProofs ConstExpr.
Import ListNotations.
Open Scope list_scope.
Open Scope Z_scope.

(* what the proofs use of the translated tables (each fails when the source changes it) *)

Lemma prec_is_standard : forall o, prec o = sprec o /\ is_right o = false.
Proof. intros []; split; vm_compute; reflexivity. Qed.

Lemma literal_bases : int_literal_base = 10 /\ hex_literal_base = 16.
Proof. split; reflexivity. Qed.

Lemma grammar_as_modelled :
  grammar_eqb grammar expected_grammar = true /\ passthrough_eqb passthrough expected_passthrough = true.
Proof. split; vm_compute; reflexivity. Qed.

Lemma apply_op_spec : forall o a b, apply_op o a b = crashify (spec_op o a b).
Proof.
  intros [] a b; unfold apply_op, spec_op; cbn [existsb crashify]; try reflexivity.
  unfold act_DIVIDE_divisors, act_DIVIDE. cbn [existsb]. rewrite orb_false_r, Z.eqb_sym.
  destruct (b =? 0); reflexivity.
Qed.

Definition le_res {A} (a b : res A) : Prop := a = Err EFuel \/ a = b.

Lemma le_res_refl : forall A (a : res A), le_res a a.
Proof. intros; right; reflexivity. Qed.

Lemma le_res_trans : forall A (a b c : res A), le_res a b -> le_res b c -> le_res a c.
Proof. intros A a b c [->| ->] H; [left; reflexivity|exact H]. Qed.

Lemma bind_mono : forall A B (a a' : res A) (k k' : A -> res B),
  le_res a a' -> (forall x, le_res (k x) (k' x)) -> le_res (bind a k) (bind a' k').
Proof.
  intros A B a a' k k' [->| ->] Hk; [left; reflexivity|].
  destruct a' as [x|e]; cbn [bind]; [apply Hk|apply le_res_refl].
Qed.

Lemma bind_assoc : forall A B C (a : res A) (k : A -> res B) (h : B -> res C),
  bind (bind a k) h = bind a (fun x => bind (k x) h).
Proof. intros A B C [x|e] k h; reflexivity. Qed.

Lemma bind_ext : forall A B (a : res A) (k k' : A -> res B),
  (forall x, k x = k' x) -> bind a k = bind a k'.
Proof. intros A B [x|e] k k' H; cbn [bind]; [apply H|reflexivity]. Qed.

Section Env.
Variable E : env.

Lemma parse_expr_S : forall f minp ts,
  parse_expr E (S f) minp ts =
    match ts with
    | TInt s :: r => bind (lit_value int_literal_base s) (fun v => parse_loop E f minp v r)
    | THex s :: r => bind (lit_value hex_literal_base s) (fun v => parse_loop E f minp v r)
    | TIdent x :: r => bind (ref_value E x) (fun v => parse_loop E f minp v r)
    | TLParen :: r =>
        bind (parse_expr E f 0 r) (fun vr =>
          match snd vr with
          | TRParen :: r' => parse_loop E f minp (fst vr) r'
          | _ => Err EGrammar
          end)
    | _ => Err EGrammar
    end.
Proof. reflexivity. Qed.

Lemma parse_loop_S : forall f minp lhs ts,
  parse_loop E (S f) minp lhs ts =
    match ts with
    | TOp o :: r =>
        if (prec o <? minp)%nat then Ok (lhs, ts)
        else bind (parse_expr E f (if is_right o then prec o else S (prec o)) r) (fun vr =>
               bind (apply_op o lhs (fst vr)) (fun v => parse_loop E f minp v (snd vr)))
    | _ => Ok (lhs, ts)
    end.
Proof. reflexivity. Qed.

Lemma mono_step : forall f,
  (forall minp ts, le_res (parse_expr E f minp ts) (parse_expr E (S f) minp ts)) /\
  (forall minp lhs ts, le_res (parse_loop E f minp lhs ts) (parse_loop E (S f) minp lhs ts)).
Proof.
  induction f as [|f [IHe IHl]].
  - split; intros; left; reflexivity.
  - split.
    + intros minp ts. rewrite (parse_expr_S f), (parse_expr_S (S f)).
      destruct ts as [|[s|s|x|o| |] r]; try apply le_res_refl.
      (* a decimal, a hexadecimal, a reference: the value, then the loop *)
      1-3: apply bind_mono; [apply le_res_refl|intro; apply IHl].
      apply bind_mono; [apply IHe|]. intros vr.
      destruct (snd vr) as [|[s|s|x|o| |] r']; try apply le_res_refl. apply IHl.
    + intros minp lhs ts. rewrite (parse_loop_S f), (parse_loop_S (S f)).
      destruct ts as [|[s|s|x|o| |] r]; try apply le_res_refl.
      destruct (prec o <? minp)%nat; [apply le_res_refl|].
      apply bind_mono; [apply IHe|]. intro vr.
      apply bind_mono; [apply le_res_refl|]. intro v. apply IHl.
Qed.

Lemma loop_mono : forall f f' minp lhs ts, (f <= f')%nat ->
  le_res (parse_loop E f minp lhs ts) (parse_loop E f' minp lhs ts).
Proof.
  intros f f' minp lhs ts H. induction H as [|f' _ IH]; [apply le_res_refl|].
  eapply le_res_trans; [exact IH|]. apply mono_step.
Qed.

Fixpoint mden (e : expr) : res Z :=
  match e with
  | EDec n => lit_value int_literal_base (nat_digits 10 (Z.of_N n))
  | EHex n => lit_value hex_literal_base (nat_digits 16 (Z.of_N n))
  | ERef x => ref_value E x
  | EBin o l r => bind (mden l) (fun a => bind (mden r) (fun b => apply_op o a b))
  end.

Fixpoint esize (e : expr) : nat :=
  match e with
  | EBin _ l r => (esize l + esize r + 2)%nat
  | _ => 1%nat
  end.

Definition stops (k : nat) (rest : list token) : bool :=
  match rest with TOp o :: _ => (prec o <? k)%nat | _ => true end.

Lemma stops_weaken : forall k k' rest, (k <= k')%nat -> stops k rest = true -> stops k' rest = true.
Proof.
  intros k k' [|[s|s|x|o| |] r] Hk H; try reflexivity. cbn [stops] in *.
  apply Nat.ltb_lt in H. apply Nat.ltb_lt. lia.
Qed.

Lemma loop_stops : forall n minp v rest, stops minp rest = true ->
  parse_loop E (S n) minp v rest = Ok (v, rest).
Proof.
  intros n minp v [|[s|s|x|o| |] r] H; rewrite parse_loop_S; try reflexivity.
  cbn [stops] in H. rewrite H. reflexivity.
Qed.

Lemma parse_pp : forall e ctx minp rest n f,
  (minp <= ctx)%nat -> stops (S ctx) rest = true -> (1 <= n)%nat -> (esize e + n <= f)%nat ->
  le_res (bind (mden e) (fun v => parse_loop E n minp v rest))
         (parse_expr E f minp (pp ctx e ++ rest)).
Proof.
  induction e as [k|k|x|o l IHl r IHr]; intros ctx minp rest n f Hm Hs Hn Hf.
  (* a decimal, a hexadecimal, a reference: one token, then the loop with less fuel *)
  1-3: destruct f as [|f]; cbn [esize] in Hf; [lia|]; cbn [pp app mden]; rewrite parse_expr_S;
       (apply bind_mono; [apply le_res_refl|]); intro v; apply loop_mono; lia.
  - destruct (prec_is_standard o) as [Hp Hr].
    set (p := sprec o) in *.
    assert (Body : forall minp' rest' n' f',
      (minp' <= p)%nat -> stops (S p) rest' = true -> (1 <= n')%nat ->
      (esize l + esize r + 1 + n' <= f')%nat ->
      le_res (bind (mden (EBin o l r)) (fun v => parse_loop E n' minp' v rest'))
             (parse_expr E f' minp' ((pp p l ++ TOp o :: pp (S p) r) ++ rest'))).
    { intros minp' rest' n' f' Hm' Hs' Hn' Hf'.
      rewrite <- app_assoc. cbn [app].
      eapply le_res_trans;
        [|apply (IHl p minp' (TOp o :: pp (S p) r ++ rest') (S (esize r + n')) f'); try lia].
      2:{ cbn [stops]. rewrite Hp. apply Nat.ltb_lt. lia. }
      cbn [mden]. rewrite bind_assoc. apply bind_mono; [apply le_res_refl|]. intro a.
      rewrite parse_loop_S.
      replace (prec o <? minp')%nat with false by (symmetry; apply Nat.ltb_ge; lia).
      rewrite Hr, Hp. fold p.
      rewrite bind_assoc.
      assert (IR := IHr (S p) (S p) rest' n' (esize r + n')%nat (le_n _)
                        (stops_weaken _ _ _ (le_S _ _ (le_n _)) Hs') Hn' (le_n _)).
      destruct n' as [|n0]; [lia|].
      rewrite (bind_ext _ _ (mden r) _ (fun b => Ok (b, rest'))) in IR
        by (intro b; apply loop_stops; exact Hs').
      replace (bind (mden r) (fun b => bind (apply_op o a b) (fun v => parse_loop E (S n0) minp' v rest')))
        with (bind (bind (mden r) (fun b => Ok (b, rest')))
                   (fun vr => bind (apply_op o a (fst vr)) (fun v => parse_loop E (S n0) minp' v (snd vr))))
        by (rewrite bind_assoc; reflexivity).
      apply bind_mono; [exact IR|]. intro vr.
      apply bind_mono; [apply le_res_refl|]. intro v. apply loop_mono. lia. }
    cbn [pp]. fold p. cbn [esize] in Hf.
    destruct (Nat.ltb_spec p ctx) as [Hlt|Hge].
    + (* parenthesised *)
      destruct f as [|f]; [lia|]. cbn [app]. rewrite parse_expr_S.
      rewrite <- app_assoc. cbn [app].
      assert (B := Body 0%nat (TRParen :: rest) n f (Nat.le_0_l _) eq_refl Hn ltac:(lia)).
      destruct n as [|n0]; [lia|].
      rewrite (bind_ext _ _ (mden (EBin o l r)) _ (fun v => Ok (v, TRParen :: rest))) in B
        by (intro v; apply loop_stops; reflexivity).
      replace (bind (mden (EBin o l r)) (fun v => parse_loop E (S n0) minp v rest))
        with (bind (bind (mden (EBin o l r)) (fun v => Ok (v, TRParen :: rest)))
                   (fun vr => match snd vr with
                              | TRParen :: r' => parse_loop E (S n0) minp (fst vr) r'
                              | _ => Err EGrammar end))
        by (rewrite bind_assoc; reflexivity).
      apply bind_mono; [exact B|]. intro vr.
      destruct (snd vr) as [|[s|s|x|o'| |] r']; try apply le_res_refl. apply loop_mono. lia.
    + apply Body; try lia. eapply stops_weaken; [|exact Hs]. lia.
Qed.

Lemma esize_tokens : forall e ctx, (esize e + 1 <= 2 * List.length (pp ctx e))%nat.
Proof.
  induction e as [k|k|x|o l IHl r IHr]; intro ctx; cbn [pp esize List.length]; try lia.
  specialize (IHl (sprec o)). specialize (IHr (S (sprec o))).
  destruct (sprec o <? ctx)%nat; cbn [List.length]; repeat rewrite app_length; cbn [List.length]; lia.
Qed.

Lemma mden_not_fuel : forall e, mden e <> Err EFuel.
Proof.
  induction e as [k|k|x|o l IHl r IHr]; cbn [mden].
  - unfold lit_value. destruct (int_of_text _ _); discriminate.
  - unfold lit_value. destruct (int_of_text _ _); discriminate.
  - unfold ref_value. destruct (lookup x E) as [[]|]; discriminate.
  - destruct (mden l) as [a|ea]; cbn [bind]; [|intro H; apply IHl; exact H].
    destruct (mden r) as [b|eb]; cbn [bind]; [|intro H; apply IHr; exact H].
    unfold apply_op.
    destruct o; cbv zeta; cbn [existsb]; try discriminate.
    destruct (existsb (Z.eqb 0) _); [|discriminate].
    unfold div_zero_err. destruct divide_guard; discriminate.
Qed.

Lemma eval_pretty_mden : forall e, eval_tokens E (pretty e) = mden e.
Proof.
  intro e. unfold eval_tokens, pretty.
  pose proof (parse_pp e 0%nat 0%nat [] 1%nat (eval_fuel (pp 0 e)) (le_n _) eq_refl (le_n _)) as H.
  rewrite app_nil_r in H.
  specialize (H ltac:(unfold eval_fuel; pose proof (esize_tokens e 0); lia)).
  rewrite (bind_ext _ _ (mden e) _ (fun v => Ok (v, @nil token))) in H
    by (intro v; apply loop_stops; reflexivity).
  pose proof (mden_not_fuel e) as NF.
  destruct H as [H|H].
  - destruct (mden e) as [v|x]; cbn [bind] in H; [discriminate|]. congruence.
  - rewrite <- H. destruct (mden e); reflexivity.
Qed.

Lemma crashify_bind : forall A B (x : res A) (k : A -> res B),
  crashify (bind x k) = bind (crashify x) (fun a => crashify (k a)).
Proof. intros A B [a|[]] k; reflexivity. Qed.

Lemma mden_denote : forall e, mden e = crashify (denote e E).
Proof.
  induction e as [k|k|x|o l IHl r IHr]; cbn [mden denote].
  - destruct literal_bases as [-> _]. unfold lit_value.
    rewrite int_of_text_digits by lia. reflexivity.
  - destruct literal_bases as [_ ->]. unfold lit_value.
    rewrite int_of_text_digits by lia. reflexivity.
  - unfold ref_value. destruct (lookup x E) as [[]|]; reflexivity.
  - rewrite crashify_bind, IHl. apply bind_ext. intro a.
    rewrite crashify_bind, IHr. apply bind_ext. intro b. apply apply_op_spec.
Qed.

Theorem eval_pretty : forall e, eval_tokens E (pretty e) = crashify (denote e E).
Proof. intro e. rewrite eval_pretty_mden. apply mden_denote. Qed.

Theorem parse_eval : forall e, denote e E <> Err EDivisionByZero -> eval_tokens E (pretty e) = denote e E.
Proof.
  intros e H. rewrite eval_pretty. destruct (denote e E) as [v|[]]; try reflexivity; congruence.
Qed.

Theorem parse_eval_when_guarded : divide_guard = true -> forall e, eval_tokens E (pretty e) = denote e E.
Proof.
  intros G e. rewrite eval_pretty. destruct (denote e E) as [v|[]]; try reflexivity;
  cbn [crashify]; unfold div_zero_err; rewrite G; reflexivity.
Qed.

End Env.

Lemma mul_binds_tighter : forall E a b c,
  eval_tokens E [TInt (nat_digits 10 (Z.of_N a)); TPlus; TInt (nat_digits 10 (Z.of_N b)); TTimes;
                 TInt (nat_digits 10 (Z.of_N c))] = Ok (Z.of_N a + Z.of_N b * Z.of_N c).
Proof.
  intros E a b c.
  exact (eval_pretty E (EBin OPlus (EDec a) (EBin OTimes (EDec b) (EDec c)))).
Qed.

Lemma minus_left_assoc : forall E a b c,
  eval_tokens E [TInt (nat_digits 10 (Z.of_N a)); TMinus; TInt (nat_digits 10 (Z.of_N b)); TMinus;
                 TInt (nat_digits 10 (Z.of_N c))] = Ok (Z.of_N a - Z.of_N b - Z.of_N c).
Proof.
  intros E a b c.
  exact (eval_pretty E (EBin OMinus (EBin OMinus (EDec a) (EDec b)) (EDec c))).
Qed.

(* the DIVIDE action diagnoses a zero divisor (translated flag) *)
Lemma divide_guard_on : divide_guard = true.
Proof. reflexivity. Qed.

Theorem parse_eval_all : forall E e, eval_tokens E (pretty e) = denote e E.
Proof. intros E e. apply parse_eval_when_guarded. exact divide_guard_on. Qed.

Lemma div_zero_diagnosed :
  let e := EBin ODivide (EDec 1) (EDec 0) in
  denote e [] = Err EDivisionByZero /\ eval_tokens [] (pretty e) = Err EDivisionByZero.
Proof. split; vm_compute; reflexivity. Qed.

Lemma lookup_app_some : forall x a b v, lookup x a = Some v -> lookup x (a ++ b) = Some v.
Proof.
  induction a as [|[y w] a IH]; intros b v H; cbn [lookup app] in *; [discriminate|].
  destruct (String.eqb x y); [exact H|apply IH; exact H].
Qed.

Lemma run_stmt_keeps : forall done st s st' x v,
  lookup x (own st) = Some v -> run_stmt done st s = Ok st' -> lookup x (own st') = Some v.
Proof.
  intros done st s st' x v Hx H. destruct s as [y r|u|u|alias k]; cbn [run_stmt] in H.
  - destruct (lookup y (own st)) eqn:Ey; [discriminate|].
    destruct (const_value (visible st) r) as [w|]; cbn [bind] in H; [|discriminate].
    injection H as <-. cbn [own lookup].
    destruct (String.eqb_spec x y) as [->|_]; [congruence|exact Hx].
  - destruct (cap_value (visible st) u); cbn [bind] in H; [|discriminate]. injection H as <-. exact Hx.
  - destruct (opt_value (visible st) u); cbn [bind] in H; [|discriminate]. injection H as <-. exact Hx.
  - destruct (nth_error done k); [|discriminate]. injection H as <-. exact Hx.
Qed.

Lemma run_stmts_keeps : forall done ss st st' x v,
  lookup x (own st) = Some v -> run_stmts done st ss = Ok st' -> lookup x (own st') = Some v.
Proof.
  induction ss as [|s ss IH]; intros st st' x v Hx H; cbn [run_stmts] in H.
  - injection H as <-. exact Hx.
  - destruct (run_stmt done st s) as [st1|] eqn:E1; cbn [bind] in H; [|discriminate].
    eapply IH; [|exact H]. eapply run_stmt_keeps; eassumption.
Qed.

Lemma const_value_pretty : forall E e v, denote e E = Ok v ->
  const_value E (RCalc (pretty e)) = Ok (VInt v).
Proof.
  intros E e v H.
  assert (G : bind (eval_tokens E (pretty e)) (fun z => Ok (VInt z)) = Ok (VInt v)).
  { rewrite parse_eval_all. rewrite H. reflexivity. }
  destruct e as [k|k|x|o l r]; try exact G.
  - cbn [pretty pp const_value]. cbn [denote] in H. unfold ref_value in H.
    destruct (lookup x E) as [[z|b|s]|]; try discriminate. injection H as ->. reflexivity.
  - unfold pretty in *. cbn [pp] in *. set (p := sprec o) in *.
    destruct (p <? 0)%nat; [exact G|].
    destruct (pp p l) as [|t [|t2 ts]]; cbn [app] in *; try exact G; destruct t; exact G.
Qed.

Theorem used_for_caps_and_options : forall done st x e v ss st'',
  lookup x (own st) = None -> denote e (visible st) = Ok v ->
  exists st', run_stmt done st (SConst x (RCalc (pretty e))) = Ok st' /\
    (run_stmts done st' ss = Ok st'' ->
       cap_value (visible st'') (URef x) = Ok (VInt v) /\
       opt_value (visible st'') (URef x) = Ok (VInt v)).
Proof.
  intros done st x e v ss st'' Hx Hd.
  eexists. split.
  - cbn [run_stmt]. rewrite Hx, (const_value_pretty _ _ _ Hd). reflexivity.
  - intro Hr.
    assert (L : lookup x (own st'') = Some (VInt v)).
    { eapply run_stmts_keeps; [|exact Hr]. cbn [own lookup]. rewrite String.eqb_refl. reflexivity. }
    apply (lookup_app_some _ _ (imported st'')) in L. fold (visible st'') in L.
    cbn [cap_value opt_value]. unfold ref_value. rewrite L. split; reflexivity.
Qed.

Lemma bool_spellings_standard : forall sp,
  lex_bool sp = match spec_bool sp with Some b => Ok (VBool b) | None => Err EGrammar end.
Proof.
  intro sp. unfold lex_bool, spec_bool, bool_spellings, bool_true_spellings,
    kw_true, kw_false, kw_yes, kw_no. cbn [text_mem].
  destruct (text_eqb sp [116; 114; 117; 101]), (text_eqb sp [102; 97; 108; 115; 101]),
           (text_eqb sp [121; 101; 115]), (text_eqb sp [110; 111]); reflexivity.
Qed.

Lemma lex_string_standard : forall raw,
  lex_string raw = match spec_unescape raw [] with
                   | LexOk v => Ok (VStr v)
                   | LexInvalidEscape => Err EInvalidEscape
                   | LexIndexError => Err ECrashIndex
                   end.
Proof. intro raw. unfold lex_string. rewrite escapes_standard. reflexivity. Qed.
