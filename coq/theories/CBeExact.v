(* CBeExact.v — why the BP_BIG_ENDIAN build can be OBSERVED on a little-endian host.

   In the model of the BE build the host byte order E enters only through native multi-byte
   accesses: the word fast paths (compiled out), the uint16_t object of the extensible prefix,
   and the sign fix-up on a multi-byte object.  For descriptors without extensible nodes whose
   signed fields are 8/16/32/64 bits wide (fix-up skipped) or stored in one byte, NONE of these
   is executed: the run does not depend on E at all.  So running the -DBP_BIG_ENDIAN build on
   x86 with big-endian storage IS the (B,E) = (BE,BE) behaviour for this class (class
   cboundary.be_exact of the harness), and C06's check compares it with the specification. *)
From Coq Require Import ZArith List Bool Lia.
From BP Require Import Schema CMem CRt.
From BPGen Require Import GenC.
Import ListNotations.
Open Scope Z_scope.

Section desc_ind'.
  Variable P : desc -> Prop.
  Hypothesis HBase : forall f n s, P (DBase f n s).
  Hypothesis HAlias : forall n s tf t, P t -> P (DAlias n s tf t).
  Hypothesis HArr : forall n s x c e, P e -> P (DArray n s x c e).
  Hypothesis HMsg : forall n x nf dn fds, Forall (fun kf => P (snd kf)) fds -> P (DMsg n x nf dn fds).

  Fixpoint desc_ind' (d : desc) : P d :=
    match d with
    | DBase f n s => HBase f n s
    | DAlias n s tf t => HAlias n s tf t (desc_ind' t)
    | DArray n s x c e => HArr n s x c e (desc_ind' e)
    | DMsg n x nf dn fds =>
        HMsg n x nf dn fds
          ((fix go (l : list (Z * desc)) : Forall (fun kf => P (snd kf)) l :=
              match l with
              | [] => Forall_nil _
              | kf :: r => Forall_cons kf (desc_ind' (snd kf)) (go r)
              end) fds)
    end.
End desc_ind'.

(* the sign fix-up touches at most one byte, or is skipped *)
Definition int_exact (size nbits : Z) : bool :=
  sg_skip nbits || match lookup (sg_n size) sg_cases with Some w => w =? 1 | None => true end.

Definition dexact_fields (dexact : desc -> bool) :=
  fix go (l : list (Z * desc)) : bool :=
    match l with
    | [] => true
    | kf :: r => dexact (snd kf) && go r
    end.

Fixpoint dexact (d : desc) : bool :=
  match d with
  | DBase f n s => if f =? BP_TYPE_INT then int_exact s n else true
  | DAlias _ _ _ to => dexact to
  | DArray _ _ ext _ e => negb ext && dexact e
  | DMsg _ ext _ _ fds =>
      negb ext && (fix go (l : list (Z * desc)) : bool :=
                     match l with
                     | [] => true
                     | kf :: r => dexact (snd kf) && go r
                     end) fds
  end.

(* runs that agree on every continuation agree: all that the lemmas below need of the outcome monad *)
Lemma cbind_ext {A B} (r : cres A) (f g : A -> cres B) : (forall a, f a = g a) -> cbind r f = cbind r g.
Proof. intros H. destruct r; cbn [cbind]; auto. Qed.

Section Indep.
  Variables (E1 E2 : endian).

  Lemma copy_step_be n dm dp sm sp di si :
    copy_step BE E1 n dm dp sm sp di si = copy_step BE E2 n dm dp sm sp di si.
  Proof. unfold copy_step. change (fast_paths BE) with false. cbn [andb]. reflexivity. Qed.

  Lemma copy_bits_be : forall fuel n dm dp sm sp di si,
    copy_bits BE E1 fuel n dm dp sm sp di si = copy_bits BE E2 fuel n dm dp sm sp di si.
  Proof.
    induction fuel as [|f IH]; intros; cbn [copy_bits]; [reflexivity|].
    destruct (n =? 0); [reflexivity|]. rewrite copy_step_be. apply cbind_ext. intros r. apply IH.
  Qed.

  Lemma base_type_be enc nbits x data : base_type BE E1 enc nbits x data = base_type BE E2 enc nbits x data.
  Proof. unfold base_type. now rewrite !copy_bits_be. Qed.

  Lemma ld_one m p : ld E1 1 m p = ld E2 1 m p.
  Proof.
    assert (H : forall E, ld E 1 m p = (b <-- rd m p ;; COk b)).
    { intros []; cbn [ld ld_le ld_be]; destruct (rd m p); cbn [cbind]; try reflexivity; f_equal; lia. }
    now rewrite !H.
  Qed.

  Lemma st_one m p v : st E1 1 m p v = st E2 1 m p v.
  Proof.
    assert (H : forall E, st E 1 m p v = wr m p v).
    { intros []; cbn [st st_le st_be].
      - destruct (wr m p v); reflexivity.
      - change (256 ^ Z.of_nat 0) with 1. rewrite Z.div_1_r. destruct (wr m p v); reflexivity. }
    now rewrite !H.
  Qed.

  Lemma sign_after_be enc size nbits data :
    int_exact size nbits = true -> sign_after E1 enc size nbits data = sign_after E2 enc size nbits data.
  Proof.
    unfold int_exact, sign_after. intros H. destruct enc; [reflexivity|].
    destruct (sg_skip nbits); [reflexivity|]. cbn [orb] in H.
    destruct (lookup (sg_n size) sg_cases) as [w|]; [|reflexivity].
    apply Z.eqb_eq in H. subst w. change (Z.to_nat 1) with 1%nat.
    rewrite ld_one. apply cbind_ext. intros x. destruct (negb _); [apply st_one|reflexivity].
  Qed.

  Lemma endecode_int_be enc size nbits x data :
    int_exact size nbits = true ->
    endecode_int BE E1 enc size nbits x data = endecode_int BE E2 enc size nbits x data.
  Proof.
    intros H. unfold endecode_int. rewrite base_type_be. apply cbind_ext. intros r.
    now rewrite (sign_after_be _ _ _ _ H).
  Qed.

  Lemma on_bytes_ext o (f g : list Z -> cres (cctx * list Z)) :
    (forall bs, f bs = g bs) -> on_bytes o f = on_bytes o g.
  Proof. intros H. destruct o; cbn [on_bytes]; try reflexivity. now rewrite H. Qed.

  Lemma int_flag_exact d : d_flag d = BP_TYPE_INT -> dexact d = true -> int_exact (d_size d) (d_nbits d) = true.
  Proof.
    destruct d; cbn [d_flag d_size d_nbits dexact]; intros Hf H; try discriminate Hf.
    rewrite Hf in H. rewrite Z.eqb_refl in H. exact H.
  Qed.

  Section Walk.
    Variables (cp1 cp2 : desc -> cctx -> obj -> cres (cctx * obj)) (enc : bool).

    (* the switch on the type flag shared by BpEndecodeMessageField, the element loop of
       BpEndecodeArray and BpEndecodeAlias: base flags L, then BP_TYPE_INT, then processors P *)
    Lemma dispatch_be (L : list Z) (P : Z -> bool) d x o :
      dexact d = true -> (forall x o, cp1 d x o = cp2 d x o) ->
      (if flag_in (d_flag d) L then on_bytes o (base_type BE E1 enc (d_nbits d) x)
       else if d_flag d =? BP_TYPE_INT then on_bytes o (endecode_int BE E1 enc (d_size d) (d_nbits d) x)
       else if P (d_flag d) then cp1 d x o else COk (x, o))
      = (if flag_in (d_flag d) L then on_bytes o (base_type BE E2 enc (d_nbits d) x)
         else if d_flag d =? BP_TYPE_INT then on_bytes o (endecode_int BE E2 enc (d_size d) (d_nbits d) x)
         else if P (d_flag d) then cp2 d x o else COk (x, o)).
    Proof.
      intros Hd Hcp.
      destruct (flag_in (d_flag d) L); [apply on_bytes_ext; intros; apply base_type_be|].
      destruct (d_flag d =? BP_TYPE_INT) eqn:Ei.
      - apply Z.eqb_eq in Ei. apply on_bytes_ext. intros. apply endecode_int_be. now apply int_flag_exact.
      - destruct (P (d_flag d)); [apply Hcp|reflexivity].
    Qed.

    Lemma field_step_be fd x fo :
      dexact fd = true -> (forall x o, cp1 fd x o = cp2 fd x o) ->
      field_step BE E1 cp1 enc fd x fo = field_step BE E2 cp2 enc fd x fo.
    Proof. exact (dispatch_be base_flags_field (fun f => flag_in f proc_flags_field) fd x fo). Qed.

    Lemma elem_step_be elem x e :
      dexact elem = true -> (forall x o, cp1 elem x o = cp2 elem x o) ->
      elem_step BE E1 cp1 enc elem x e = elem_step BE E2 cp2 enc elem x e.
    Proof. exact (dispatch_be base_flags_field (fun f => flag_in f proc_flags_elem) elem x e). Qed.

    Lemma elems_loop_be elem :
      dexact elem = true -> (forall x o, cp1 elem x o = cp2 elem x o) ->
      forall cnt k x o, elems_loop BE E1 cp1 enc elem cnt k x o = elems_loop BE E2 cp2 enc elem cnt k x o.
    Proof.
      intros Hd Hcp. induction cnt as [|c IH]; intros k x o; cbn [elems_loop]; [reflexivity|].
      apply cbind_ext. intros e. rewrite (elem_step_be elem x e Hd Hcp).
      apply cbind_ext. intros r. apply cbind_ext. intros o'. apply IH.
    Qed.

    Lemma fields_loop_be : forall l cnt x o,
      Forall (fun kf => dexact (snd kf) = true /\ forall x o, cp1 (snd kf) x o = cp2 (snd kf) x o) l ->
      fields_loop BE E1 cp1 enc l cnt x o = fields_loop BE E2 cp2 enc l cnt x o.
    Proof.
      induction l as [|[fn fd] r IH]; intros cnt x o HF; destruct cnt; cbn [fields_loop]; try reflexivity.
      inversion_clear HF as [|? ? [Hd Hcp] Hr]. cbn [snd] in *.
      apply cbind_ext. intros fo. rewrite (field_step_be fd x fo Hd Hcp).
      apply cbind_ext. intros res. apply cbind_ext. intros o'. now apply IH.
    Qed.
  End Walk.

  Theorem call_processor_be enc d : dexact d = true ->
    forall x o, call_processor BE E1 enc d x o = call_processor BE E2 enc d x o.
  Proof.
    induction d as [f n s | n s tf t IH | n s ext c e IH | n ext nf dn fds IH] using desc_ind'; intros Hd x o.
    - reflexivity.
    - cbn [call_processor dexact] in *.
      exact (dispatch_be (call_processor BE E1 enc) (call_processor BE E2 enc) enc base_flags_alias
               (fun f => f =? BP_TYPE_ARRAY) t x o Hd (IH Hd)).
    - cbn [call_processor dexact] in *. apply andb_true_iff in Hd. destruct Hd as [Hx He].
      apply negb_true_iff in Hx. subst ext. unfold endecode_array. cbn [cbind fst snd andb].
      change (batch_pred BE (d_nbits e) (d_flag e) (d_to_flag e)) with false. cbv iota.
      rewrite (elems_loop_be (call_processor BE E1 enc) (call_processor BE E2 enc) enc e He (IH He)).
      reflexivity.
    - cbn [call_processor dexact] in *. apply andb_true_iff in Hd. destruct Hd as [Hx Hf].
      apply negb_true_iff in Hx. subst ext. unfold endecode_message. cbn [cbind fst snd andb].
      rewrite (fields_loop_be (call_processor BE E1 enc) (call_processor BE E2 enc) enc fds); [reflexivity|].
      clear - IH Hf. induction fds as [|kf r IHr]; [constructor|].
      inversion_clear IH as [|? ? Hk Hr]. apply andb_true_iff in Hf. destruct Hf as [H1 H2].
      constructor; [split; [exact H1|exact (Hk H1)]|now apply IHr].
  Qed.

  Corollary c_encode_be_host_indep t o :
    dexact (render (norm t)) = true -> c_encode_ty BE E1 t o = c_encode_ty BE E2 t o.
  Proof. intros H. unfold c_encode_ty, c_encode. now rewrite (call_processor_be true _ H). Qed.

  Corollary c_decode_be_host_indep t s :
    dexact (render (norm t)) = true -> c_decode_ty BE E1 t s = c_decode_ty BE E2 t s.
  Proof. intros H. unfold c_decode_ty, c_decode. now rewrite (call_processor_be false _ H). Qed.
End Indep.
