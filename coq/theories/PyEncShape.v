(* PyEncShape.v — the well-formedness equation of a message over its field list, and the
   leaf predicate with its consequence for PyRt.msg_depth_of; needs PyRt only.  No file imports
   it: the proofs use the declarations of the same names and bodies in PyEncProofs.v. *)
From Coq Require Import ZArith List Bool.
From BP Require Import Schema PyRt.
Import ListNotations.
Open Scope Z_scope.

Definition fields_wf :=
  fix go (l : list (Z * ty)) : bool :=
    match l with
    | [] => true
    | kf :: r => (1 <=? fst kf) && (fst kf <=? 255) && wf (snd kf) && go r
    end.

Lemma wf_msg x fs :
  wf (TMsg x fs) =
  keys_distinct (map fst fs) && (nbits (TMsg x fs) <=? 65535) && fields_wf fs.
Proof. reflexivity. Qed.

Definition is_leaf (t : ty) : bool :=
  match t with TBool | TByte | TUint _ | TInt _ | TEnum _ _ => true | _ => false end.

Lemma msg_depth_leaf t d : is_leaf t = true -> msg_depth_of t d = None.
Proof. destruct t; cbn; intros; try discriminate; reflexivity. Qed.
