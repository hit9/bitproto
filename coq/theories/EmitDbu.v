(* EmitDbu.v — lemmas behind C10_declared_before_use: every generated name a declaration uses
   is declared earlier in the same output or comes from an earlier include / import.
   Compositional: dbu_go over a concatenation / over a dispatcher (flat_map over the
   definitions in Scope.filter order); what a dispatcher writes for one definition is judged by
   [block_ok]; where a use that comes from a reference is declared is said by [uses_ref].  The
   obligation per target and kind of definition is met in EmitDbuMain.v and EmitDbuPy.v. *)
From Coq Require Import String Ascii List ZArith Bool Arith Lia Permutation.
From BP Require Import EmitBase Emit EmitSpec EmitProofs.
From BPGen Require Import GenC10.
Import ListNotations.
Open Scope string_scope.
Open Scope list_scope.
Open Scope nat_scope.

Lemma ns_eqb_eq a b : ns_eqb a b = true <-> a = b.
Proof.
  destruct a as [| | | |x], b as [| | | |y]; cbn; split; intros H; try reflexivity; try discriminate.
  - apply String.eqb_eq in H. subst. reflexivity.
  - inversion H. apply String.eqb_refl.
Qed.

Lemma key_eqb_eq (a b : key) : key_eqb a b = true <-> a = b.
Proof.
  destruct a as [n x], b as [m y]. unfold key_eqb. cbn [fst snd]. rewrite andb_true_iff, ns_eqb_eq, String.eqb_eq.
  split; [intros [-> ->]; reflexivity | intros H; inversion H; auto].
Qed.

Lemma mem_key_in k l : mem_key k l = true <-> In k l.
Proof.
  unfold mem_key. rewrite existsb_exists. split.
  - intros [x [Hx He]]. apply key_eqb_eq in He. subst. exact Hx.
  - intros H. exists k. split; [exact H | apply key_eqb_eq; reflexivity].
Qed.

Section Dbu.
Variables (s : schema) (t : target) (flt : list string).


Lemma all_keys_app a b : all_keys s t flt (a ++ b) = all_keys s t flt a ++ all_keys s t flt b.
Proof. unfold all_keys. apply flat_map_app. Qed.

Lemma all_keys_decls ds : all_keys s t flt (map IDecl ds) = map dkey ds.
Proof.
  unfold all_keys. induction ds as [|d r IH]; [reflexivity|].
  cbn [map flat_map app]. rewrite IH. reflexivity.
Qed.

Fixpoint imps_acc (pre : list item) (imps : list (string * nat)) : list (string * nat) :=
  match pre with
  | [] => imps
  | IImport m _ j :: r => match lang_of t with LC => imps_acc r imps | _ => imps_acc r ((m, j) :: imps) end
  | IDecl _ :: r => imps_acc r imps
  end.

Lemma imps_acc_app a b imps : imps_acc (a ++ b) imps = imps_acc b (imps_acc a imps).
Proof.
  revert imps. induction a as [|x r IH]; intros imps; [reflexivity|].
  destruct x as [d | m tg j]; cbn [app imps_acc]; [apply IH|]. destruct (lang_of t); apply IH.
Qed.

Lemma imps_acc_decls ds imps : imps_acc (map IDecl ds) imps = imps.
Proof. induction ds as [|d r IH]; [reflexivity|]. exact IH. Qed.

Lemma imps_acc_keeps pre imps x : In x imps -> In x (imps_acc pre imps).
Proof.
  revert imps. induction pre as [|y r IH]; intros imps H; [exact H|].
  destruct y as [d | m tg j]; cbn [imps_acc]; [apply IH; exact H|].
  destruct (lang_of t); apply IH; try exact H; right; exact H.
Qed.

Lemma all_keys_cons_decl d r : all_keys s t flt (IDecl d :: r) = dkey d :: all_keys s t flt r.
Proof. reflexivity. Qed.
Lemma all_keys_cons_import m tg j r :
  all_keys s t flt (IImport m tg j :: r) =
  match lang_of t with LC => exports (fuel_of s) s t flt j | _ => [] end ++ all_keys s t flt r.
Proof. reflexivity. Qed.

Lemma dbu_go_app all seen imps a b :
  dbu_go s t flt all seen imps (a ++ b) =
  dbu_go s t flt all seen imps a && dbu_go s t flt all (seen ++ all_keys s t flt a) (imps_acc a imps) b.
Proof.
  revert seen imps. induction a as [|x r IH]; intros seen imps.
  - cbn [app dbu_go imps_acc andb]. change (all_keys s t flt []) with (@nil key). rewrite app_nil_r. reflexivity.
  - destruct x as [d | m tg j].
    + cbn [app dbu_go imps_acc]. rewrite IH, all_keys_cons_decl. rewrite <- andb_assoc. f_equal. f_equal.
      rewrite <- app_assoc. reflexivity.
    + cbn [app dbu_go imps_acc]. rewrite all_keys_cons_import.
      destruct (lang_of t); rewrite IH; rewrite ?app_nil_l, <- ?app_assoc; reflexivity.
Qed.

Lemma dbu_go_flat_map (blkf : fdef -> list decl) all imps fl : forall seen,
  (forall fl1 fd fl2, fl = fl1 ++ fd :: fl2 ->
     dbu_go s t flt all (seen ++ map dkey (flat_map blkf fl1)) imps (map IDecl (blkf fd)) = true) ->
  dbu_go s t flt all seen imps (map IDecl (flat_map blkf fl)) = true.
Proof.
  induction fl as [|fd r IH]; intros seen H; [reflexivity|].
  cbn [flat_map]. rewrite map_app, dbu_go_app. apply andb_true_iff. split.
  - specialize (H [] fd r eq_refl). cbn [flat_map map] in H. rewrite app_nil_r in H. exact H.
  - rewrite imps_acc_decls, all_keys_decls. apply IH. intros fl1 fd' fl2 E.
    specialize (H (fd :: fl1) fd' fl2). rewrite E in H. specialize (H eq_refl).
    cbn [flat_map] in H. rewrite map_app, app_assoc in H. exact H.
Qed.

Lemma dbu_go_decls_cons all seen imps d r :
  dbu_go s t flt all seen imps (map IDecl (d :: r)) =
  forallb (use_ok s t flt seen all imps) (d_uses d) && dbu_go s t flt all (seen ++ [dkey d]) imps (map IDecl r).
Proof. reflexivity. Qed.

Lemma dbu_go_nil all seen imps : dbu_go s t flt all seen imps [] = true.
Proof. reflexivity. Qed.

Lemma use_ok_eager seen all imps n x :
  In (n, x) seen -> use_ok s t flt seen all imps (mkUse n "" x true) = true.
Proof. intros H. unfold use_ok. cbn [u_qual u_eager u_ns u_name String.eqb]. apply mem_key_in. exact H. Qed.

Lemma use_ok_deferred seen all imps n x :
  In (n, x) all -> use_ok s t flt seen all imps (mkUse n "" x false) = true.
Proof. intros H. unfold use_ok. cbn [u_qual u_eager u_ns u_name String.eqb]. apply mem_key_in. exact H. Qed.

Lemma use_ok_qual seen all imps n q x e j :
  q <> "" -> In (q, j) imps -> In (n, x) (exports (fuel_of s) s t flt j) ->
  use_ok s t flt seen all imps (mkUse n q x e) = true.
Proof.
  intros Hq Hi Hx. unfold use_ok. cbn [u_qual u_eager u_ns u_name].
  destruct (String.eqb q "") eqn:E; [apply String.eqb_eq in E; contradiction|].
  apply existsb_exists. exists (q, j). split; [exact Hi|]. cbn [fst snd].
  rewrite String.eqb_refl. apply mem_key_in. exact Hx.
Qed.

(* one block: what a dispatcher writes for one definition, standing after [seen].
   A use is AMBIENT when it is in order whatever has been declared since [seen]; every other use
   of a block names, eagerly and unqualified, a declaration that stands earlier in the block *)
Section Block.
Variables (all : list key) (imps : list (string * nat)) (seen : list key).

Definition amb (u : use) : Prop := forall S, incl seen S -> use_ok s t flt S all imps u = true.

Definition use_in (own : list key) (u : use) : Prop :=
  amb u \/ u_qual u = "" /\ u_eager u = true /\ In (u_ns u, u_name u) own.

Lemma amb_seen u : u_qual u = "" -> u_eager u = true -> In (u_ns u, u_name u) seen -> amb u.
Proof. destruct u as [n q x e]. cbn [u_ns u_qual u_name u_eager]. intros -> -> H S HS. apply use_ok_eager, HS, H. Qed.

Fixpoint block_ok (own : list key) (ds : list decl) : Prop :=
  match ds with
  | [] => True
  | d :: r => Forall (use_in own) (d_uses d) /\ block_ok (own ++ [dkey d]) r
  end.

Lemma block_sound ds : forall own S,
  incl seen S -> incl own S -> block_ok own ds -> dbu_go s t flt all S imps (map IDecl ds) = true.
Proof.
  induction ds as [|d r IH]; intros own S HS Ho H; [reflexivity|]. destruct H as [Hu Hr].
  rewrite dbu_go_decls_cons. apply andb_true_iff. split.
  - apply forallb_forall. intros u Hin. rewrite Forall_forall in Hu.
    destruct (Hu u Hin) as [A | [Hq [He Hi]]]; [apply A, HS|].
    destruct u as [n q x e]. cbn [u_ns u_qual u_name u_eager] in *. subst q e. apply use_ok_eager, Ho, Hi.
  - apply (IH (own ++ [dkey d])); [apply incl_appl, HS | apply incl_app; [apply incl_appl, Ho | apply incl_appr, incl_refl] | exact Hr].
Qed.

Lemma block_dbu ds : block_ok [] ds -> dbu_go s t flt all seen imps (map IDecl ds) = true.
Proof. apply block_sound; [apply incl_refl | apply incl_nil_l]. Qed.

Lemma block_ok_app own a b : block_ok own a -> block_ok (own ++ map dkey a) b -> block_ok own (a ++ b).
Proof.
  revert own. induction a as [|d r IH]; intros own Ha Hb; [cbn [map] in Hb; rewrite app_nil_r in Hb; exact Hb|].
  destruct Ha as [Hu Hr]. split; [exact Hu|]. apply IH; [exact Hr|]. rewrite <- app_assoc. exact Hb.
Qed.

Lemma use_in_amb own l : Forall amb l -> Forall (use_in own) l.
Proof. apply Forall_impl. intros u A. left. exact A. Qed.

Lemma block_ok_all own ds : (forall d, In d ds -> Forall (use_in own) (d_uses d)) -> block_ok own ds.
Proof.
  revert own. induction ds as [|d r IH]; intros own H; [exact I|]. split; [apply H; left; reflexivity|].
  apply IH. intros d' Hd'. apply (Forall_impl (use_in (own ++ [dkey d]))) with (2 := H d' (or_intror Hd')).
  intros u [A | [Hq [He Hi]]]; [left; exact A | right; auto using in_or_app].
Qed.

Lemma use_in_own own n x : In (n, x) own -> use_in own (mkUse n "" x true).
Proof. intros H. right. auto. Qed.

End Block.

End Dbu.

Lemma dkey_flat_map_incl (blkf : fdef -> list decl) fl fl1 fd fl2 :
  fl = fl1 ++ fd :: fl2 ->
  incl (map dkey (flat_map blkf fl1)) (map dkey (flat_map blkf fl)) /\ incl (map dkey (blkf fd)) (map dkey (flat_map blkf fl)).
Proof.
  intros ->. rewrite flat_map_app. cbn [flat_map]. rewrite !map_app. split.
  - apply incl_appl. apply incl_refl.
  - apply incl_appr. apply incl_appl. apply incl_refl.
Qed.

Lemma exports_direct s t flt j k d :
  In (IDecl d) (render_items s j (header_of t) flt) -> In (dkey d) (exports (S k) s t flt j).
Proof.
  intros H. cbn [exports]. apply in_flat_map. exists (IDecl d). split; [exact H | left; reflexivity].
Qed.

Lemma exports_include s t flt j k m tg j' x :
  lang_of t = LC -> In (IImport m tg j') (render_items s j (header_of t) flt) ->
  In x (exports k s t flt j') -> In x (exports (S k) s t flt j).
Proof.
  intros HL H Hx. cbn [exports]. apply in_flat_map. exists (IImport m tg j'). split; [exact H|]. rewrite HL. exact Hx.
Qed.

Lemma exports_disp s t flt j b k n :
  In b (flat_map (expand 4) (blocklist (header_of t))) -> is_dispatcher b = true ->
  In k (map dkey (dispatcher s j flt b)) -> In k (exports (S n) s t flt j).
Proof.
  intros Hb Hd Hk. apply in_map_iff in Hk. destruct Hk as [d [<- Hk]].
  apply exports_direct. unfold render_items. apply in_flat_map in Hb. destruct Hb as [b0 [Hb0 Hb]].
  apply in_flat_map. exists b0. split; [exact Hb0|]. apply in_flat_map. exists b. split; [exact Hb|].
  unfold top_block. rewrite Hd. apply in_map. exact Hk.
Qed.

Lemma refs_wf_split s i fl : forall seen fl1 fd fl2,
  refs_wf s i seen fl = true -> fl = fl1 ++ fd :: fl2 ->
  forallb (ref_wf s i (seen ++ fl1)) (def_refs (fd_def fd)) = true.
Proof.
  induction fl as [|x r IH]; intros seen fl1 fd fl2 H E.
  - destruct fl1; discriminate.
  - cbn [refs_wf] in H. apply andb_true_iff in H. destruct H as [H1 H2]. destruct fl1 as [|y fl1].
    + cbn [app] in E. inversion E; subst. rewrite app_nil_r. exact H1.
    + cbn [app] in E. inversion E; subst.
      specialize (IH (seen ++ [y]) fl1 fd fl2 H2 eq_refl). rewrite <- app_assoc in IH. exact IH.
Qed.

Lemma wf_inv s i : wf s = true -> i < length s ->
  file_wf s i = true /\ fields_wf s i = true /\ opts_wf s i = true.
Proof.
  intros H Hi. unfold wf in H. rewrite forallb_forall in H.
  assert (Hin : In i (seq 0 (length s))) by (apply in_seq; lia).
  specialize (H i Hin). rewrite !andb_true_iff in H. tauto.
Qed.

(* the translated validator of c.struct_packing_alignment admits only 0 and powers of two, for
   EVERY integer: the alignment gcc is given in `aligned(n)` is always acceptable *)
Lemma align_valid_pow2 v : align_valid v = true -> align_ok v = true.
Proof.
  unfold align_valid. intros H.
  repeat (apply orb_true_iff in H; destruct H as [H | H]); apply Z.eqb_eq in H; subst v; reflexivity.
Qed.

Lemma align_of_wf s i : wf s = true -> i < length s -> g_align s i = true.
Proof. intros H Hi. unfold g_align. apply align_valid_pow2. exact (proj2 (proj2 (wf_inv s i H Hi))). Qed.

Lemma strs_eqb_eq a : forall b, strs_eqb a b = true -> a = b.
Proof.
  induction a as [|x r IH]; intros [|y t] H; try discriminate; [reflexivity|].
  cbn [strs_eqb] in H. apply andb_true_iff in H. destruct H as [H1 H2].
  apply String.eqb_eq in H1. subst. f_equal. apply IH. exact H2.
Qed.

Lemma ref_wf_cases s i seen r :
  ref_wf s i seen r = true ->
  (r_via r = [] /\ r_file r = i /\ exists fd, In fd seen /\ targets r fd = true) \/
  (r_via r <> [] /\ follow s i (r_via r) = Some (r_file r) /\ r_file r <> i /\
   exists fd, In fd (flat_file (getf s (r_file r))) /\ targets r fd = true).
Proof.
  unfold ref_wf. destruct (r_via r) as [|m via] eqn:Ev.
  - intros H. apply andb_true_iff in H. destruct H as [H1 H2]. apply Nat.eqb_eq in H1.
    apply existsb_exists in H2. left. repeat split; auto.
  - intros H. destruct (follow s i (m :: via)) as [j|] eqn:Ef; [|discriminate].
    apply andb_true_iff in H. destruct H as [H H3]. apply andb_true_iff in H. destruct H as [H1 H2].
    apply Nat.eqb_eq in H1. apply negb_true_iff, Nat.eqb_neq in H2. apply existsb_exists in H3.
    right. subst j. repeat split; auto. discriminate.
Qed.

Lemma follow_one s i m j : follow s i [m] = Some j -> In (m, j) (f_imports (getf s i)).
Proof.
  cbn [follow]. destruct (find _ (f_imports (getf s i))) as [[m' j']|] eqn:E; [|discriminate].
  intros H. cbn [snd follow] in H. inversion H; subst. apply find_some in E. destruct E as [E1 E2].
  cbn [fst] in E2. apply String.eqb_eq in E2. subst. exact E1.
Qed.

Definition ns_of_rk (L : lang) (k : rk) : ns :=
  match L with
  | LC => match k with RkMsg => NsTag | _ => NsOrd end
  | _ => NsMod
  end.

Definition base_disp (t : target) : blk :=
  match t with
  | TgH | TgC | TgHO | TgCO => H_DataStructuresList
  | TgPy => P_BoundDefinitionList
  | TgGo => G_BoundDefinitionList
  end.

Lemma targets_inv r pth d : targets r (mkF pth d) = true ->
  pth = r_path r /\ def_name d = r_name r /\
  match r_k r, d with RkEnum, DEnum _ _ _ | RkMsg, DMsg _ _ _ _ | RkAlias, DAlias _ _ => True | _, _ => False end.
Proof.
  unfold targets, fdef_is. cbn [fd_path fd_def]. rewrite !andb_true_iff. intros [[Hp Hn] Hk].
  apply strs_eqb_eq in Hp. apply String.eqb_eq in Hn. repeat split; auto. destruct (r_k r), d; try discriminate; exact I.
Qed.

(* a use that comes from reference r: under one of r's two qualifiers (both empty in C) it names
   something dispatcher b declares for the definition r resolves to *)
Definition uses_ref (s : schema) (flt : list string) (t : target) (b : blk) (r : ref) (u : use) : Prop :=
  (u_qual u = ref_qual (lang_of t) r \/ u_qual u = rel_qual (lang_of t) r) /\
  forall fd', targets r fd' = true -> In (u_ns u, u_name u) (map dkey (dispatch_one s (r_file r) flt b fd')).

(* the use a type expression makes of r names what the base dispatcher (typedef, struct, class,
   type) declares for the definition r resolves to *)
Lemma type_from s flt t r e :
  uses_ref s flt t (base_disp t) r
           (mkUse (ns_of_rk (lang_of t) (r_k r)) (ref_qual (lang_of t) r) (ref_name s (lang_of t) r) e).
Proof.
  split; [left; reflexivity|]. intros [pth d] H. destruct (targets_inv r pth d H) as [-> [Hn Hk]]. unfold ref_name, ref_px.
  destruct (r_k r), d as [n v | n ty | n w ms | n x nested fs]; try contradiction; cbn [def_name] in Hn; subst n;
    destruct t; cbn [lang_of base_disp ns_of_rk class_of_rk u_ns u_name];
    unfold_dispatch; unfold own_px; cbn [map dkey d_ns d_name mk mkm app]; auto 8 with datatypes.
Qed.

Lemma c_quals t r : lang_of t = LC -> ref_qual (lang_of t) r = "" /\ rel_qual (lang_of t) r = "".
Proof. intros ->. split; reflexivity. Qed.

Lemma base_disp_C t : lang_of t = LC -> base_disp t = H_DataStructuresList.
Proof. destruct t; try discriminate; reflexivity. Qed.

Lemma c_type_uses_from s flt t ty u : lang_of t = LC ->
  In u (c_type_uses s ty) -> exists r, In r (ty_refs ty) /\ u_eager u = true /\ uses_ref s flt t H_DataStructuresList r u.
Proof.
  intros HL. induction ty as [b | r | e IH cap x]; cbn [c_type_uses ty_refs]; intros H; [contradiction | | apply IH; exact H].
  exists r. split; [left; reflexivity|]. pose proof (type_from s flt t r true) as F. rewrite HL, (base_disp_C t HL) in F.
  destruct (r_k r); destruct H as [<- | []]; (split; [reflexivity | exact F]).
Qed.

Lemma in_dispatcher s j flt b fd k :
  In fd (flat_file (getf s j)) -> In k (map dkey (dispatch_one s j flt b fd)) ->
  In k (map dkey (dispatcher s j flt b)).
Proof.
  intros Hfd Hk. unfold dispatcher. rewrite flat_map_concat_map, concat_map, map_map.
  apply in_concat. exists (map dkey (dispatch_one s j flt b fd)). split; [|exact Hk].
  apply in_map_iff. exists fd. split; [reflexivity | exact Hfd].
Qed.

Lemma dbu_go_imports_map s t flt all {A} (l : list A) (m tg : A -> string) (j : A -> nat) : forall seen imps,
  dbu_go s t flt all seen imps (map (fun x => IImport (m x) (tg x) (j x)) l) = true.
Proof.
  induction l as [|x r IH]; intros seen imps; [reflexivity|]. cbn [map dbu_go]. destruct (lang_of t); apply IH.
Qed.

Lemma insert_fl_perm x l : Permutation (insert_fl x l) (x :: l).
Proof.
  induction l as [|h r IH]; [reflexivity|]. cbn [insert_fl]. destruct (fl_num x <? fl_num h); [reflexivity|].
  rewrite IH. apply perm_swap.
Qed.
Lemma sort_fl_perm l : Permutation (sort_fl l) l.
Proof. induction l as [|h r IH]; [reflexivity|]. cbn [sort_fl]. rewrite insert_fl_perm, IH. reflexivity. Qed.

Lemma in_sort_fl y l : In y (sort_fl l) -> In y l.
Proof. apply Permutation_in, sort_fl_perm. Qed.
Lemma length_sort_fl l : length (sort_fl l) = length l.
Proof. apply Permutation_length, sort_fl_perm. Qed.

