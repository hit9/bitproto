(* OpModeProofs.v — from one field to whole schemas: for every traditional schema tree
   (no bound on nesting, widths, capacities) and every in-range value, the statements the
   three targets emit in optimization mode encode to exactly Spec.wire and decode Spec.wire
   into a zeroed struct to exactly the stored value. *)
From Coq Require Import ZArith List Bool Lia.
From BP Require Import ListFacts Bits Schema Spec PyEncProofs PyDecLeaf OpMode OpModeLeaf OpModeList.
From BPGen Require Import GenOpMode.
Import ListNotations.
Open Scope Z_scope.

Lemma flat_map_seq_nth {A B} (g : A -> list B) d : forall l k0,
  flat_map (fun k => g (nth (k - k0) l d)) (seq k0 (length l)) = flat_map g l.
Proof.
  induction l as [|a r IH]; intros k0; [reflexivity|].
  cbn [length seq flat_map]. rewrite Nat.sub_diag. cbn [nth]. f_equal.
  rewrite <- (IH (S k0)). apply flat_map_ext_in. intros k Hk. apply in_seq in Hk.
  replace (k - k0)%nat with (S (k - S k0)) by lia. reflexivity.
Qed.

Lemma flat_map_seq_nth0 {A B} (g : A -> list B) d l :
  flat_map (fun k => g (nth k l d)) (seq 0 (length l)) = flat_map g l.
Proof.
  rewrite <- (flat_map_seq_nth g d l 0). apply flat_map_ext_in. intros k _. now rewrite Nat.sub_0_r.
Qed.

Lemma map_snd_pre {A} s (cs : list (chain * A)) : map snd (map (pre s) cs) = map snd cs.
Proof. rewrite map_map. apply map_ext. reflexivity. Qed.

Lemma map_fst_pre {A} s (cs : list (chain * A)) : map fst (map (pre s) cs) = map (cons s) (map fst cs).
Proof. rewrite !map_map. apply map_ext. reflexivity. Qed.

Lemma map_lview_pre s (cs : list cellT) : map lview (map (pre s) cs) = map (pre s) (map lview cs).
Proof. rewrite !map_map. apply map_ext. reflexivity. Qed.

Lemma cells_msg x fs v :
  cells (TMsg x fs) v =
  flat_map (fun kf => map (pre (SF (fst kf))) (cells (snd kf) (vfield (fst kf) v))) fs.
Proof. reflexivity. Qed.

Lemma leaves_msg x fs :
  leaves (TMsg x fs) = flat_map (fun kf => map (pre (SF (fst kf))) (leaves (snd kf))) fs.
Proof. reflexivity. Qed.

Lemma cells_arr x cap e v :
  cells (TArr x cap e) v =
  flat_map (fun k => map (pre (SI k)) (cells e (nth k (vlist v) (VZ 0)))) (seq 0 cap).
Proof. reflexivity. Qed.

Definition fields_ok :=
  fix go (l : list (Z * ty)) : bool :=
    match l with
    | [] => true
    | kf :: r => opmode_ok (snd kf) && go r
    end.

Lemma opmode_ok_msg x fs : opmode_ok (TMsg x fs) = negb x && fields_ok fs.
Proof. reflexivity. Qed.

Lemma opmode_ok_arr x c e :
  opmode_ok (TArr x c e) = negb x && match e with TArr _ _ _ => false | _ => true end && opmode_ok e.
Proof. reflexivity. Qed.

Definition fields_wf :=
  fix go (l : list (Z * ty)) : bool :=
    match l with
    | [] => true
    | kf :: r => (1 <=? fst kf) && (fst kf <=? 255) && wf (snd kf) && go r
    end.

Lemma wf_msg x fs :
  wf (TMsg x fs) = keys_distinct (map fst fs) && (nbits (TMsg x fs) <=? 65535) && fields_wf fs.
Proof. reflexivity. Qed.

Lemma cells_leaves t : forall v, map lview (cells t v) = leaves t.
Proof.
  induction t as [| | n | n | n ms | t IH | x c e IH | x fs IH] using ty_ind'; intros v;
    try reflexivity.
  - destruct t; try reflexivity. apply IH.
  - rewrite cells_arr. cbn [leaves]. rewrite map_flat_map. apply flat_map_ext_in. intros k _.
    now rewrite map_lview_pre, IH.
  - rewrite cells_msg, leaves_msg, map_flat_map. rewrite Forall_forall in IH.
    apply flat_map_ext_in. intros kf Hin. now rewrite map_lview_pre, (IH kf Hin).
Qed.

Lemma nodup_tagged {K A} (tag : K -> sel) (body : K -> list (chain * A)) (ks : list K) :
  NoDup (map tag ks) -> (forall k, In k ks -> NoDup (map fst (body k))) ->
  NoDup (map fst (flat_map (fun k => map (pre (tag k)) (body k)) ks)).
Proof.
  induction ks as [|k r IH]; intros Ht Hb; cbn [flat_map]; [constructor|].
  cbn [map] in Ht. inversion Ht as [|? ? Hn Hr]; subst.
  rewrite map_app, map_fst_pre. apply NoDup_app_intro.
  - apply NoDup_map_inj_on; [apply Hb; now left|intros a b _ _ E; now injection E].
  - apply IH; [exact Hr|]. intros; apply Hb; right; assumption.
  - intros y Hy Hy2. apply in_map_iff in Hy. destruct Hy as (c1 & <- & _).
    rewrite map_flat_map in Hy2. apply in_flat_map in Hy2. destruct Hy2 as (k' & Hk' & Hin).
    rewrite map_fst_pre in Hin. apply in_map_iff in Hin. destruct Hin as (c2 & E & _).
    injection E as E1 _. apply Hn. rewrite <- E1. apply in_map. exact Hk'.
Qed.

Lemma one_cell_nodup t al v : NoDup (map fst (one_cell t al v)).
Proof.
  unfold one_cell. destruct (single_leaf t al); cbn; repeat constructor. intros [].
Qed.

Lemma cells_nodup t : forall v, wf t = true -> NoDup (map fst (cells t v)).
Proof.
  induction t as [| | n | n | n ms | t IH | x c e IH | x fs IH] using ty_ind'; intros v Hw;
    try apply one_cell_nodup.
  - cbn [wf] in Hw. destruct t; try apply one_cell_nodup. apply IH. exact Hw.
  - cbn [wf] in Hw. rewrite !andb_true_iff in Hw. destruct Hw as [_ He].
    rewrite cells_arr. apply (nodup_tagged SI (fun k => cells e (nth k (vlist v) (VZ 0)))).
    + apply NoDup_map_inj_on; [apply seq_NoDup|intros a b _ _ E; now injection E].
    + intros k _. apply IH. exact He.
  - pose proof Hw as Hw'. rewrite wf_msg in Hw. rewrite !andb_true_iff in Hw. destruct Hw as [[Hk _] _].
    rewrite cells_msg.
    apply (nodup_tagged (fun kf : Z * ty => SF (fst kf)) (fun kf => cells (snd kf) (vfield (fst kf) v))).
    + rewrite <- (map_map fst SF). apply NoDup_map_inj_on; [now apply keys_distinct_NoDup|intros a b _ _ E; now injection E].
    + intros [k ft] Hin. rewrite Forall_forall in IH. apply (IH _ Hin). apply (wf_msg_In _ _ _ _ Hw' Hin).
Qed.

Lemma Forall_ty_leaf lv : Forall cell_ty_ok lv -> Forall (fun x => leaf_ok (fst x)) lv.
Proof. induction 1; constructor; [apply cell_ty_leaf_ok|]; assumption. Qed.

(* lv: the (leaf, value) list of some part of the struct; bits: the specification's bits for that part *)
Definition good_lv (lv : list (leaf * val)) (bits : list bool) : Prop :=
  Forall cell_ty_ok lv /\ lv_bits lv = bits.

Lemma good_app l1 l2 b1 b2 : good_lv l1 b1 -> good_lv l2 b2 -> good_lv (l1 ++ l2) (b1 ++ b2).
Proof.
  intros (F1 & <-) (F2 & <-). split; [apply Forall_app; now split|apply flat_map_app].
Qed.

Lemma good_one lf v :
  cell_ty_ok (lf, v) ->
  good_lv [(lf, v)] (bits_of (Z.to_nat (leaf_bits lf)) (match lk lf with KBool => leaf_pat lf v | _ => zof v end)).
Proof.
  intros Hty. pose proof (cell_ty_leaf_ok _ Hty) as Hok. cbn [fst] in Hok.
  destruct (leaf_facts lf Hok) as (Hn & _ & _).
  split; [constructor; [exact Hty|constructor]|].
  cbn [lv_bits flat_map]. unfold cbits, cpat. cbn [fst snd]. rewrite app_nil_r.
  apply bits_of_congr. rewrite Z2Nat.id by lia.
  destruct (lk lf) eqn:E; [reflexivity|..]; now rewrite (cpat_mod lf v Hok Hty), E.
Qed.

Lemma existsb_in z ms : existsb (Z.eqb z) ms = true -> In z ms.
Proof.
  intros H. apply existsb_exists in H. destruct H as (y & Hy & E). apply Z.eqb_eq in E. now subst.
Qed.

Lemma good_single t al v :
  match t with TBool | TByte | TUint _ | TInt _ | TEnum _ _ => True | _ => False end ->
  wf t = true -> has_ty t v = true ->
  good_lv (map snd (one_cell t al v)) (enc_bits t v).
Proof.
  intros Hk Hw Ht. destruct t as [| |n|n|n ms| | |]; try contradiction;
    cbn [one_cell single_leaf map snd enc_bits wf has_ty] in *.
  - destruct v as [b| | |]; try discriminate.
    replace [b] with (bits_of 1 (if b then 1 else 0)) by now destruct b.
    apply (good_one (mkleaf KBool al) (VB b)). exists b; reflexivity.
  - destruct v as [|z| |]; try discriminate.
    apply (good_one (mkleaf KByte al) (VZ z)). cbn; lia.
  - destruct v as [|z| |]; try discriminate.
    apply (good_one (mkleaf (KUint n) al) (VZ z)). cbn; lia.
  - destruct v as [|z| |]; try discriminate.
    apply (good_one (mkleaf (KInt n) al) (VZ z)). cbn; lia.
  - destruct v as [|z| |]; try discriminate.
    apply (good_one (mkleaf (KEnum n) al) (VZ z)).
    cbn. rewrite !andb_true_iff in Hw. destruct Hw as [[H1 H2] H3].
    rewrite forallb_forall in H3. specialize (H3 z (existsb_in _ _ Ht)). lia.
Qed.

Lemma cells_good t : forall v,
  wf t = true -> opmode_ok t = true -> has_ty t v = true ->
  good_lv (map snd (cells t v)) (enc_bits t v).
Proof.
  induction t as [| | n | n | n ms | t IH | x c e IH | x fs IH] using ty_ind'; intros v Hw Ho Ht;
    try (apply (good_single _ false); [exact I|assumption|assumption]).
  - (* alias: opmode_ok leaves bool, byte, uint, int and array targets *)
    cbn [wf has_ty opmode_ok] in *.
    destruct t as [| |n|n|n ms|t'|x c e|x fs]; try discriminate.
    + apply (good_single TBool true); [exact I|assumption|assumption].
    + apply (good_single TByte true); [exact I|assumption|assumption].
    + apply (good_single (TUint n) true); [exact I|assumption|assumption].
    + apply (good_single (TInt n) true); [exact I|assumption|assumption].
    + apply IH; assumption.
  - rewrite opmode_ok_arr in Ho. cbn [wf has_ty] in *.
    rewrite !andb_true_iff in Hw. rewrite !andb_true_iff in Ho.
    destruct Hw as [_ He]. destruct Ho as [[Hx _] Hoe]. apply negb_true_iff in Hx. subst x.
    destruct v as [| |l|]; try discriminate. rewrite andb_true_iff in Ht. destruct Ht as [Hlen Hall].
    apply Nat.eqb_eq in Hlen. subst c. rewrite forallb_forall in Hall.
    rewrite cells_arr, map_flat_map. cbn [vlist enc_bits ext_bits app].
    rewrite (flat_map_ext_in _ (fun k => map snd (cells e (nth k l (VZ 0))))) by (intros; apply map_snd_pre).
    rewrite (flat_map_seq_nth0 (fun a => map snd (cells e a))).
    clear - IH He Hoe Hall.
    induction l as [|a r IHr]; cbn [flat_map]; [now split|].
    apply good_app.
    + apply IH; try assumption. apply Hall. left. reflexivity.
    + apply IHr. intros y Hy. apply Hall. right. exact Hy.
  - rewrite wf_msg in Hw. rewrite opmode_ok_msg in Ho.
    rewrite !andb_true_iff in Hw. rewrite !andb_true_iff in Ho.
    destruct Hw as [_ Hf]. destruct Ho as [Hx Hof]. apply negb_true_iff in Hx. subst x.
    destruct v as [| | |vs]; try discriminate. rewrite has_ty_msg in Ht.
    rewrite cells_msg, map_flat_map, enc_bits_msg. cbn [ext_bits app].
    rewrite (flat_map_ext_in _ (fun kf => map snd (cells (snd kf) (vfield (fst kf) (VM vs)))))
      by (intros; apply map_snd_pre).
    clear - IH Hf Hof Ht.
    induction fs as [|kf r IHr]; cbn [flat_map fields_bits]; [now split|].
    inversion IH as [|? ? Hk Hr]; subst.
    cbn [fields_wf fields_ok fields_has_ty] in Hf, Hof, Ht.
    rewrite !andb_true_iff in Hf. rewrite !andb_true_iff in Hof. rewrite !andb_true_iff in Ht.
    destruct Hf as [[_ Hwk] Hfr]. destruct Hof as [Hok Hor]. destruct Ht as [Htk Htr].
    apply good_app.
    + apply Hk; try assumption. cbn [vfield].
      destruct (lookup (fst kf) vs) as [fv|]; [exact Htk|discriminate].
    + apply IHr; assumption.
Qed.

Section Top.
  Variables (L : lang) (t : ty) (v : val).
  Hypothesis Hok : opmode_ok (norm t) = true.
  Hypothesis Hwf : wf (norm t) = true.
  Hypothesis Hty : has_ty (norm t) v = true.

  Let cs := cells (norm t) v.

  Lemma top_facts :
    Forall cell_ty_ok (map snd cs) /\ bufZ (wire t v) = packZ (map snd cs) /\
    total_bits (map snd cs) = nbits t /\
    length (wire t v) = Z.to_nat (nbytes t) /\ 0 <= nbits t /\ nbits t <= 8 * nbytes t.
  Proof.
    destruct (cells_good (norm t) v Hwf Hok Hty) as (F & Eb). fold cs in F, Eb.
    destruct (lv_bits_spec _ (Forall_ty_leaf _ F)) as [Zb Ln]. rewrite Eb in Zb, Ln.
    pose proof (enc_bits_length (norm t) v Hwf Hty) as Nb. rewrite nbits_norm in Nb.
    split; [exact F|]. split; [unfold wire; rewrite bufZ_pack; exact Zb|]. split; [lia|].
    split; [|unfold nbytes; Z.div_mod_to_equations; lia].
    pose proof (pack_length (enc_bits (norm t) v)) as Hp. fold (wire t v) in Hp.
    rewrite Nb in Hp. unfold nbytes. Z.div_mod_to_equations. lia.
  Qed.

  Theorem opmode_encode : run_encode (stmts L true t) t v = Some (wire t v).
  Proof.
    destruct top_facts as (F & HZ & Nb & Hl & Hnn & H8).
    unfold run_encode, stmts, store. fold cs. rewrite <- (cells_leaves (norm t) v), <- Hl, <- cut_0. fold cs.
    pose proof (all_enc L (wire t v) cs [] 0) as R. cbn [app] in R. rewrite R; rewrite ?Nb.
    - cbn [bind buf]. f_equal. apply cut_full; [apply pack_bytes_ok|]. rewrite HZ, <- Nb. cbn [Z.add].
      apply packZ_range, Forall_ty_leaf, F.
    - apply cells_nodup. exact Hwf.
    - apply Forall_ty_leaf. exact F.
    - lia.
    - lia.
    - rewrite chunk_0, HZ, <- Nb. apply Z.mod_small, packZ_range, Forall_ty_leaf, F.
  Qed.

  Theorem opmode_decode : run_decode (stmts L false t) t (wire t v) = Some (store (norm t) v).
  Proof.
    destruct top_facts as (F & HZ & Nb & Hl & Hnn & H8).
    unfold run_decode, stmts, store, zero_mem. fold cs.
    rewrite <- (cells_leaves (norm t) v). fold cs. rewrite map_map.
    change (map (fun x : cellT => (fst (lview x), mkcell (leaf_cty (snd (lview x))) 0)) cs)
      with (map zero_of cs).
    pose proof (all_dec L (wire t v) cs [] 0) as R. cbn [app map] in R.
    rewrite R.
    - cbn [bind objs]. f_equal. apply dec_cells_eq; [lia|exact F|].
      change (2 ^ 0) with 1. rewrite Z.div_1_r. exact HZ.
    - apply cells_nodup. exact Hwf.
    - apply Forall_ty_leaf. exact F.
    - lia.
    - unfold wire. apply pack_bytes_ok.
    - rewrite Nb, Hl. lia.
  Qed.
End Top.

Definition branch_of (e : endian) (macro_defined : bool) : lang :=
  match e with
  | ELittle => CLE
  | EBig => CBE
  | EBoth => if macro_defined then CBE else CLE
  end.

Lemma select_branch e m enc t :
  select m (c_body e enc t) =
  match branch_of e m with
  | CBE => c_be_body enc t
  | _ => c_le_body enc t
  end.
Proof. destruct e, m; reflexivity. Qed.

Lemma exec_memset_zero t s : exec (mkst s (zero_mem t)) SMemset = Some (mkst s (zero_mem t)).
Proof.
  cbn [exec buf objs]. do 2 f_equal. unfold zero_mem. rewrite map_map. apply map_ext. reflexivity.
Qed.

Lemma memset_zero_mem t : 
  exec (mkst (@nil Z) (zero_mem t)) SMemset = Some (mkst [] (zero_mem t)).
Proof. apply exec_memset_zero. Qed.

Lemma run_memset_zero t s l :
  run (SMemset :: l) (mkst s (zero_mem t)) = run l (mkst s (zero_mem t)).
Proof. cbn [run]. now rewrite exec_memset_zero. Qed.

Section Select.
  Variables (t : ty) (v : val).
  Hypothesis Hok : opmode_ok (norm t) = true.
  Hypothesis Hwf : wf (norm t) = true.
  Hypothesis Hty : has_ty (norm t) v = true.

  Theorem c_le_encode : run_encode (c_le_body true t) t v = Some (wire t v).
  Proof. apply opmode_encode; assumption. Qed.
  Theorem c_le_decode : run_decode (c_le_body false t) t (wire t v) = Some (store (norm t) v).
  Proof. apply opmode_decode; assumption. Qed.
  Theorem c_be_encode : run_encode (c_be_body true t) t v = Some (wire t v).
  Proof. apply (opmode_encode CBE); assumption. Qed.
  Theorem c_be_decode : run_decode (c_be_body false t) t (wire t v) = Some (store (norm t) v).
  Proof.
    unfold c_be_body, run_decode. cbn [app]. rewrite run_memset_zero.
    apply (opmode_decode CBE); assumption.
  Qed.
  Theorem go_encode : run_encode (go_body true t) t v = Some (wire t v).
  Proof. apply (opmode_encode GO); assumption. Qed.
  Theorem go_decode : run_decode (go_body false t) t (wire t v) = Some (store (norm t) v).
  Proof. apply (opmode_decode GO); assumption. Qed.

  Theorem endian_select e m :
    run_encode (select m (c_body e true t)) t v = Some (wire t v) /\
    run_decode (select m (c_body e false t)) t (wire t v) = Some (store (norm t) v).
  Proof.
    rewrite !select_branch. destruct (branch_of e m); split;
      auto using c_le_encode, c_le_decode, c_be_encode, c_be_decode.
  Qed.
End Select.

(* the stored pattern IS the value (what "same field values" means) *)

Lemma store_value lf v :
  cell_ty_ok (lf, v) ->
  sval (leaf_cty lf) (leaf_pat lf v) =
  match lk lf with KBool => (match v with VB true => 1 | _ => 0 end) | _ => zof v end.
Proof.
  intros Hty. pose proof (cell_ty_leaf_ok _ Hty) as Hok. cbn [fst] in Hok.
  destruct (leaf_facts lf Hok) as (Hn & Hsz & _).
  unfold leaf_pat, leaf_cty, leaf_bits, cell_ty_ok in *. cbn [fst snd] in *.
  destruct (lk lf) as [| |n|n|n]; cbn [csz sval] in *.
  - reflexivity.
  - change byte_nbits with 8 in *. apply Z.mod_small. lia.
  - destruct Hty as (_ & Hz). assert (2 ^ n <= 2 ^ storage_bits n) by (apply Z.pow_le_mono_r; lia).
    apply Z.mod_small. lia.
  - (* the value lies in the signed range of the storage type as well *)
    destruct Hty as (Hr & Hz).
    assert (2 ^ (n - 1) <= 2 ^ (storage_bits n - 1)) by (apply Z.pow_le_mono_r; lia).
    apply (sext'_mod (storage_bits n) (zof v)); lia.
  - destruct Hty as (_ & Hz). assert (2 ^ n <= 2 ^ storage_bits n) by (apply Z.pow_le_mono_r; lia).
    apply Z.mod_small. lia.
Qed.

Lemma store_cells_ok t v :
  wf (norm t) = true -> opmode_ok (norm t) = true -> has_ty (norm t) v = true ->
  Forall cell_ty_ok (map snd (cells (norm t) v)).
Proof. intros Hw Ho Ht. apply (cells_good (norm t) v Hw Ho Ht). Qed.
