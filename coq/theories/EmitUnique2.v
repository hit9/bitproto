(* EmitUnique2.v — C10_names_unique for the Python module and the Go file: module / package level
   names, and methods per receiver type (name space [NsMember T]); C10_member_names_unique: the
   members of a Go struct, the attributes of a Python class. *)
From Coq Require Import String Ascii List Bool Arith Permutation.
From BP Require Import ListFacts EmitBase EmitNames Emit EmitSpec EmitProofs EmitDbu EmitStr EmitUnique.
From BPGen Require Import GenC10.
Import ListNotations.
Open Scope string_scope.
Open Scope list_scope.
Open Scope nat_scope.

Lemma upper_case_app a b : upper_case (a ++ b) = (upper_case a ++ upper_case b)%string.
Proof.
  unfold upper_case. rewrite chars_app, map_app. induction (map to_upper (chars a)) as [|c l IH]; [reflexivity|].
  cbn. rewrite IH. reflexivity.
Qed.

Lemma own_px_py s i : own_px s i LPy = "".
Proof. reflexivity. Qed.
Lemma own_px_go s i : own_px s i LGo = "".
Proof. reflexivity. Qed.

(* Python: the names derived from an alias or an enum *)
Inductive ptok := PProc (x : string) | PFact (a : string) | PMap (u : string).

Definition pkey (t : ptok) : key :=
  (NsMod, match t with
          | PProc x => py_processor_name_enum x
          | PFact a => py_default_factory_name a
          | PMap u => ("_" ++ u ++ "_VALUE_TO_NAME_MAP")%string
          end).
(* what [g_derived] gives about a base name *)
Definition pbadm (k : key) : Prop := starts_any ["bp_"; "_"] (snd k) = false.

Lemma pkey_inj a b : pkey a = pkey b -> a = b.
Proof.
  destruct a, b; intros H; pose proof (f_equal snd H) as Hs; unfold pkey in Hs; cbn [snd] in Hs; clear H;
    unfold py_processor_name_enum, py_default_factory_name in Hs;
    try (strip_eq Hs; try contradiction); try (subst; reflexivity).
  apply sapp_inj_r in Hs. subst. reflexivity.
Qed.

Lemma pkey_apart k t : pbadm k -> k <> pkey t.
Proof.
  intros A E. subst k. unfold pbadm in A.
  destruct t; cbn [pkey snd] in A; unfold py_processor_name_enum, py_default_factory_name in A;
    rewrite starts_any_lit in A; (discriminate A || reflexivity).
Qed.

Section Py.
Variables (s : schema) (i : nat) (flt : list string).
Hypothesis Hpre : pre LPy s i = true.
Hypothesis Hgd : g_derived LPy s i = true.

Definition ptoks (fd : fdef) : list ptok :=
  match fd_def fd with
  | DAlias n _ => let a := dname LPy KAlias "" (fd_path fd) n in [PProc a; PFact a]
  | DEnum n _ _ => let e := dname LPy KEnum "" (fd_path fd) n in [PMap (upper_case e); PProc e]
  | _ => []
  end.

Lemma ptoks_keys fd :
  map dkey (dispatch_one s i flt P_BoundDefinitionList fd) = base_keys LPy "" fd ++ map pkey (ptoks fd).
Proof.
  destruct fd as [pth d]. unfold ptoks, base_keys, dispatch_one. cbn [fd_def fd_path].
  destruct d as [n v | n t | n w ms | n x nested fs];
    unfold_dispatch; try reflexivity.
  cbn [map app]. rewrite !map_app, !map_map. cbn [map dkey mk d_ns d_name]. unfold pkey.
  unfold py_value_map_name_raw. rewrite !upper_case_app. reflexivity.
Qed.

Definition ptok_own (t : ptok) : owned :=
  match t with PProc x | PFact x => OKey (NsMod, x) | PMap u => OStem u end.

Lemma ptok_ids fd t : In t (ptoks fd) -> owns LPy "" fd (ptok_own t).
Proof.
  destruct fd as [pth d]. unfold ptoks. cbn [fd_def fd_path].
  destruct d as [n v | n ty | n w ms | n x nested fs]; intros H; repeat (destruct H as [<- | H]); try contradiction;
    left; reflexivity.
Qed.

Lemma ptoks_nodup fd : NoDup (ptoks fd).
Proof. unfold ptoks. destruct (fd_def fd); repeat constructor; cbn [In]; intuition discriminate. Qed.

Lemma pbadm1 k : In k (file_base_keys LPy s i) -> pbadm k.
Proof.
  intros Hk. pose proof Hgd as G. cbn [g_derived] in G. rewrite forallb_forall in G. apply negb_true_iff, G, Hk.
Qed.

Theorem names_unique_Py : unique_b (decls_of (render_items s i TgPy flt)) = true.
Proof.
  rewrite items_TgPy. unfold disp, p_imports. rewrite decls_of_app, decls_of_decls.
  rewrite decls_of_imports. cbn [app].
  apply unique_b_intro; [rewrite filter_nonproto_disp | rewrite filter_proto_disp]; try reflexivity; cbn [proto_disp map]; [|constructor].
  rewrite (disp_keys s i flt _ _ ptoks_keys).
  apply (frame_nodup LPy s i pkey pbadm (fun _ => True) ptok_own ptoks Hpre (fun a b _ _ => pkey_inj a b)
           (fun k t A _ => pkey_apart k t A) pbadm1 (fun fd _ => ptoks_nodup fd) (fun _ _ _ _ => I) ptok_ids).
Qed.

End Py.

(* Go: the size constant of a message, and the methods per receiver type *)
Inductive gtok := GSize (st : string) | GMeth (owner name : string).

Definition gkey (t : gtok) : key :=
  match t with
  | GSize st => (NsMod, size_constant_name st)
  | GMeth o n => (NsMember o, n)
  end.
Definition gbadm (k : key) : Prop :=
  fst k = NsMod /\ starts_any ["BYTES_LENGTH_"] (snd k) = false /\ is_reserved LGo (snd k) = false.

Lemma gkey_inj a b : gkey a = gkey b -> a = b.
Proof.
  destruct a, b; cbn [gkey]; intros H; try discriminate H.
  - injection H as H. rewrite H. reflexivity.
  - injection H as -> ->. reflexivity.
Qed.

Lemma gkey_apart k t : gbadm k -> k <> gkey t.
Proof.
  intros [N [A _]] E. subst k. destruct t; cbn [gkey fst snd] in *; [|discriminate N].
  unfold size_constant_name in A. rewrite starts_any_lit in A; [discriminate A | reflexivity].
Qed.

Lemma go_methods_nodup : NoDup go_msg_methods.
Proof. apply nodup_str_NoDup. vm_compute. reflexivity. Qed.

Section Go.
Variables (s : schema) (i : nat) (flt : list string).
Hypothesis Hpre : pre LGo s i = true.
Hypothesis Hgd : g_derived LGo s i = true.
Let fl := flat_file (getf s i).

Definition gtoks (fd : fdef) : list gtok :=
  let pth := fd_path fd in
  match fd_def fd with
  | DConst _ _ => []
  | DAlias n _ => [GMeth (dname LGo KAlias "" pth n) "BpProcessor"]
  | DEnum n _ _ => let e := dname LGo KEnum "" pth n in [GMeth e "BpProcessor"; GMeth e "String"]
  | DMsg n _ _ _ => let m := dname LGo KMessage "" pth n in GSize (upper_case (snake_case m)) :: map (GMeth m) go_msg_methods
  end.

Lemma gtoks_keys fd :
  map dkey (dispatch_one s i flt G_BoundDefinitionList fd) = base_keys LGo "" fd ++ map gkey (gtoks fd).
Proof.
  destruct fd as [pth d]. unfold gtoks, base_keys, dispatch_one. cbn [fd_def fd_path].
  destruct d as [n v | n t | n w ms | n x nested fs];
    unfold_dispatch; try reflexivity.
  cbn [map app]. rewrite !map_app, !map_map. reflexivity.
Qed.

Definition gtok_own (t : gtok) : owned :=
  match t with GMeth x _ => OKey (NsMod, x) | GSize st => OStem st end.

Lemma gtok_ids fd t : In t (gtoks fd) -> owns LGo "" fd (gtok_own t).
Proof.
  destruct fd as [pth d]. unfold gtoks. cbn [fd_def fd_path].
  destruct d as [n v | n ty | n w ms | n x nested fs]; intros H; repeat (destruct H as [<- | H]); try contradiction;
    left; reflexivity.
Qed.

Lemma gtoks_nodup fd : NoDup (gtoks fd).
Proof.
  unfold gtoks. destruct (fd_def fd); try (repeat constructor; cbn [In]; intuition discriminate).
  constructor; [intros H; apply in_map_iff in H; destruct H as [m [E _]]; discriminate E|].
  apply (NoDup_map_inj_on (GMeth _)); [exact go_methods_nodup|]. intros a b _ _ E. injection E as E. exact E.
Qed.

Lemma base_ns_mod L px fd k : L <> LC -> In k (base_keys L px fd) -> fst k = NsMod.
Proof.
  intros HL. unfold base_keys, ns_macro, ns_ord, ns_tag.
  destruct L; [contradiction | |]; destruct (fd_def fd); cbn [In]; intros H;
    repeat (destruct H as [<- | H]; [reflexivity|]); try contradiction;
    apply in_map_iff in H; destruct H as [m [<- _]]; reflexivity.
Qed.

Lemma gbadm1 k : In k (file_base_keys LGo s i) -> gbadm k.
Proof.
  intros Hk. split; [|split].
  - apply in_flat_map in Hk. destruct Hk as [fd [_ Hk]]. apply (base_ns_mod LGo "" fd k); [discriminate | exact Hk].
  - pose proof Hgd as G. cbn [g_derived] in G. rewrite forallb_forall in G. apply negb_true_iff, G, Hk.
  - apply (proj1 (proj2 (proj2 (proj2 (pre_inv LGo s i Hpre)))) _ Hk).
Qed.

(* the two package-level variables: reserved words, and no method *)
Lemma go_vars_fresh fd k :
  In fd fl -> In k (base_keys LGo "" fd ++ map gkey (gtoks fd)) -> ~ In k (map dkey go_vars).
Proof.
  intros Hfd Hk Hin. apply in_app_or in Hk. destruct Hk as [Hk | Hk].
  - destruct (gbadm1 k (in_file_base_keys LGo s i fd k Hfd Hk)) as [_ [_ R]].
    destruct Hin as [<- | [<- | []]]; vm_compute in R; discriminate R.
  - apply in_map_iff in Hk. destruct Hk as [t [<- _]]. destruct t; destruct Hin as [H | [H | []]]; discriminate H.
Qed.

Theorem names_unique_Go : unique_b (decls_of (render_items s i TgGo flt)) = true.
Proof.
  rewrite items_TgGo. unfold disp, g_imports.
  rewrite !decls_of_app, !decls_of_decls. rewrite decls_of_imports. cbn [app].
  apply unique_b_intro; rewrite filter_app; [rewrite filter_nonproto_disp | rewrite filter_proto_disp]; try reflexivity;
    cbn [proto_disp filter go_vars mk is_proto d_kind negb app]; [|constructor].
  change (?a :: ?b :: ?l) with ([a; b] ++ l). rewrite map_app, (disp_keys s i flt _ _ gtoks_keys).
  apply NoDup_app_intro; [repeat constructor; cbn [In]; intuition discriminate | |].
  - apply (frame_nodup LGo s i gkey gbadm (fun _ => True) gtok_own gtoks Hpre (fun a b _ _ => gkey_inj a b)
             (fun k t A _ => gkey_apart k t A) gbadm1 (fun fd _ => gtoks_nodup fd) (fun _ _ _ _ => I) gtok_ids).
  - intros k Hk1 Hk2. apply in_flat_map in Hk2. destruct Hk2 as [fd [Hfd Hk2]]. apply (go_vars_fresh fd k Hfd Hk2 Hk1).
Qed.

End Go.

Lemma go_methods_reserved : forallb (is_reserved LGo) go_msg_methods = true.
Proof. vm_compute. reflexivity. Qed.

Lemma field_names_of_pre L s i fd n x nested fs :
  pre L s i = true -> In fd (flat_file (getf s i)) -> fd_def fd = DMsg n x nested fs ->
  NoDup (map (fun fl => conv L KMessageField (fl_name fl)) fs) /\
  (forall fl, In fl fs -> is_reserved L (conv L KMessageField (fl_name fl)) = false).
Proof.
  intros Hpre Hfd Ed. pose proof (proj2 (proj2 (proj2 (proj2 (pre_inv L s i Hpre)))) fd Hfd) as Hf.
  unfold field_names_ok in Hf. rewrite Ed in Hf.
  apply andb_true_iff in Hf. destruct Hf as [H1 H2]. split; [apply nodup_str_NoDup; exact H1|].
  intros fl Hfl. rewrite forallb_forall in H2. specialize (H2 (conv L KMessageField (fl_name fl))).
  apply negb_true_iff. apply H2. apply in_map_iff. exists fl. split; [reflexivity | exact Hfl].
Qed.

Theorem go_members_unique s i fd :
  pre LGo s i = true -> In fd (flat_file (getf s i)) -> NoDup (go_struct_members fd).
Proof.
  intros Hpre Hfd. unfold go_struct_members. destruct (fd_def fd) as [n v | n ty | n w ms | n x nested fs] eqn:Ed; try constructor.
  destruct (field_names_of_pre LGo s i fd n x nested fs Hpre Hfd Ed) as [Hn Hr].
  apply NoDup_app_intro; [apply NoDup_map_sort_fl; exact Hn | exact go_methods_nodup|].
  intros y Hy Hy'. apply in_map_iff in Hy. destruct Hy as [fl [<- Hfl]]. apply in_sort_fl in Hfl.
  pose proof go_methods_reserved as G. rewrite forallb_forall in G. specialize (G _ Hy'). rewrite (Hr fl Hfl) in G. discriminate.
Qed.

(* the attributes of a Python dataclass: the field names are the base names, the proxy, getter
   and setter of an enum-typed field are derived from its name; ten names are fixed *)
Inductive atok := AProxy (f : string) | AGet (f : string) | ASet (f : string).
Definition akey (t : atok) : string :=
  match t with
  | AProxy f => (py_enum_proxy_prefix ++ f)%string
  | AGet f => ("_get_" ++ f)%string
  | ASet f => ("_set_" ++ f)%string
  end.
Definition a_field (t : atok) : string := match t with AProxy f | AGet f | ASet f => f end.
(* what [pre] and [g_py_attrs] give about a field name *)
Definition abadm (f : string) : Prop := starts_with "_" f = false /\ is_reserved LPy f = false.
Definition py_lits : list string :=
  ["BYTES_LENGTH"; "__post_init__"; "dict_factory"; "bp_processor"; "bp_set_byte"; "bp_get_byte"; "bp_get_accessor";
   "encode"; "decode"; "bp_process_int"].

Lemma akey_inj a b : akey a = akey b -> a = b.
Proof.
  destruct a, b; cbn [akey]; unfold py_enum_proxy_prefix; intros H;
    try (apply sapp_inj_l in H; subst; reflexivity); strip_eq H; contradiction.
Qed.

Lemma akey_apart f t : abadm f -> f <> akey t.
Proof. intros [A _] E. subst f. destruct t; unfold akey, py_enum_proxy_prefix in A; cbn in A; discriminate A. Qed.

Lemma py_lits_shape :
  forallb (fun l => (is_reserved LPy l || starts_with "_" l) &&
                    negb (starts_any [py_enum_proxy_prefix; "_get_"; "_set_"] l)) py_lits = true.
Proof. vm_compute. reflexivity. Qed.

Lemma lit_fresh l : In l py_lits -> (forall f, abadm f -> l <> f) /\ forall t, l <> akey t.
Proof.
  intros Hl. pose proof py_lits_shape as S. rewrite forallb_forall in S. specialize (S l Hl).
  apply andb_true_iff in S. destruct S as [S1 S2]. apply negb_true_iff in S2. split.
  - intros f [U R] <-. rewrite R, U in S1. discriminate S1.
  - intros t ->. destruct t; unfold akey in S2; rewrite starts_any_lit in S2; (discriminate S2 || reflexivity).
Qed.

Section PyAttrs.
Variables (s : schema) (i : nat).
Hypothesis Hpre : pre LPy s i = true.
Hypothesis Hga : g_py_attrs s i = true.

Definition fname (fl : field) : string := conv LPy KMessageField (fl_name fl).
Definition atoks (fl : field) : list atok :=
  if is_enum_ty (fl_ty fl) then [AProxy (fname fl); AGet (fname fl); ASet (fname fl)] else [].

Theorem py_attrs_unique fd : In fd (flat_file (getf s i)) -> NoDup (py_class_attrs fd).
Proof.
  intros Hfd. destruct (fd_def fd) as [n v | n ty | n w ms | n x nested fs] eqn:Ed.
  - unfold py_class_attrs. rewrite Ed. constructor.
  - unfold py_class_attrs. rewrite Ed. constructor.
  - (* enum class: the member names *)
    unfold py_class_attrs. rewrite Ed. destruct fd as [pth d]. cbn [fd_def fd_path] in *. subst d.
    apply (enum_members_nodup LPy s i Hpre pth n w ms Hfd).
  - unfold py_class_attrs. rewrite Ed.
    destruct (field_names_of_pre LPy s i fd n x nested fs Hpre Hfd Ed) as [Hn Hr].
    assert (Hus : forall fl, In fl fs -> starts_with "_" (fname fl) = false).
    { intros fl Hfl. unfold g_py_attrs in Hga. rewrite forallb_forall in Hga. specialize (Hga fd Hfd). rewrite Ed in Hga.
      rewrite forallb_forall in Hga. specialize (Hga fl Hfl). apply negb_true_iff in Hga. exact Hga. }
    set (sf := sort_fl fs).
    assert (Hadm : forall fl, In fl sf -> abadm (fname fl)).
    { intros fl Hfl. apply in_sort_fl in Hfl. split; [apply Hus | apply Hr]; exact Hfl. }
    assert (Hsf : NoDup (map fname sf)) by (apply NoDup_map_sort_fl; exact Hn).
    (* grouped by field, the fixed names last *)
    match goal with |- NoDup (_ :: flat_map ?F0 _ ++ _ ++ flat_map ?G0 (filter ?p0 _) ++ _) =>
      set (F := F0); set (G := G0); set (p := p0)
    end.
    apply (Permutation_NoDup (l := flat_map (fun fl => F fl ++ (if p fl then G fl else [])) sf ++ py_lits)).
    { apply Permutation_sym. eapply Permutation_trans; [|apply Permutation_app_tail, flat_map_app_perm].
      rewrite <- flat_map_filter. apply Permutation_cons_app. rewrite <- app_assoc. apply Permutation_app_head.
      cbn [app]. apply Permutation_cons_app, Permutation_middle. }
    rewrite (flat_map_ext _ (fun fl => [fname fl] ++ map akey (atoks fl)))
      by (intros fl; unfold F, G, p, atoks, fname; destruct (is_enum_ty (fl_ty fl)); reflexivity).
    apply NoDup_app_intro.
    + apply (NoDup_base_derived (fun fl => [fname fl]) akey abadm (fun _ => True) a_field (fun fl f => f = fname fl) atoks sf).
      * rewrite flat_map_single. exact Hsf.
      * intros l1 y l2 z l3 E o -> Eo. rewrite E, map_app in Hsf. cbn [map] in Hsf. apply NoDup_remove_2 in Hsf.
        apply Hsf. apply in_or_app. right. rewrite map_app. apply in_or_app. right. left. symmetry. exact Eo.
      * intros a b _ _. apply akey_inj.
      * intros f t A _. apply akey_apart, A.
      * intros fl k Hfl [<- | []]. apply Hadm, Hfl.
      * intros fl _. unfold atoks. destruct (is_enum_ty (fl_ty fl)); repeat constructor; cbn [In]; intuition discriminate.
      * intros fl t _ _. exact I.
      * intros fl t Ht. unfold atoks in Ht. destruct (is_enum_ty (fl_ty fl)); [|contradiction].
        destruct Ht as [<- | [<- | [<- | []]]]; reflexivity.
    + apply nodup_str_NoDup. vm_compute. reflexivity.
    + intros l Hin Hl. destruct (lit_fresh l Hl) as [F1 F2]. apply in_flat_map in Hin. destruct Hin as [fl [Hfl [<- | Hin]]].
      * exact (F1 _ (Hadm fl Hfl) eq_refl).
      * apply in_map_iff in Hin. destruct Hin as [t [<- _]]. exact (F2 t eq_refl).
Qed.

End PyAttrs.
