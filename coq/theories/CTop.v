(* CTop.v — top-level statements about the C model: C03 and C06 (encode, decode), C07
   (containment, bounds, size constant), C05 (forward compatibility of the decoder). *)
From Coq Require Import ZArith List Bool Lia.
From BP Require Import Bits Schema Spec PyRt CMem CRt PyEncProofs PyEncTop Evolve CEncProofs CStoreProofs CWalk CEvolveProofs.
From BPGen Require Import GenC.
From BPGen Require GenPy.
Import ListNotations.
Open Scope Z_scope.

(* a schema tree the C back end can be given: a message, well-formed after sorting,
   expressible in the grammar *)
Definition c_schema (t : ty) : Prop :=
  is_msg t = true /\ wf (norm t) = true /\ cwf (norm t) = true.

Theorem c_encode_is_wire B E t v :
  B = E -> c_schema t -> has_ty (norm t) v = true ->
  c_encode_ty B E t (store E (norm t) v) = COk (wire t v).
Proof.
  intros HBE (Hm & Hw & Hc) Ht.
  destruct (store_ok_all E (norm t) v Hw Ht) as [Hs Hb].
  rewrite (c_encode_is_wire_abs B E t _ HBE Hm Hw Hc Hs). unfold wire. now rewrite Hb.
Qed.

(* interoperation with the Python encoder (C01): same bytes *)
Theorem c_encode_eq_py_encode t v :
  c_schema t -> has_ty (norm t) v = true ->
  exists bs, c_encode_ty LE LE t (store LE (norm t) v) = COk bs /\ py_encode t v = Ok bs.
Proof.
  intros Hs Ht. exists (wire t v). split.
  - apply c_encode_is_wire; auto.
  - destruct Hs as (Hm & Hw & _). apply py_encode_is_wire; assumption.
Qed.

Theorem c_encode_be_eq_le t v :
  c_schema t -> has_ty (norm t) v = true ->
  c_encode_ty BE BE t (store BE (norm t) v) = c_encode_ty LE LE t (store LE (norm t) v).
Proof. intros Hs Ht. rewrite !c_encode_is_wire by auto. reflexivity. Qed.

(* v1 and v2 agree on the low n bits of every leaf *)
Fixpoint low_eq (t : ty) (v1 v2 : val) : Prop :=
  match t with
  | TBool => (match v1 with VB b => b | _ => false end) = (match v2 with VB b => b | _ => false end)
  | TByte => zof v1 mod 2 ^ 8 = zof v2 mod 2 ^ 8
  | TUint n => zof v1 mod 2 ^ n = zof v2 mod 2 ^ n
  | TInt n => zof v1 mod 2 ^ n = zof v2 mod 2 ^ n
  | TEnum n _ => zof v1 mod 2 ^ n = zof v2 mod 2 ^ n
  | TAlias u => low_eq u v1 v2
  | TArr _ _ e => Forall2 (low_eq e) (vlist v1) (vlist v2)
  | TMsg _ fs =>
      (fix go (l : list (Z * ty)) : Prop :=
         match l with
         | [] => True
         | kf :: r => low_eq (snd kf) (vfield (fst kf) v1) (vfield (fst kf) v2) /\ go r
         end) fs
  end.

Lemma low_eq_enc_bits t : forall v1 v2, wf t = true -> low_eq t v1 v2 -> enc_bits t v1 = enc_bits t v2.
Proof.
  induction t as [| | n | n | n ms | t IH | x c e IH | x fs IH] using ty_ind'; intros v1 v2 Hw H.
  - cbn [low_eq enc_bits] in *. now rewrite H.
  - cbn [low_eq enc_bits] in *. apply bits_of_congr, H.
  - cbn [low_eq enc_bits wf] in *. apply bits_of_congr. now rewrite Z2Nat.id by lia.
  - cbn [low_eq enc_bits wf] in *. apply bits_of_congr. now rewrite Z2Nat.id by lia.
  - cbn [low_eq enc_bits wf] in *. rewrite !andb_true_iff in Hw. apply bits_of_congr. now rewrite Z2Nat.id by lia.
  - cbn [low_eq enc_bits wf] in *. apply IH; assumption.
  - cbn [low_eq enc_bits wf] in *. rewrite !andb_true_iff in Hw. destruct Hw as [_ Hwe]. f_equal.
    induction H as [|a b l1 l2 Hab _ IHl]; [reflexivity|]. cbn [flat_map]. rewrite IHl. f_equal. apply IH; assumption.
  - rewrite wf_msg in Hw. rewrite !andb_true_iff in Hw. destruct Hw as [_ Hwf].
    rewrite !enc_bits_msg. f_equal. cbn [low_eq] in H.
    induction fs as [|kf r IHr]; [reflexivity|].
    inversion IH as [|? ? Hk Hr]; subst. destruct H as [Hh Ht].
    cbn [fields_wf] in Hwf. rewrite !andb_true_iff in Hwf. destruct Hwf as [[[_ _] Hwk] Hwr].
    cbn [fields_bits]. f_equal; [apply Hk; assumption|apply IHr; assumption].
Qed.

(* Encode<Msg> on ARBITRARY storage contents: the bytes are the wire of the value read
   back from storage, which depends on the low n bits of each field only *)
Theorem c_encode_contained B E t o1 o2 :
  B = E -> c_schema t -> shape_ok (norm t) o1 -> shape_ok (norm t) o2 ->
  low_eq (norm t) (abs_val E (norm t) o1) (abs_val E (norm t) o2) ->
  c_encode_ty B E t o1 = COk (wire t (abs_val E (norm t) o1)) /\
  c_encode_ty B E t o2 = c_encode_ty B E t o1.
Proof.
  intros HBE (Hm & Hw & Hc) H1 H2 Hl.
  rewrite (c_encode_is_wire_abs B E t o1 HBE Hm Hw Hc H1), (c_encode_is_wire_abs B E t o2 HBE Hm Hw Hc H2).
  split; [reflexivity|]. unfold wire. now rewrite (low_eq_enc_bits _ _ _ Hw Hl).
Qed.

Theorem size_constant t : 0 <= nbits t -> ast_nbytes (nbits t) = nbytes t /\ nbytes t = (nbits t + 7) / 8.
Proof. intros H. unfold ast_nbytes, nbytes. split; [|reflexivity]. destruct (nbits t mod 8 =? 0) eqn:E; Z.div_mod_to_equations; lia. Qed.

Theorem wire_length_abs B E t o :
  B = E -> wf (norm t) = true -> cwf (norm t) = true -> shape_ok (norm t) o ->
  Z.of_nat (length (wire t (abs_val E (norm t) o))) = nbytes t.
Proof.
  intros HBE Hw Hc Hs. unfold wire.
  rewrite pack_length, (proj1 (cenc_ok_all B E HBE (norm t) o Hw Hc Hs)). unfold nbytes. now rewrite nbits_norm.
Qed.

(* instances in the exact form the props files state *)

Lemma c_encode_le t v : c_schema t -> has_ty (norm t) v = true ->
  c_encode_ty LE LE t (store LE (norm t) v) = COk (wire t v).
Proof. exact (c_encode_is_wire LE LE t v eq_refl). Qed.

Lemma c_encode_be t v : c_schema t -> has_ty (norm t) v = true ->
  c_encode_ty BE BE t (store BE (norm t) v) = COk (wire t v).
Proof. exact (c_encode_is_wire BE BE t v eq_refl). Qed.

Lemma c_no_oob_encode B E t o :
  B = E -> c_schema t -> shape_ok (norm t) o ->
  exists bs, c_encode_ty B E t o = COk bs /\ Z.of_nat (length bs) = nbytes t.
Proof.
  intros HBE Hs Ho. exists (wire t (abs_val E (norm t) o)).
  destruct Hs as (Hm & Hw & Hc). split.
  - exact (c_encode_is_wire_abs B E t o HBE Hm Hw Hc Ho).
  - exact (wire_length_abs B E t o HBE Hw Hc Ho).
Qed.

Lemma be_paths_off : fast_paths BE = false /\ forall a b c, batch_pred BE a b c = false.
Proof. split; [reflexivity|intros; reflexivity]. Qed.

Lemma c_decode_le t v : c_schema t -> has_ty (norm t) v = true ->
  c_decode_ty LE LE t (wire t v) = COk (store LE (norm t) v).
Proof. intros (Hm & Hw & Hc) Ht. exact (c_decode_wire LE LE t v eq_refl Hm Hw Hc Ht). Qed.

Lemma c_decode_be t v : c_schema t -> has_ty (norm t) v = true ->
  c_decode_ty BE BE t (wire t v) = COk (store BE (norm t) v).
Proof. intros (Hm & Hw & Hc) Ht. exact (c_decode_wire BE BE t v eq_refl Hm Hw Hc Ht). Qed.

Lemma c_decode_of_py_encode t v : c_schema t -> has_ty (norm t) v = true ->
  exists bs, py_encode t v = Ok bs /\ c_decode_ty LE LE t bs = COk (store LE (norm t) v).
Proof.
  intros Hs Ht. exists (wire t v). split.
  - destruct Hs as (Hm & Hw & _). apply py_encode_is_wire; assumption.
  - apply c_decode_le; assumption.
Qed.

Lemma c_roundtrip B E t v : B = E -> c_schema t -> has_ty (norm t) v = true ->
  exists bs, c_encode_ty B E t (store E (norm t) v) = COk bs /\
             c_decode_ty B E t bs = COk (store E (norm t) v).
Proof.
  intros HBE Hs Ht. exists (wire t v). split; [apply c_encode_is_wire; assumption|].
  destruct Hs as (Hm & Hw & Hc). apply c_decode_wire; assumption.
Qed.

(* no out-of-bounds access while decoding a buffer produced by the same schema: the stream
   buffer is exactly BYTES_LENGTH bytes, every field object exactly sizeof bytes *)
Lemma c_no_oob_decode B E t v : B = E -> c_schema t -> has_ty (norm t) v = true ->
  Z.of_nat (length (wire t v)) = nbytes t /\
  exists o, c_decode_ty B E t (wire t v) = COk o.
Proof.
  intros HBE (Hm & Hw & Hc) Ht. split.
  - rewrite (wire_length t v Hw Ht). reflexivity.
  - exists (store E (norm t) v). apply c_decode_wire; assumption.
Qed.

Lemma c_forward_compat B E t1 t2 v2 :
  B = E -> c_schema t1 -> c_schema t2 -> evolvesb (norm t1) (norm t2) = true -> has_ty (norm t2) v2 = true ->
  c_decode_ty B E t1 (wire t2 v2) = COk (store E (norm t1) (proj (norm t1) v2)).
Proof.
  intros HBE (Hm & Hw1 & Hc1) (_ & Hw2 & _) He Ht.
  exact (c_forward_compat_gen B E t1 t2 v2 HBE Hm Hw1 Hc1 Hw2 He Ht).
Qed.

(* the skip formulas translated from bitproto.c are the Python ones wherever a decoder can be *)
Lemma c_formulas :
  (forall i ahead, ms_ito i ahead = GenPy.message_ito i ahead) /\
  (forall i ahead cap ci, 0 < cap -> i + 16 <= ci ->
     ar_ito i ahead ci cap = GenPy.array_ito i ahead cap ci) /\
  (forall ito ci, ms_ito_taken ito ci = GenPy.ito_taken ito ci) /\
  (forall ito ci, ar_ito_taken ito ci = GenPy.ito_taken ito ci).
Proof.
  repeat split; try reflexivity.
  intros i ahead cap ci Hc Hi. unfold ar_ito, GenPy.array_ito.
  rewrite Z.quot_div_nonneg by lia. reflexivity.
Qed.
