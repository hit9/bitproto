(* JsonText.v — facts about the printed text itself:
     * the decimal printer is injective (read_dec is a left inverse), so equal texts mean
       equal numbers;
     * the recogniser [wf_json] of JsonWf.v (RFC 8259 grammar restricted to what can occur:
       no white space, integers, true/false, arrays, objects whose keys are strings without
       escapes) accepts [print_compact j] for every tree whose keys are plain. *)
From Coq Require Import ZArith List Bool String Ascii Lia.
From BP Require Import ListFacts Schema Json JsonWf JsonProofs.
Import ListNotations.
Open Scope string_scope.
Open Scope Z_scope.

Definition is_dig (d : Z) : Prop := 0 <= d <= 9.

Definition eval_lsb (l : list Z) : Z := fold_right (fun d acc => d + 10 * acc) 0 l.

Lemma digits_fuel_lsd : forall fuel n, 0 <= n -> digits_fuel fuel n = Bits.lsd fuel 10 n.
Proof.
  induction fuel as [|f IH]; intros n Hn; cbn [digits_fuel Bits.lsd]; [reflexivity|].
  pose proof (Z.div_mod n 10 ltac:(lia)). pose proof (Z.mod_pos_bound n 10 ltac:(lia)).
  destruct (Z.ltb_spec n 10) as [Hlt|Hge].
  - rewrite Z.mod_small, Z.div_small by lia. reflexivity.
  - destruct (Z.eqb_spec (n / 10) 0); [lia|]. rewrite IH by (apply Z.div_pos; lia). reflexivity.
Qed.

Lemma digits_lsd : forall n, 0 <= n -> digits n = Bits.lsd (S (Z.to_nat (Z.log2 n))) 10 n.
Proof. intros n H. apply digits_fuel_lsd, H. Qed.

Lemma digits_spec : forall n, 0 <= n -> eval_lsb (digits n) = n /\ Forall is_dig (digits n).
Proof.
  intros n H. rewrite digits_lsd by exact H. split.
  - apply (Bits.lsd_value _ 10 n); [lia|]. split; [exact H | apply Bits.log2_fuel, H].
  - apply (Forall_impl _ (P := fun d => 0 <= d < 10)); [unfold is_dig; lia | apply Bits.lsd_range; lia].
Qed.

Lemma digits_shape : forall n, 0 <= n ->
  exists d tl, rev (digits n) = d :: tl /\ is_dig d /\ Forall is_dig tl /\ (d = 0 -> tl = [] /\ n = 0).
Proof.
  intros n H. destruct (Z.eq_dec n 0) as [->|N].
  - exists 0, []. split; [reflexivity|]. split; [unfold is_dig; lia|]. split; [constructor | split; reflexivity].
  - pose proof (proj2 (digits_spec n H)) as F. rewrite digits_lsd in * by exact H.
    destruct (Bits.lsd_last (S (Z.to_nat (Z.log2 n))) 10 n ltac:(lia)
                ltac:(split; [lia | apply Bits.log2_fuel, H])) as (ds & d & E & Hd).
    rewrite E in *. apply Forall_app in F as [F _]. rewrite rev_app_distr. exists d, (rev ds).
    split; [reflexivity|]. split; [unfold is_dig; lia|]. split; [apply Forall_rev, F | lia].
Qed.

Definition digit_val (c : ascii) : Z := Z.of_nat (nat_of_ascii c) - 48.

(* the ten digit characters, once *)
Lemma digit_char_facts : forall d, is_dig d ->
  digit_val (digit_char d) = d /\ is_digit (digit_char d) = true /\
  (digit_char d =? "-")%char = false /\ (digit_char d =? "0")%char = (d =? 0).
Proof.
  intros d H. assert (I : In d [0; 1; 2; 3; 4; 5; 6; 7; 8; 9]) by (unfold is_dig in H; cbn [In]; lia).
  clear H. revert d I. apply Forall_forall. repeat constructor.
Qed.

Lemma digit_val_char : forall d, is_dig d -> digit_val (digit_char d) = d.
Proof. intros d H. apply (digit_char_facts d H). Qed.

Lemma is_digit_char : forall d, is_dig d -> is_digit (digit_char d) = true.
Proof. intros d H. apply (digit_char_facts d H). Qed.

Lemma digit_char_not_minus : forall d, is_dig d -> (digit_char d =? "-")%char = false.
Proof. intros d H. apply (digit_char_facts d H). Qed.

Lemma digit_char_zero : forall d, is_dig d -> (digit_char d =? "0")%char = (d =? 0).
Proof. intros d H. apply (digit_char_facts d H). Qed.

Definition read_nonneg (s : string) : Z :=
  eval_lsb (rev (map digit_val (list_ascii_of_string s))).

Definition read_dec (s : string) : Z :=
  match s with
  | EmptyString => 0
  | String c r => if (c =? "-")%char then - read_nonneg r else read_nonneg s
  end.

Lemma chars_of_digits : forall l, Forall is_dig l ->
  map digit_val (list_ascii_of_string (string_of_digits_msb l)) = l.
Proof.
  intros l H. induction H as [|d r Hd Hr IH]; [reflexivity|].
  cbn [string_of_digits_msb list_ascii_of_string map]. now rewrite digit_val_char, IH.
Qed.

Lemma read_nonneg_dec : forall n, 0 <= n -> read_nonneg (dec_nonneg n) = n.
Proof.
  intros n H. unfold read_nonneg, dec_nonneg. destruct (digits_spec n H) as [E F].
  rewrite chars_of_digits by (apply Forall_rev; exact F). now rewrite rev_involutive.
Qed.

Theorem read_dec_Z : forall z, read_dec (dec_Z z) = z.
Proof.
  intros z. unfold dec_Z. destruct (Z.ltb_spec z 0) as [Hn|Hp].
  - cbn [read_dec]. change ("-" =? "-")%char with true. cbn iota. rewrite read_nonneg_dec by lia. lia.
  - destruct (digits_shape z Hp) as [d [tl [E [Hd _]]]].
    pose proof (read_nonneg_dec z Hp) as R. unfold dec_nonneg in *. rewrite E in *.
    cbn [string_of_digits_msb read_dec] in *. now rewrite digit_char_not_minus.
Qed.

Theorem dec_Z_inj : forall a b, dec_Z a = dec_Z b -> a = b.
Proof. intros a b H. rewrite <- (read_dec_Z a), <- (read_dec_Z b). now rewrite H. Qed.

Lemma strip_app : forall p r, strip p (p ++ r) = Some r.
Proof.
  induction p as [|a p IH]; intros r; [reflexivity|].
  cbn [append strip]. now rewrite Ascii.eqb_refl.
Qed.

Definition head_ok (rest : string) : Prop :=
  match rest with EmptyString => True | String c _ => is_digit c = false end.

Lemma safe_not_quote : forall c, safe_char c = true -> (c =? """")%char = false.
Proof.
  intros c H. destruct (Ascii.eqb_spec c """"%char) as [->|_]; [|reflexivity].
  vm_compute in H. discriminate.
Qed.

Lemma skip_string_body_safe : forall k tail, safe_string k = true ->
  skip_string_body (k ++ String """" tail) = Some tail.
Proof.
  induction k as [|c k IH]; intros tail H.
  - reflexivity.
  - cbn [safe_string] in H. apply andb_prop in H. destruct H as [Hc Hk].
    cbn [append skip_string_body]. rewrite (safe_not_quote c Hc), Hc. exact (IH tail Hk).
Qed.

Lemma skip_digits_rest : forall rest, head_ok rest -> skip_digits rest = rest.
Proof. intros [|c r] H; [reflexivity|]. cbn in *. now rewrite H. Qed.

Lemma skip_digits_app : forall l rest, Forall is_dig l -> head_ok rest ->
  skip_digits (string_of_digits_msb l ++ rest) = rest.
Proof.
  intros l rest H Hr. induction H as [|d r Hd Hl IH]; [now apply skip_digits_rest|].
  cbn [string_of_digits_msb append skip_digits]. now rewrite is_digit_char.
Qed.

Lemma skip_int_dec : forall n rest, 0 <= n -> head_ok rest ->
  skip_int (dec_nonneg n ++ rest) = Some rest.
Proof.
  intros n rest Hn Hr. unfold dec_nonneg. destruct (digits_shape n Hn) as [d [tl [E [Hd [Htl Hz]]]]].
  rewrite E. cbn [string_of_digits_msb append skip_int]. rewrite (digit_char_zero d Hd).
  destruct (Z.eqb_spec d 0) as [D|D].
  - destruct (Hz D) as [-> _]. reflexivity.
  - rewrite (is_digit_char d Hd). now rewrite skip_digits_app.
Qed.

Definition num_head (c : ascii) : bool := is_digit c || (c =? "-")%char.

Lemma dec_Z_head : forall z rest, exists c r, dec_Z z ++ rest = String c r /\ num_head c = true.
Proof.
  intros z rest. unfold dec_Z. destruct (Z.ltb_spec z 0) as [Hn|Hp].
  - eexists _, _. split; [reflexivity|]. reflexivity.
  - unfold dec_nonneg. destruct (digits_shape z Hp) as [d [tl [E [Hd _]]]]. rewrite E.
    eexists _, _. split; [reflexivity|]. unfold num_head. now rewrite is_digit_char.
Qed.

Lemma skip_number_dec : forall z rest, head_ok rest -> skip_number (dec_Z z ++ rest) = Some rest.
Proof.
  intros z rest Hr. unfold dec_Z. destruct (Z.ltb_spec z 0) as [Hn|Hp].
  - cbn [append skip_number]. change ("-" =? "-")%char with true. cbn iota. apply skip_int_dec; [lia | exact Hr].
  - pose proof (skip_int_dec z rest Hp Hr) as S. unfold dec_nonneg in *.
    destruct (digits_shape z Hp) as [d [tl [E [Hd _]]]]. rewrite E in *.
    cbn [string_of_digits_msb append skip_number] in *. now rewrite digit_char_not_minus.
Qed.

Lemma num_head_dispatch : forall c r, num_head c = true ->
  (c =? "[")%char = false /\ (c =? "{")%char = false /\
  strip "true" (String c r) = None /\ strip "false" (String c r) = None /\ strip "]" (String c r) = None.
Proof.
  intros c r H. repeat split.
  - destruct (Ascii.eqb_spec c "["%char) as [->|_]; [vm_compute in H; discriminate | reflexivity].
  - destruct (Ascii.eqb_spec c "{"%char) as [->|_]; [vm_compute in H; discriminate | reflexivity].
  - cbn [strip]. destruct (Ascii.eqb_spec "t"%char c) as [<-|_]; [vm_compute in H; discriminate | reflexivity].
  - cbn [strip]. destruct (Ascii.eqb_spec "f"%char c) as [<-|_]; [vm_compute in H; discriminate | reflexivity].
  - cbn [strip]. destruct (Ascii.eqb_spec "]"%char c) as [<-|_]; [vm_compute in H; discriminate | reflexivity].
Qed.

Fixpoint keys_safe (j : jtree) : bool :=
  match j with
  | JList l => forallb keys_safe l
  | JObj fs => forallb (fun kv => safe_string (fst kv) && keys_safe (snd kv)) fs
  | _ => true
  end.

Lemma print_not_close : forall j rest, strip "]" (print_compact j ++ rest) = None.
Proof.
  intros [z|b|l|fs] rest; try reflexivity.
  - destruct (dec_Z_head z rest) as [c [r [E H]]]. unfold print_compact. cbn [print_sep]. rewrite E.
    apply (num_head_dispatch c r H).
  - destruct b; reflexivity.
Qed.

Definition accepts (x : jtree) : Prop :=
  keys_safe x = true -> forall fuel rest, (String.length (print_compact x) <= fuel)%nat -> head_ok rest ->
  skip_value fuel (print_compact x ++ rest) = Some rest.

(* The two loops of the recogniser, seen from the printer: after a printed item a comma continues
   the loop and the closing bracket ends it.  Fuel is measured against the length of the text: an item
   costs one unit and is followed by a separator. *)
Section SepLoop.
  Variables (A : Type) (loop : nat -> string -> option string) (cl : ascii).
  Variables (txt : A -> string) (ok : A -> Prop) (ks : A -> bool).
  Hypothesis step : forall x f r, ok x -> ks x = true -> (String.length (txt x) <= f)%nat ->
    loop (S f) (txt x ++ String "," r) = loop f r /\ loop (S f) (txt x ++ String cl r) = Some r.

  Lemma sep_loop : forall l, (forall x, In x l -> ok x) -> forallb ks l = true -> l <> [] -> forall fuel rest,
    (String.length (join "," (map txt l)) < fuel)%nat ->
    loop fuel (join "," (map txt l) ++ String cl rest) = Some rest.
  Proof.
    induction l as [|x r IH]; intros Hok Hk Hne fuel rest Hf; [congruence|].
    pose proof (Hok x (or_introl eq_refl)) as Hx. cbn [forallb] in Hk. apply andb_prop in Hk. destruct Hk as [Hkx Hkr].
    destruct fuel as [|f]; [lia|].
    cbn [map join] in Hf |- *. destruct r as [|y r'].
    - apply (step x f rest Hx Hkx). cbn [map] in Hf. lia.
    - set (J := join "," (map txt (y :: r'))) in *.
      change (match map txt (y :: r') with [] => txt x | _ => txt x ++ "," ++ J end) with (txt x ++ "," ++ J) in Hf |- *.
      rewrite !length_append in Hf. cbn [String.length] in Hf.
      rewrite !sapp_assoc. change ("," ++ J ++ String cl rest) with (String "," (J ++ String cl rest)).
      rewrite (proj1 (step x f _ Hx Hkx ltac:(lia))).
      apply IH; [intros z Hz; apply Hok; right; exact Hz | exact Hkr | discriminate | lia].
  Qed.
End SepLoop.

Lemma elem_step : forall x f r, accepts x -> keys_safe x = true -> (String.length (print_compact x) <= f)%nat ->
  skip_elems (S f) (print_compact x ++ String "," r) = skip_elems f r /\
  skip_elems (S f) (print_compact x ++ String "]" r) = Some r.
Proof. intros x f r Hx Hk Hf. cbn [skip_elems]. split; rewrite (Hx Hk f) by (exact Hf || exact eq_refl); reflexivity. Qed.

Lemma member_step : forall kv f r, accepts (snd kv) -> safe_string (fst kv) && keys_safe (snd kv) = true ->
  (String.length (piece_text kv) <= f)%nat ->
  skip_members (S f) (piece_text kv ++ String "," r) = skip_members f r /\
  skip_members (S f) (piece_text kv ++ String "}" r) = Some r.
Proof.
  intros kv f r Hx Hk Hf. apply andb_prop in Hk. destruct Hk as [Hs Hk].
  unfold piece_text, quote in *. rewrite !length_append in Hf.
  cbn [append skip_members]. change ("""" =? """")%char with true. cbn iota.
  rewrite !sapp_assoc. cbn [append]. rewrite !skip_string_body_safe by exact Hs.
  change (":" =? ":")%char with true. cbn iota. split; rewrite (Hx Hk f) by (lia || exact eq_refl); reflexivity.
Qed.

Theorem skip_value_print : forall j, accepts j.
Proof.
  induction j as [z|b|l IH|fs IH] using jtree_ind'; intros Hk fuel rest Hf Hr.
  - (* number *)
    unfold print_compact in *. cbn [print_sep] in *.
    destruct fuel as [|f];
      [destruct (dec_Z_head z "") as [c [r [E _]]]; rewrite append_nil_r in E; rewrite E in Hf; cbn in Hf; lia|].
    destruct (dec_Z_head z rest) as [c [r [E H]]].
    pose proof (skip_number_dec z rest Hr) as N. rewrite E in *.
    destruct (num_head_dispatch c r H) as [H1 [H2 [H3 [H4 _]]]].
    cbn [skip_value]. now rewrite H1, H2, H3, H4.
  - destruct fuel as [|f]; [destruct b; cbn in Hf; lia|]. destruct b; reflexivity.
  - (* list *)
    unfold print_compact in *. cbn [print_sep] in *. fold print_compact in *.
    cbn [append String.length] in Hf. rewrite length_append in Hf. cbn [String.length] in Hf.
    destruct fuel as [|f]; [lia|].
    cbn [append skip_value]. change ("[" =? "[")%char with true. cbn iota.
    rewrite sapp_assoc. cbn [append].
    destruct l as [|x l'].
    + reflexivity.
    + assert (S0 : strip "]" (join "," (map print_compact (x :: l')) ++ String "]" rest) = None).
      { cbn [map join]. destruct (map print_compact l'); [|rewrite sapp_assoc]; apply print_not_close. }
      rewrite S0.
      apply (sep_loop _ _ _ _ _ _ elem_step (x :: l') IH); [exact Hk | discriminate | lia].
  - (* object *)
    unfold print_compact in *. cbn [print_sep] in *. fold print_compact in *.
    change (fun kv : string * jtree => quote (fst kv) ++ ":" ++ print_compact (snd kv)) with piece_text in *.
    cbn [append String.length] in Hf. rewrite length_append in Hf. cbn [String.length] in Hf.
    destruct fuel as [|f]; [lia|].
    cbn [append skip_value]. change ("{" =? "[")%char with false. change ("{" =? "{")%char with true. cbn iota.
    rewrite sapp_assoc. cbn [append].
    destruct fs as [|x fs'].
    + reflexivity.
    + assert (S0 : strip "}" (join "," (map piece_text (x :: fs')) ++ String "}" rest) = None).
      { cbn [map join]. destruct (map piece_text fs'); unfold piece_text, quote; reflexivity. }
      rewrite S0.
      apply (sep_loop _ _ _ _ _ _ member_step (x :: fs') IH); [exact Hk | discriminate | lia].
Qed.

Theorem wf_json_print : forall j, keys_safe j = true -> wf_json (print_compact j) = true.
Proof.
  intros j H. unfold wf_json.
  rewrite <- (append_nil_r (print_compact j)) at 2.
  rewrite (skip_value_print j H); [reflexivity | lia | exact I].
Qed.

Fixpoint names_safe (t : nty) : bool :=
  match t with
  | NAlias u => names_safe u
  | NArr _ _ e => names_safe e
  | NMsg _ fs => forallb (fun f => safe_string (fname f) && names_safe (ftype f)) fs
  | _ => true
  end.

Lemma expected_keys_safe : forall t, names_safe t = true -> forall v, keys_safe (expected t v) = true.
Proof.
  induction t as [| |n|n|n ms|u IH|x cap e IH|x fs IH] using nty_ind'; intros Hn v; try reflexivity.
  - apply IH, Hn.
  - cbn [expected keys_safe]. apply forallb_forall. intros y Hy. apply in_map_iff in Hy.
    destruct Hy as [a [<- _]]. apply IH, Hn.
  - cbn [expected keys_safe names_safe] in *. rewrite (sorted_by _ _ fnum).
    apply forallb_forall. intros y Hy.
    apply in_map_iff in Hy. destruct Hy as [f [<- Hin]]. apply sorted_in in Hin. cbn [fst snd].
    pose proof (proj1 (forallb_forall _ _) Hn f Hin) as Hf. cbv beta in Hf.
    apply andb_prop in Hf. destruct Hf as [Hs Ht]. rewrite Hs. cbn [andb].
    exact (IH f Hin Ht _).
Qed.

(* identifiers of the bitproto language (a letter or underscore, then letters, digits,
   underscores) are plain *)
Definition ident_char (c : ascii) : bool :=
  let n := nat_of_ascii c in
  ((65 <=? n) && (n <=? 90) || (97 <=? n) && (n <=? 122) || (48 <=? n) && (n <=? 57) || (n =? 95))%nat.

Lemma ident_char_safe : forall c, ident_char c = true -> safe_char c = true.
Proof.
  apply ascii_sweep_impl. vm_compute. reflexivity.
Qed.

Fixpoint ident_string (s : string) : bool :=
  match s with EmptyString => true | String c r => ident_char c && ident_string r end.

Lemma ident_string_safe : forall s, ident_string s = true -> safe_string s = true.
Proof.
  induction s as [|c r IH]; [reflexivity|]. cbn. intros H. apply andb_prop in H. destruct H as [Hc Hr].
  now rewrite (ident_char_safe c Hc), IH.
Qed.

Theorem c_text_wf_json : forall t v,
  shape_ok t = true -> wf (erase t) = true -> has_ty (erase t) v = true ->
  (exists x fs, t = NMsg x fs) -> names_safe t = true ->
  exists s, c_text t (store t v) = Some s /\ wf_json s = true.
Proof.
  intros t v Hs Hw Hv Hm Hn. exists (print_compact (expected t v)). split.
  - now apply c_text_correct.
  - apply wf_json_print, expected_keys_safe, Hn.
Qed.

Theorem py_compact_wf_json : forall t v,
  no_proxy_names t = true -> names_distinct t = true ->
  has_ty (erase t) v = true -> names_safe t = true ->
  exists s, py_to_json "," ":" t v = POk s /\ wf_json s = true.
Proof.
  intros t v Hp Hd Hv Hn. exists (print_compact (expected t v)). split.
  - unfold py_to_json. now rewrite py_tree_correct.
  - apply wf_json_print, expected_keys_safe, Hn.
Qed.
