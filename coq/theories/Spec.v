(* Spec.v — THE SPECIFICATION of the bitproto wire format.
   Readable in minutes:
   - a message's fields appear in ascending field number ([norm] sorts them), no gap;
   - each scalar occupies exactly its declared width, least significant bit first;
     signed values as two's complement truncated to the width ([bits_of] on Z does that);
   - an extensible message is prefixed by its own bit size (INCLUDING the 16 prefix bits),
     an extensible array by its capacity, both as 16-bit numbers;
   - stream bit k lives in byte k/8 at bit position k mod 8 ([pack]); padding is zero. *)
From Coq Require Import ZArith List Bool.
From BP Require Import Bits Schema.
Import ListNotations.
Open Scope Z_scope.

Fixpoint enc_bits (t : ty) (v : val) : list bool :=
  match t with
  | TBool => [match v with VB b => b | _ => false end]
  | TByte => bits_of 8 (zof v)
  | TUint n => bits_of (Z.to_nat n) (zof v)
  | TInt n => bits_of (Z.to_nat n) (zof v)
  | TEnum n _ => bits_of (Z.to_nat n) (zof v)
  | TAlias t => enc_bits t v
  | TArr x cap e =>
      (if x then bits_of 16 (Z.of_nat cap) else []) ++
      flat_map (enc_bits e) (vlist v)
  | TMsg x fs =>
      (if x then bits_of 16 (nbits (TMsg x fs)) else []) ++
      (fix go (l : list (Z * ty)) : list bool :=
         match l with
         | [] => []
         | kf :: r => enc_bits (snd kf) (vfield (fst kf) v) ++ go r
         end) fs
  end.

Definition wire (t : ty) (v : val) : list Z := pack (enc_bits (norm t) v).

(* ---- the specification decoder: reads a value of type t from a bit list ---- *)

Definition sext (n : Z) (u : Z) : Z := if Z.testbit u (n - 1) then u - 2 ^ n else u.

(* dec_bits t bits = (value, remaining bits).  The 16-bit prefix of an extensible node is
   skipped, not read: this is the decoder of a schema's OWN encoding.  What a decoder for an
   OLDER schema finds, skipping by the prefix what it does not know, is RdSpec.rd. *)
Fixpoint dec_bits (t : ty) (bs : list bool) : val * list bool :=
  match t with
  | TBool => (VB (hd false bs), skipn 1 bs)
  | TByte => (VZ (Z_of_bits (firstn 8 bs)), skipn 8 bs)
  | TUint n => (VZ (Z_of_bits (firstn (Z.to_nat n) bs)), skipn (Z.to_nat n) bs)
  | TInt n => (VZ (sext n (Z_of_bits (firstn (Z.to_nat n) bs))), skipn (Z.to_nat n) bs)
  | TEnum n _ => (VZ (Z_of_bits (firstn (Z.to_nat n) bs)), skipn (Z.to_nat n) bs)
  | TAlias t => dec_bits t bs
  | TArr x cap e =>
      let body := if x then skipn 16 bs else bs in
      let fix go (k : nat) (b : list bool) : list val * list bool :=
        match k with
        | O => ([], b)
        | S k' => let (v, b1) := dec_bits e b in
                  let (vs, b2) := go k' b1 in (v :: vs, b2)
        end in
      let (vs, rest) := go cap body in
      (VL vs, rest)
  | TMsg x fs =>
      let body := if x then skipn 16 bs else bs in
      let (vs, rest) :=
        (fix go (l : list (Z * ty)) (b : list bool) : list (Z * val) * list bool :=
           match l with
           | [] => ([], b)
           | kf :: r => let (v, b1) := dec_bits (snd kf) b in
                        let (vs, b2) := go r b1 in ((fst kf, v) :: vs, b2)
           end) fs body in
      (VM vs, rest)
  end.
