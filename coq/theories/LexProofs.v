(* LexProofs.v — generic theorems about the tokenizer model (Lex.v), for EVERY input string and
   every word-character predicate [uw]:
     * the backtracking matcher is sound for a declarative semantics [dm] of the regexes
       (context-aware because of \b): every lexeme chosen for rule r is in L(r);
     * a rule whose regex [consumes] never yields an empty lexeme; a [no_nl] regex never yields a
       lexeme containing a newline; it does not match where its first character cannot start it, so the
       rule table may be consulted through [dispatch c] ([first_rule_dispatch]);
     * the token loop with fuel |s|+1 never runs out of fuel; the items it produces tile the
       input; positions and line numbers are what C08/C20 say (one induction over the loop,
       [lex_items_ind], which LexOrigin and LexActions use for their invariants too).
   The only facts about the generated tables that are used are boolean side conditions
   evaluated by vm_compute (rules_consume, rules_lines, ignore/literals without newline). *)
From Coq Require Import ZArith List Bool Lia.
From BP Require Import ListFacts TotalBase LexBase Lex LexCase.
From BPGen Require Import GenLexer.
Import ListNotations.

(* the character before the position after reading w *)
Fixpoint lastc (p : option N) (w : list N) : option N :=
  match w with [] => p | c :: r => lastc (Some c) r end.

Lemma lastc_app p a b : lastc p (a ++ b) = lastc (lastc p a) b.
Proof. revert p. induction a as [|x a IH]; intro p; cbn [lastc app]; [reflexivity|apply IH]. Qed.

Lemma count_nl_app a b : count_nl (a ++ b) = (count_nl a + count_nl b)%Z.
Proof. unfold count_nl. rewrite filter_app. apply zlen_app. Qed.
Lemma count_nl_nil : count_nl [] = 0%Z.
Proof. reflexivity. Qed.
Lemma count_nl_cons c l : count_nl (c :: l) = ((if N.eqb 10 c then 1 else 0) + count_nl l)%Z.
Proof. unfold count_nl. cbn [filter]. destruct (N.eqb 10 c); [rewrite zlen_cons|]; lia. Qed.
Lemma count_nl_cons_non c l : c <> NL -> count_nl (c :: l) = count_nl l.
Proof.
  intro H. rewrite count_nl_cons. destruct (N.eqb_spec 10 c) as [K|K]; [|lia].
  exfalso. apply H. unfold NL. symmetry. exact K.
Qed.
Lemma count_nl_none w : ~ In NL w -> count_nl w = 0%Z.
Proof.
  induction w as [|c w IH]; intro H; [reflexivity|]. rewrite count_nl_cons.
  destruct (N.eqb_spec 10 c) as [E|E].
  - exfalso. apply H. left. unfold NL. symmetry. exact E.
  - rewrite IH; [reflexivity|]. intro K. apply H. right. exact K.
Qed.

Lemma firstn_app_exact {A} (w r : list A) : firstn (length (w ++ r) - length r) (w ++ r) = w.
Proof.
  rewrite app_length. replace (length w + length r - length r)%nat with (length w) by lia.
  apply firstn_app_l.
Qed.

Section Sound.
Variable uw : N -> bool.

(* dm r p w post: w is matched by r when the character before is p and the input goes on with post *)
Inductive dm : rx -> option N -> list N -> list N -> Prop :=
| DEps p post : dm XEps p [] post
| DAtom r c p post : is_atom r = true -> atom_ok r c = true -> dm r p [c] post
| DBound p post : boundary uw (p, post) = true -> dm XBound p [] post
| DSeq a b p w1 w2 post :
    dm a p w1 (w2 ++ post) -> dm b (lastc p w1) w2 post -> dm (XSeq a b) p (w1 ++ w2) post
| DAltL a b p w post : dm a p w post -> dm (XAlt a b) p w post
| DAltR a b p w post : dm b p w post -> dm (XAlt a b) p w post
| DStar0 g a p post : dm (XStar g a) p [] post
| DStarS g a p w1 w2 post :
    dm a p w1 (w2 ++ post) -> dm (XStar g a) (lastc p w1) w2 post -> dm (XStar g a) p (w1 ++ w2) post.

Definition good (r : rx) (s s' : mstate) : Prop :=
  exists w, snd s = w ++ snd s' /\ fst s' = lastc (fst s) w /\ dm r (fst s) w (snd s').

Lemma good_atom r s s' :
  is_atom r = true -> In s' (step1 (atom_ok r) s) -> good r s s'.
Proof.
  intros Hat Hin. destruct s as [p l]. unfold step1 in Hin. cbn [snd] in Hin.
  destruct l as [|c t]; [contradiction|].
  destruct (atom_ok r c) eqn:E; [|contradiction].
  destruct Hin as [<-|[]]. exists [c]. cbn [fst snd lastc app]. repeat split.
  constructor; assumption.
Qed.

Lemma star_sound (a : rx) (g : bool) (body : mstate -> list mstate) :
  (forall s s', In s' (body s) -> good a s s') ->
  forall fuel s s', In s' (star_loop body g fuel s) -> good (XStar g a) s s'.
Proof.
  intros Hb. induction fuel as [|f IH]; intros s s' Hin.
  - destruct Hin as [<-|[]]. exists []. cbn [app lastc]. repeat split. constructor.
  - cbn [star_loop] in Hin.
    assert (Hcases : s' = s \/ In s' (flat_map (star_loop body g f) (body s))).
    { destruct g.
      - apply in_app_or in Hin. destruct Hin as [H|[H|[]]]; [right; exact H|left; symmetry; exact H].
      - destruct Hin as [H|H]; [left; symmetry; exact H|right; exact H]. }
    destruct Hcases as [->|Hm].
    + exists []. cbn [app lastc]. repeat split. constructor.
    + apply in_flat_map in Hm. destruct Hm as (s1 & H1 & H2).
      apply Hb in H1. apply IH in H2.
      destruct H1 as (w1 & E1 & L1 & D1). destruct H2 as (w2 & E2 & L2 & D2).
      exists (w1 ++ w2). rewrite E1, E2, app_assoc. split; [reflexivity|]. split.
      * rewrite L2, L1, lastc_app. reflexivity.
      * rewrite E2 in D1. rewrite L1 in D2. econstructor; eassumption.
Qed.

Lemma mres_sound fuel r : forall s s', In s' (mres uw fuel r s) -> good r s s'.
Proof.
  induction r as [| c | c | | ng it | | a IHa b IHb | a IHa b IHb | g a IHa]; intros s s' Hin; cbn [mres] in Hin.
  - destruct Hin as [<-|[]]. exists []. cbn [app lastc]. repeat split. constructor.
  - apply good_atom; [reflexivity|exact Hin].
  - apply good_atom; [reflexivity|exact Hin].
  - apply good_atom; [reflexivity|exact Hin].
  - apply good_atom; [reflexivity|exact Hin].
  - destruct (boundary uw s) eqn:B; [|contradiction]. destruct Hin as [<-|[]].
    exists []. cbn [app lastc]. repeat split. constructor. destruct s; exact B.
  - apply in_flat_map in Hin. destruct Hin as (s1 & H1 & H2).
    apply IHa in H1. apply IHb in H2.
    destruct H1 as (w1 & E1 & L1 & D1). destruct H2 as (w2 & E2 & L2 & D2).
    exists (w1 ++ w2). rewrite E1, E2, app_assoc. split; [reflexivity|]. split.
    + rewrite L2, L1, lastc_app. reflexivity.
    + rewrite E2 in D1. rewrite L1 in D2. econstructor; eassumption.
  - apply in_app_or in Hin. destruct Hin as [H|H].
    + apply IHa in H. destruct H as (w & E & L & D). exists w. repeat split; try assumption. apply DAltL. exact D.
    + apply IHb in H. destruct H as (w & E & L & D). exists w. repeat split; try assumption. apply DAltR. exact D.
  - eapply star_sound; [|exact Hin]. exact IHa.
Qed.

Lemma dm_consumes r p w post : dm r p w post -> consumes r = true -> w <> [].
Proof.
  induction 1 as [| r c p post Hat Hok | | a b p w1 w2 post _ IH1 _ IH2 | a b p w post _ IH | a b p w post _ IH
                  | | g a p w1 w2 post _ IH1 _ IH2]; cbn [consumes]; intro Hc.
  - discriminate Hc.
  - intro E. discriminate E.
  - discriminate Hc.
  - apply orb_true_iff in Hc. intro E. apply app_eq_nil in E. destruct E as [E1 E2].
    destruct Hc as [Hc|Hc]; [apply (IH1 Hc E1)|apply (IH2 Hc E2)].
  - apply andb_true_iff in Hc. apply IH. apply Hc.
  - apply andb_true_iff in Hc. apply IH. apply Hc.
  - discriminate Hc.
  - discriminate Hc.
Qed.

Lemma atom_no_nl r : is_atom r = true -> no_nl r = negb (atom_ok r NL).
Proof. destruct r; try discriminate; reflexivity. Qed.

Lemma dm_no_nl r p w post : dm r p w post -> no_nl r = true -> ~ In NL w.
Proof.
  induction 1 as [| r c p post Hat Hok | | a b p w1 w2 post _ IH1 _ IH2 | a b p w post _ IH | a b p w post _ IH
                  | | g a p w1 w2 post _ IH1 _ IH2]; intro Hn.
  - intros [].
  - rewrite (atom_no_nl r Hat) in Hn. intros [E|[]]. subst c. rewrite Hok in Hn. discriminate.
  - intros [].
  - cbn [no_nl] in Hn. apply andb_true_iff in Hn. intro K. apply in_app_or in K.
    destruct K as [K|K]; [apply (IH1 (proj1 Hn) K)|apply (IH2 (proj2 Hn) K)].
  - cbn [no_nl] in Hn. apply andb_true_iff in Hn. apply IH. apply Hn.
  - cbn [no_nl] in Hn. apply andb_true_iff in Hn. apply IH. apply Hn.
  - intros [].
  - cbn [no_nl] in Hn. intro K. apply in_app_or in K.
    destruct K as [K|K]; [apply (IH1 Hn K)|apply (IH2 Hn K)].
Qed.

Fixpoint nrange (lo : N) (n : nat) : list N :=
  match n with O => [] | S k => lo :: nrange (N.succ lo) k end.
Definition range_list (lo hi : N) : list N := nrange lo (N.to_nat (hi + 1 - lo)).

Lemma nrange_in c : forall n lo, (lo <= c < lo + N.of_nat n)%N -> In c (nrange lo n).
Proof.
  induction n as [|n IH]; intros lo H; [lia|]. cbn [nrange].
  destruct (N.eq_dec lo c) as [E|E]; [left; exact E|right]. apply IH. lia.
Qed.

Fixpoint atoms_sat (P : N -> bool) (r : rx) : bool :=
  match r with
  | XEps | XBound => true
  | XChar c => P c
  | XIn false items => forallb (fun it => forallb P (range_list (fst it) (snd it))) items
  | XNotChar _ | XAny | XIn true _ => false
  | XSeq a b | XAlt a b => atoms_sat P a && atoms_sat P b
  | XStar _ a => atoms_sat P a
  end.

Lemma atoms_sat_atom P r c : is_atom r = true -> atoms_sat P r = true -> atom_ok r c = true -> P c = true.
Proof.
  destruct r as [| k | k | | ng it | | | |]; try discriminate; intros _ Hs Hok; cbn [atoms_sat atom_ok] in *.
  - apply N.eqb_eq in Hok. subst. exact Hs.
  - destruct ng; [discriminate|]. cbn [xorb] in Hok. unfold in_ranges in Hok.
    destruct (existsb (fun r : N * N => (fst r <=? c)%N && (c <=? snd r)%N) it) eqn:Hex; [|discriminate].
    clear Hok. rename Hex into Hok.
    apply existsb_exists in Hok. destruct Hok as (rg & Hin & Hrg).
    rewrite forallb_forall in Hs. specialize (Hs rg Hin). rewrite forallb_forall in Hs. apply Hs.
    apply andb_true_iff in Hrg. destruct Hrg as [H1 H2]. apply N.leb_le in H1, H2.
    unfold range_list. apply nrange_in. lia.
Qed.

Lemma dm_atoms_sat P r p w post : dm r p w post -> atoms_sat P r = true -> forallb P w = true.
Proof.
  induction 1 as [| r c p post Hat Hok | | a b p w1 w2 post _ IH1 _ IH2 | a b p w post _ IH | a b p w post _ IH
                  | | g a p w1 w2 post _ IH1 _ IH2]; intro Hs; try reflexivity.
  - cbn [forallb]. rewrite (atoms_sat_atom P r c Hat Hs Hok). reflexivity.
  - cbn [atoms_sat] in Hs. apply andb_true_iff in Hs. rewrite forallb_app, IH1, IH2; [reflexivity|apply Hs|apply Hs].
  - cbn [atoms_sat] in Hs. apply andb_true_iff in Hs. apply IH. apply Hs.
  - cbn [atoms_sat] in Hs. apply andb_true_iff in Hs. apply IH. apply Hs.
  - cbn [atoms_sat] in Hs. rewrite forallb_app, IH1, IH2; [reflexivity|exact Hs|exact Hs].
Qed.

Lemma dm_seq_inv a b p w post :
  dm (XSeq a b) p w post -> exists w1 w2, w = w1 ++ w2 /\ dm a p w1 (w2 ++ post) /\ dm b (lastc p w1) w2 post.
Proof. intro H. inversion H; subst; try discriminate. eexists _, _. eauto. Qed.

Lemma dm_char_inv k p w post : dm (XChar k) p w post -> w = [k].
Proof.
  intro H. inversion H; subst. match goal with Hk : atom_ok _ _ = true |- _ => cbn [atom_ok] in Hk; apply N.eqb_eq in Hk; subst end.
  reflexivity.
Qed.

Lemma dm_bound_inv p w post : dm XBound p w post -> w = [] /\ boundary uw (p, post) = true.
Proof. intro H. inversion H; subst; try discriminate. auto. Qed.

Lemma dm_alt_inv a b p w post : dm (XAlt a b) p w post -> dm a p w post \/ dm b p w post.
Proof. intro H. inversion H; subst; try discriminate; auto. Qed.

Lemma dm_atom_inv r p w post : is_atom r = true -> dm r p w post -> exists c, w = [c] /\ atom_ok r c = true.
Proof. intros Hat H. inversion H; subst; try discriminate. eauto. Qed.

Lemma dm_star_ind g a (P : option N -> list N -> list N -> Prop) :
  (forall p post, P p [] post) ->
  (forall p w1 w2 post, dm a p w1 (w2 ++ post) -> dm (XStar g a) (lastc p w1) w2 post ->
                        P (lastc p w1) w2 post -> P p (w1 ++ w2) post) ->
  forall p w post, dm (XStar g a) p w post -> P p w post.
Proof.
  intros H0 HS p w post H. remember (XStar g a) as r eqn:Er.
  induction H as [| | | | | | g0 a0 p0 post0 | g0 a0 p0 w1 w2 post0 H1 _ H2 IH2]; try discriminate.
  - subst. discriminate.
  - apply H0.
  - inversion Er; subst g0 a0. apply HS; auto.
Qed.

Lemma boundary_before p c r : word_opt uw p = false -> is_word uw c = true -> boundary uw (p, c :: r) = true.
Proof. intros Hp Hc. unfold boundary. cbn [fst snd hd_error word_opt]. rewrite Hp, Hc. reflexivity. Qed.

Lemma boundary_after c post :
  is_word uw c = true -> word_opt uw (hd_error post) = false -> boundary uw (Some c, post) = true.
Proof. intros Hc Hq. unfold boundary. cbn [fst snd word_opt]. rewrite Hc, Hq. reflexivity. Qed.

Lemma first_rule_sound fuel rules s r s' :
  first_rule uw fuel rules s = Some (r, s') -> In r rules /\ good (r_rx r) s s'.
Proof.
  induction rules as [|r0 t IH]; cbn [first_rule]; [discriminate|].
  unfold rmatch. destruct (mres uw fuel (r_rx r0) s) as [|s1 l] eqn:E; cbn [hd_error].
  - intro H. apply IH in H. destruct H. split; [right|]; assumption.
  - intro H. inversion H; subst. split; [left; reflexivity|].
    apply (mres_sound fuel). rewrite E. left. reflexivity.
Qed.

(* First-character dispatch: [starts r c] = a non-empty match of r can begin with c.  A rule that consumes and
   cannot start with the character at the position does not match there, so the master regex may be
   consulted on the few rules [dispatch c] instead of the whole table. *)
Fixpoint starts (r : rx) (c : N) : bool :=
  match r with
  | XEps | XBound => false
  | XChar _ | XNotChar _ | XAny | XIn _ _ => atom_ok r c
  | XSeq a b => starts a c || (negb (consumes a) && starts b c)
  | XAlt a b => starts a c || starts b c
  | XStar _ a => starts a c
  end.

Lemma dm_starts r p w post : dm r p w post -> match w with [] => True | c :: _ => starts r c = true end.
Proof.
  induction 1 as [| r c p post Hat Hok | | a b p w1 w2 post H1 IH1 _ IH2 | a b p w post _ IH | a b p w post _ IH
                  | | g a p w1 w2 post _ IH1 _ IH2]; cbn [starts]; try exact I.
  - destruct r; try discriminate Hat; exact Hok.
  - destruct w1 as [|c w1]; cbn [app].
    + destruct w2 as [|c w2]; [exact I|]. destruct (consumes a) eqn:Ca.
      * exfalso. exact (dm_consumes _ _ _ _ H1 Ca eq_refl).
      * rewrite IH2. apply orb_true_r.
    + rewrite IH1. reflexivity.
  - destruct w; [exact I|]. rewrite IH. reflexivity.
  - destruct w; [exact I|]. rewrite IH. apply orb_true_r.
  - destruct w1 as [|c w1]; cbn [app]; [exact IH2|exact IH1].
Qed.

Lemma rmatch_starts fuel r p c s : consumes r = true -> starts r c = false -> rmatch uw fuel r (p, c :: s) = None.
Proof.
  intros Hc Hs. unfold rmatch. destruct (mres uw fuel r (p, c :: s)) as [|s' l] eqn:E; [reflexivity|].
  destruct (mres_sound fuel r (p, c :: s) s') as (w & Ew & _ & D); [rewrite E; left; reflexivity|].
  cbn [fst snd] in Ew, D. pose proof (dm_consumes _ _ _ _ D Hc) as Hw. pose proof (dm_starts _ _ _ _ D) as K.
  destruct w as [|c' w]; [contradiction|]. inversion Ew; subst c'. rewrite Hs in K. discriminate K.
Qed.

Lemma first_rule_filter fuel rules p c s :
  forallb (fun r => consumes (r_rx r)) rules = true ->
  first_rule uw fuel rules (p, c :: s)
  = first_rule uw fuel (filter (fun r => starts (r_rx r) c) rules) (p, c :: s).
Proof.
  induction rules as [|r t IH]; cbn [forallb first_rule filter]; [reflexivity|]. intro H.
  apply andb_true_iff in H. destruct H as [Hr Ht]. destruct (starts (r_rx r) c) eqn:Es.
  - cbn [first_rule]. rewrite (IH Ht). reflexivity.
  - rewrite (rmatch_starts fuel _ p c s Hr Es). exact (IH Ht).
Qed.

Definition is_single_nl (r : rx) : bool := match r with XChar c => N.eqb c NL | _ => false end.
Definition rule_line_ok (r : rule) : bool :=
  let inc := match r_act r with Some a => a_lineinc a | None => 0%Z end in
  if no_nl (r_rx r) then Z.eqb inc 0 else is_single_nl (r_rx r) && Z.eqb inc 1.

Lemma rules_consume : forallb (fun r => consumes (r_rx r)) lex_rules = true.
Proof. vm_compute. reflexivity. Qed.
Definition dispatch (c : N) : list rule := filter (fun r => starts (r_rx r) c) lex_rules.

Lemma first_rule_dispatch fuel p c s :
  first_rule uw fuel lex_rules (p, c :: s) = first_rule uw fuel (dispatch c) (p, c :: s).
Proof. apply first_rule_filter. exact rules_consume. Qed.

Lemma rules_wf : forallb (fun r => rx_wf (r_rx r)) lex_rules = true.
Proof. vm_compute. reflexivity. Qed.
Lemma rules_lines : forallb rule_line_ok lex_rules = true.
Proof. vm_compute. reflexivity. Qed.
Lemma ignore_no_nl : cp_mem NL lex_ignore = false.
Proof. vm_compute. reflexivity. Qed.
Lemma literals_no_nl : cp_mem NL lex_literals = false.
Proof. vm_compute. reflexivity. Qed.
Lemma initial_lineno : lexer_initial_lineno = 1%Z.
Proof. reflexivity. Qed.

Lemma run_action_line name act lx line ty v line' :
  run_action name act lx line = Ok (ty, v, line') ->
  line' = (line + match act with Some a => a_lineinc a | None => 0 end)%Z.
Proof.
  unfold run_action. destruct act as [a|].
  - destruct (run_conv (a_conv a) lx line); cbn [bind]; intro H; inversion H; reflexivity.
  - intro H. inversion H. lia.
Qed.

Lemma rule_lexeme_lines r p w post :
  In r lex_rules -> dm (r_rx r) p w post ->
  count_nl w = match r_act r with Some a => a_lineinc a | None => 0%Z end /\ (count_nl w = 0%Z \/ w = [NL]).
Proof.
  intros Hin Hd. pose proof rules_lines as HL. rewrite forallb_forall in HL. specialize (HL r Hin).
  unfold rule_line_ok in HL. destruct (no_nl (r_rx r)) eqn:Hn.
  - apply Z.eqb_eq in HL. rewrite HL. pose proof (count_nl_none w (dm_no_nl _ _ _ _ Hd Hn)) as C. rewrite C. auto.
  - apply andb_true_iff in HL. destruct HL as [H1 H2]. apply Z.eqb_eq in H2. rewrite H2.
    destruct (r_rx r) as [| c | | | | | | |]; try discriminate. cbn [is_single_nl] in H1. apply N.eqb_eq in H1. subst c.
    apply dm_char_inv in Hd. subst w. split; [reflexivity|right; reflexivity].
Qed.

Fixpoint pos_ok (pos : Z) (its : list item) : Prop :=
  match its with
  | [] => True
  | IIgn _ :: r => pos_ok (pos + 1)%Z r
  | ITok t lx :: r => t_pos t = pos /\ t_end t = (pos + zlen lx)%Z /\ lx <> [] /\ pos_ok (t_end t) r
  end.

Fixpoint line_ok (line : Z) (its : list item) : Prop :=
  match its with
  | [] => True
  | IIgn c :: r => c <> NL /\ cp_mem c lex_ignore = true /\ line_ok line r
  | ITok t lx :: r => t_line t = line /\ (count_nl lx = 0%Z \/ lx = [NL]) /\ line_ok (line + count_nl lx)%Z r
  end.

Definition items_text (its : list item) : list N := flat_map item_text its.

Definition end_ok (e : lexend) (rem : list N) (line : Z) : Prop :=
  match e with
  | LDone => rem = []
  | LError cls c l => cls = t_error_class /\ l = line /\ exists r, rem = c :: r /\ cp_mem c lex_ignore = false
                      /\ cp_mem c lex_literals = false
  | LActErr _ l => l = line /\ rem <> []
  | LCrash _ => rem <> []
  | LFuel => False
  end.

Lemma cp_mem_nl_false l c : cp_mem NL l = false -> cp_mem c l = true -> c <> NL.
Proof. intros H1 H2 E. subst. rewrite H1 in H2. discriminate. Qed.

(* One induction over the token loop serves every invariant: [P prev rest pos line result] is shown for
   each way an iteration can go, with the facts the iteration itself establishes (the rule's lexeme is in
   its language and non-empty, what [first_rule] answered and with which fuel) as hypotheses. *)
Lemma lex_items_ind (P : option N -> list N -> Z -> Z -> list item * lexend * list N -> Prop) :
  (forall p pos line, P p [] pos line ([], LDone, [])) ->
  (forall p c r pos line its e rem, cp_mem c lex_ignore = true ->
     P (Some c) r (pos + 1)%Z line (its, e, rem) -> P p (c :: r) pos line (IIgn c :: its, e, rem)) ->
  (forall p w post pos line r fuel,
     w <> [] -> cp_mem (hd 0%N w) lex_ignore = false -> In r lex_rules -> dm (r_rx r) p w post ->
     first_rule uw fuel lex_rules (p, w ++ post) = Some (r, (lastc p w, post)) ->
     (length (w ++ post) <= fuel)%nat ->
     match run_action (r_name r) (r_act r) w line with
     | Ok (ty, v, line') => forall its e rem,
         P (lastc p w) post (pos + zlen w)%Z line' (its, e, rem) ->
         P p (w ++ post) pos line (ITok (mkTok ty v line pos (pos + zlen w)%Z) w :: its, e, rem)
     | ParserError k => P p (w ++ post) pos line ([], LActErr k line, w ++ post)
     | Crash ex => P p (w ++ post) pos line ([], LCrash ex, w ++ post)
     end) ->
  (forall p c r pos line fuel its e rem, cp_mem c lex_ignore = false ->
     first_rule uw fuel lex_rules (p, c :: r) = None -> (length (c :: r) <= fuel)%nat ->
     cp_mem c lex_literals = true -> P (Some c) r (pos + 1)%Z line (its, e, rem) ->
     P p (c :: r) pos line (ITok (mkTok [c] (VText [c]) line pos (pos + 1)%Z) [c] :: its, e, rem)) ->
  (forall p c r pos line fuel, cp_mem c lex_ignore = false ->
     first_rule uw fuel lex_rules (p, c :: r) = None -> (length (c :: r) <= fuel)%nat ->
     cp_mem c lex_literals = false -> P p (c :: r) pos line ([], LError t_error_class c line, c :: r)) ->
  forall fuel p rest pos line, (length rest < fuel)%nat ->
  P p rest pos line (lex_items uw fuel p rest pos line).
Proof.
  intros Pnil Pign Prule Plit Perr.
  induction fuel as [|f IH]; intros p rest pos line Hlen; [lia|].
  cbn [lex_items]. destruct rest as [|c rest']; [apply Pnil|]. cbn [length] in Hlen.
  destruct (cp_mem c lex_ignore) eqn:Hig.
  - specialize (IH (Some c) rest' (pos + 1)%Z line ltac:(lia)).
    destruct (lex_items uw f (Some c) rest' (pos + 1)%Z line) as [[its e] rem]. apply Pign; assumption.
  - destruct (first_rule uw f lex_rules (p, c :: rest')) as [[r [p' rest'']]|] eqn:Efr.
    + destruct (first_rule_sound _ _ _ _ _ Efr) as [Hin (w & Ew & Lw & Dw)]. cbn [fst snd] in Ew, Lw, Dw.
      assert (Hw : w <> []).
      { eapply dm_consumes; [exact Dw|]. exact (proj1 (forallb_forall _ _) rules_consume r Hin). }
      subst p'. rewrite Ew in *. rewrite firstn_app_exact.
      replace (Z.of_nat (length (w ++ rest'') - length rest'')) with (zlen w)
        by (unfold zlen; rewrite app_length; lia).
      assert (Hl : (length (w ++ rest'') <= f)%nat) by (rewrite <- Ew; cbn [length]; lia).
      assert (Hc : cp_mem (hd 0%N w) lex_ignore = false)
        by (destruct w; [contradiction|]; cbn [app] in Ew; inversion Ew; subst; exact Hig).
      pose proof (Prule p w rest'' pos line r f Hw Hc Hin Dw Efr Hl) as HR.
      destruct (run_action (r_name r) (r_act r) w line) as [[[ty v] line']|k|ex]; try exact HR.
      assert (Hl2 : (length rest'' < f)%nat)
        by (rewrite app_length in Hl; destruct w; [contradiction|cbn [length] in Hl; lia]).
      specialize (IH (lastc p w) rest'' (pos + zlen w)%Z line' Hl2).
      destruct (lex_items uw f (lastc p w) rest'' (pos + zlen w)%Z line') as [[its e] rem]. exact (HR _ _ _ IH).
    + destruct (cp_mem c lex_literals) eqn:Hlit; [|apply (Perr p c rest' pos line f); try assumption; cbn [length]; lia].
      specialize (IH (Some c) rest' (pos + 1)%Z line ltac:(lia)).
      destruct (lex_items uw f (Some c) rest' (pos + 1)%Z line) as [[its e] rem].
      apply (Plit p c rest' pos line f); try assumption. cbn [length]. lia.
Qed.

Lemma count_nl_mem c l : cp_mem NL l = false -> cp_mem c l = true -> count_nl [c] = 0%Z.
Proof. intros H1 H2. apply count_nl_cons_non. eapply cp_mem_nl_false; eassumption. Qed.

Definition run_inv (rest : list N) (pos line : Z) (x : list item * lexend * list N) : Prop :=
  items_text (fst (fst x)) ++ snd x = rest /\ pos_ok pos (fst (fst x)) /\ line_ok line (fst (fst x))
  /\ end_ok (snd (fst x)) (snd x) (line + count_nl (items_text (fst (fst x))))%Z.

Lemma lex_items_inv : forall fuel prev rest pos line, (length rest < fuel)%nat ->
  run_inv rest pos line (lex_items uw fuel prev rest pos line).
Proof.
  apply (lex_items_ind (fun _ => run_inv)); unfold run_inv, items_text; cbn [fst snd flat_map item_text].
  - intros. cbn. auto.
  - intros p c r pos line its e rem Hig (T & P & L & E). cbn [app pos_ok line_ok].
    pose proof (cp_mem_nl_false _ _ ignore_no_nl Hig) as Hc. rewrite (count_nl_cons_non c _ Hc), <- T. auto 6.
  - intros p w post pos line r fuel Hw _ Hin Dw _ _.
    destruct (rule_lexeme_lines r p w post Hin Dw) as [Cw Sw].
    destruct (run_action (r_name r) (r_act r) w line) as [[[ty v] line']|k|ex] eqn:Eact.
    + apply run_action_line in Eact. intros its e rem (T & P & L & E).
      cbn [fst snd flat_map item_text pos_ok line_ok t_pos t_end t_line].
      rewrite <- app_assoc, T, count_nl_app, Z.add_assoc, Cw, <- Eact. rewrite Cw in Sw. repeat split; auto.
    + cbn. repeat split; [lia|]. destruct w; [contradiction|discriminate].
    + cbn. repeat split. destruct w; [contradiction|discriminate].
  - intros p c r pos line fuel its e rem _ _ _ Hlit (T & P & L & E).
    cbn [fst snd flat_map item_text app pos_ok line_ok t_pos t_end t_line].
    pose proof (count_nl_mem c _ literals_no_nl Hlit) as C1.
    change (c :: flat_map item_text its) with ([c] ++ flat_map item_text its).
    rewrite count_nl_app, C1, Z.add_0_r, T. cbn [app]. repeat split; auto; discriminate.
  - intros p c r pos line fuel Hig _ _ Hlit. cbn. repeat split; try lia. eauto.
Qed.

Lemma items_split_tok : forall a pos line t lx b,
  pos_ok pos (a ++ ITok t lx :: b) -> line_ok line (a ++ ITok t lx :: b) ->
  t_pos t = (pos + zlen (items_text a))%Z /\ t_line t = (line + count_nl (items_text a))%Z
  /\ t_end t = (t_pos t + zlen lx)%Z /\ lx <> [] /\ (count_nl lx = 0%Z \/ lx = [NL]).
Proof.
  unfold items_text. induction a as [|i a IH]; intros pos line t lx b HP HL.
  - cbn [app pos_ok line_ok flat_map] in *. destruct HP as (P1 & P2 & P3 & _). destruct HL as (L1 & L2 & _).
    replace (zlen (@nil N)) with 0%Z by reflexivity. rewrite count_nl_nil. repeat split; try assumption; lia.
  - destruct i as [c|t0 lx0]; cbn [app pos_ok line_ok flat_map item_text] in *.
    + destruct HL as (Hc & _ & HL). destruct (IH _ _ _ _ _ HP HL) as (A & B & C & D & E).
      change ([c] ++ flat_map item_text a) with (c :: flat_map item_text a).
      rewrite zlen_cons, (count_nl_cons_non c _ Hc). repeat split; try assumption; lia.
    + destruct HP as (P1 & P2 & P3 & HP). destruct HL as (L1 & L2 & HL).
      destruct (IH _ _ _ _ _ HP HL) as (A & B & C & D & E).
      rewrite zlen_app, count_nl_app. repeat split; try assumption; lia.
Qed.

Lemma tokens_of_in its t : In t (tokens_of its) -> exists a lx b, its = a ++ ITok t lx :: b.
Proof.
  unfold tokens_of. intro H. apply in_flat_map in H. destruct H as (i & Hi & Ht).
  destruct i as [c|t0 lx]; [contradiction|]. destruct Ht as [<-|[]].
  apply in_split in Hi. destruct Hi as (a & b & ->). eauto.
Qed.

Lemma prefix_app (x y : list N) : prefix (zlen x) (x ++ y) = x.
Proof.
  unfold prefix, zlen. rewrite Nat2Z.id. apply firstn_app_l.
Qed.

Lemma slice_app (x l y : list N) : slice (zlen x) (zlen x + zlen l) (x ++ l ++ y) = l.
Proof.
  unfold slice, zlen. replace (Z.of_nat (length x) + Z.of_nat (length l) - Z.of_nat (length x))%Z with (Z.of_nat (length l)) by lia.
  rewrite !Nat2Z.id, skipn_app_l. apply firstn_app_l.
Qed.

Theorem lex_run_inv s its e rem :
  lex_run uw s = (its, e, rem) ->
  items_text its ++ rem = s /\ pos_ok 0 its /\ line_ok 1 its /\ end_ok e rem (1 + count_nl (items_text its))%Z.
Proof.
  unfold lex_run. intro H. pose proof (lex_items_inv (S (length s)) None s 0%Z lexer_initial_lineno (Nat.lt_succ_diag_r _)) as I.
  rewrite H in I. exact I.
Qed.

(* C09: the loop terminates — fuel |s|+1 is never exhausted *)
Theorem lex_terminates s : snd (fst (lex_run uw s)) <> LFuel.
Proof.
  destruct (lex_run uw s) as [[its e] rem] eqn:E. cbn [fst snd]. apply lex_run_inv in E.
  destruct E as (_ & _ & _ & E). intro K. subst e. exact E.
Qed.

(* C08: tiling — items in order are exactly the input up to where the loop stopped *)
Theorem lex_tiling s its e rem : lex_run uw s = (its, e, rem) -> items_text its ++ rem = s /\ (e = LDone -> rem = []).
Proof.
  intro H. apply lex_run_inv in H. destruct H as (T & _ & _ & E). split; [exact T|]. intro K. subst e. exact E.
Qed.

(* C20/C08: position, line and extent of every token *)
Theorem lex_token_position s its e rem t :
  lex_run uw s = (its, e, rem) -> In t (tokens_of its) ->
  exists lx, lx <> [] /\ slice (t_pos t) (t_end t) s = lx
    /\ t_line t = (1 + count_nl (prefix (t_pos t) s))%Z
    /\ (count_nl lx = 0%Z \/ lx = [NL])
    /\ (0 <= t_pos t < t_end t)%Z /\ (t_end t <= zlen s)%Z.
Proof.
  intros H Hin. apply lex_run_inv in H. destruct H as (T & P & L & _).
  apply tokens_of_in in Hin. destruct Hin as (a & lx & b & ->).
  destruct (items_split_tok a 0%Z 1%Z t lx b P L) as (A & B & C & D & E).
  exists lx. unfold items_text in T. rewrite flat_map_app in T. cbn [flat_map item_text] in T.
  rewrite <- !app_assoc in T. fold (items_text a) in T.
  assert (Hp : t_pos t = zlen (items_text a)) by lia.
  split; [exact D|]. split.
  - rewrite C, Hp, <- T. apply slice_app.
  - split.
    + rewrite B, Hp, <- T. rewrite prefix_app. reflexivity.
    + split; [exact E|]. pose proof (zlen_nonneg (items_text a)). pose proof (zlen_nonneg lx).
      assert (zlen lx <> 0)%Z. { unfold zlen. destruct lx; [contradiction|cbn [length]; lia]. }
      split; [lia|]. rewrite <- T. rewrite !zlen_app. pose proof (zlen_nonneg (flat_map item_text b)). pose proof (zlen_nonneg rem). lia.
Qed.

(* C20: a LexerError cites the offending character and the line it is on *)
Theorem lex_error_position s its cls c l rem :
  lex_run uw s = (its, LError cls c l, rem) ->
  cls = t_error_class /\ (exists r, rem = c :: r) /\ s = items_text its ++ rem
  /\ l = (1 + count_nl (prefix (zlen (items_text its)) s))%Z.
Proof.
  intro H. apply lex_run_inv in H. destruct H as (T & _ & _ & E). cbn [end_ok] in E.
  destruct E as (E1 & E2 & r & E3 & _). repeat split; try assumption.
  - exists r. exact E3.
  - symmetry. exact T.
  - rewrite <- T, prefix_app. exact E2.
Qed.

End Sound.

(* inverts every sequence, literal and \\b of a [dm] hypothesis over a concrete regex *)
Ltac dm_inv :=
  repeat match goal with
  | H : dm _ (XSeq _ _) _ _ _ |- _ => apply dm_seq_inv in H; destruct H as (? & ? & -> & ? & ?)
  | H : dm _ (XChar _) _ _ _ |- _ => apply dm_char_inv in H; subst
  | H : dm _ XBound _ _ _ |- _ => apply dm_bound_inv in H; destruct H as [-> ?]
  end.


Lemma rule_progress uw fuel r s s' :
  In r lex_rules -> In s' (mres uw fuel (r_rx r) s) -> (length (snd s') < length (snd s))%nat.
Proof.
  intros Hin H. apply mres_sound in H. destruct H as (w & E & _ & D).
  assert (Hw : w <> []).
  { eapply dm_consumes; [exact D|]. pose proof rules_consume as HC. rewrite forallb_forall in HC. apply HC. exact Hin. }
  rewrite E, app_length. destruct w; [contradiction|cbn [length]; lia].
Qed.

Lemma only_newline_rule_spans_lines :
  forallb (fun r => no_nl (r_rx r) || is_single_nl (r_rx r)) lex_rules = true.
Proof.
  apply forallb_forall. intros r Hr. pose proof (proj1 (forallb_forall _ _) rules_lines r Hr) as H.
  unfold rule_line_ok in H. destruct (no_nl (r_rx r)); [reflexivity|]. apply andb_true_iff in H. apply H.
Qed.
