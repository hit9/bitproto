(* OpModeLeaf.v — one scalar field at an arbitrary bit offset: the statements every target
   formatter emits for it copy exactly its bits, for every width 1..64, every offset, every
   value (no bound on the offset or on the buffer).  The plan is a partition of the field into
   chunks ([plan_from]); running it adds chunk after chunk of a source number to a destination
   number (Section Copy), in either direction.  Encode, here, is the instance whose source is the
   field and whose destination is the stream; decode is OpModeLeafDec.v. *)
From Coq Require Import ZArith List Bool Lia.
From BP Require Import Bits OpMode OpModeStep.
From BPGen Require Import GenOpMode.
Import ListNotations.
Open Scope Z_scope.

Lemma sel_eqb_refl s : sel_eqb s s = true.
Proof. destruct s; cbn; [apply Z.eqb_refl | apply Nat.eqb_refl]. Qed.

Lemma chain_eqb_refl c : chain_eqb c c = true.
Proof. induction c as [|s r IH]; cbn; [reflexivity|]. now rewrite sel_eqb_refl, IH. Qed.

Lemma sel_eqb_eq a b : sel_eqb a b = true -> a = b.
Proof.
  destruct a, b; cbn; intros H; try discriminate.
  - apply Z.eqb_eq in H. now subst.
  - apply Nat.eqb_eq in H. now subst.
Qed.

Lemma chain_eqb_eq a : forall b, chain_eqb a b = true -> a = b.
Proof.
  induction a as [|x r IH]; intros [|y s] H; cbn in H; try discriminate; [reflexivity|].
  apply andb_true_iff in H. destruct H as [H1 H2].
  apply sel_eqb_eq in H1. apply IH in H2. now subst.
Qed.

Lemma cty_eqb_refl T : cty_eqb T T = true.
Proof. destruct T; cbn; try reflexivity; apply Z.eqb_refl. Qed.

Lemma mem_get_set M ch c u :
  mem_get M ch = Some c -> mem_get (mem_set M ch u) ch = Some (mkcell (cty_of c) u).
Proof.
  induction M as [|x r IH]; cbn [mem_get mem_set]; [discriminate|].
  destruct (chain_eqb (fst x) ch) eqn:E; intros H.
  - injection H as <-. cbn [mem_get fst snd]. now rewrite E.
  - cbn [mem_get]. rewrite E. now apply IH.
Qed.

Lemma mem_set_set M ch u u' : mem_set (mem_set M ch u) ch u' = mem_set M ch u'.
Proof.
  induction M as [|x r IH]; cbn [mem_set]; [reflexivity|].
  destruct (chain_eqb (fst x) ch) eqn:E; cbn [mem_set fst snd cty_of]; rewrite E; [reflexivity|].
  now rewrite IH.
Qed.

Lemma mem_set_same M ch T u : mem_get M ch = Some (mkcell T u) -> mem_set M ch u = M.
Proof.
  induction M as [|x r IH]; cbn [mem_get mem_set]; [reflexivity|].
  destruct (chain_eqb (fst x) ch) eqn:E; intros H.
  - injection H as H. destruct x as [c0 [T0 u0]]. cbn in *. congruence.
  - now rewrite IH.
Qed.

Lemma run_app l1 l2 st : run (l1 ++ l2) st = (st' <- run l1 st ;; run l2 st').
Proof.
  revert st; induction l1 as [|x r IH]; intros st; cbn [app run]; [reflexivity|].
  destruct (exec st x); cbn [bind]; [apply IH|reflexivity].
Qed.

(* what the (i, j, c) loop yields from field bit j on: consecutive chunks up to bit n, none
   crossing a byte boundary of the stream or of the field *)
Inductive plan_from (i0 n : Z) : Z -> list (Z * Z * Z) -> Prop :=
| plan_done : plan_from i0 n n []
| plan_item j c r :
    0 <= j -> 1 <= c -> j + c <= n -> c <= 8 - (i0 + j) mod 8 -> c <= 8 - j mod 8 ->
    plan_from i0 n (j + c) r -> plan_from i0 n j ((i0 + j, j, c) :: r).

Lemma plan_loop_spec i0 n :
  forall fuel j, (Z.to_nat (n - j) <= fuel)%nat -> 0 <= j <= n ->
    plan_from i0 n j (plan_loop fuel (i0 + j) j n).
Proof.
  induction fuel as [|fu IH]; intros j Hfuel Hj.
  - replace j with n by lia. constructor.
  - cbn [plan_loop]. rewrite plan_continue_spec.
    destruct (Z.ltb_spec j n) as [Hjn|Hjn]; [|replace j with n by lia; constructor].
    pose proof (plan_step_range (i0 + j) j n ltac:(lia)) as (Hc1 & Hc2 & Hc3 & Hc4).
    constructor; try lia.
    replace (i0 + j + plan_step (i0 + j) j n) with (i0 + (j + plan_step (i0 + j) j n)) by lia.
    apply IH; lia.
Qed.

Lemma leaf_plan_spec i0 n : 0 <= n -> plan_from i0 n 0 (leaf_plan i0 n).
Proof.
  intros Hn. unfold leaf_plan. rewrite <- (Z.add_0_r i0) at 2. apply plan_loop_spec; lia.
Qed.

Lemma plan_end_leaf i0 n : 0 <= n -> plan_end i0 (leaf_plan i0 n) = i0 + n.
Proof.
  intros Hn. unfold plan_end.
  enough (forall j p, plan_from i0 n j p ->
            forall a, fold_left (fun a x => a + snd x) p a = a + (n - j)) as H
    by (rewrite (H 0 _ (leaf_plan_spec i0 n Hn)); lia).
  induction 1; intros a; cbn [fold_left snd]; [|rewrite IHplan_from]; lia.
Qed.

(* One leaf's items, seen as a copy between two numbers: field bit j is bit a0 + j of the source
   [src] and goes to bit b0 + j of the destination, which holds nothing at or above the bits
   written so far.  [view d st]: the destination number in st is d (and whatever else of st the
   caller wants to stay as it is).  Encoding, the field is the source (a0 = 0) and the stream offset is b0;
   decoding, the stream is the source and b0 = 0. *)
Section Copy.
  Variables (view : Z -> state -> Prop) (f : Z * Z * Z -> stmt) (src a0 b0 n : Z).
  Hypothesis Hitem : forall j c d st,
    0 <= j -> 1 <= c -> j + c <= n -> c <= 8 - (a0 + b0 + j) mod 8 -> c <= 8 - j mod 8 ->
    0 <= d < 2 ^ (b0 + j) -> view d st ->
    exists st', exec st (f (a0 + b0 + j, j, c)) = Some st' /\
                view (d + chunk src (a0 + j) c * 2 ^ (b0 + j)) st'.
  Hypothesis Ha : 0 <= a0.
  Hypothesis Hb : 0 <= b0.

  Lemma copy_from j p :
    plan_from (a0 + b0) n j p -> forall d st, 0 <= d < 2 ^ (b0 + j) -> view d st ->
    exists st', run (map f p) st = Some st' /\
                view (d + chunk src (a0 + j) (n - j) * 2 ^ (b0 + j)) st'.
  Proof.
    induction 1 as [|j c r Hj Hc1 Hc2 Hc3 Hc4 _ IH]; intros d st Hd HV.
    - exists st. rewrite Z.sub_diag. unfold chunk. change (2 ^ 0) with 1.
      now rewrite Z.mod_1_r, Z.add_0_r.
    - destruct (Hitem j c d st) as (st1 & E1 & V1); try assumption.
      pose proof (chunk_range src (a0 + j) c ltac:(lia)) as Hm.
      destruct (IH _ st1 (place_bound d _ (b0 + j) c (b0 + (j + c)) ltac:(lia) ltac:(lia) ltac:(lia) Hd Hm) V1)
        as (st2 & E2 & V2).
      exists st2. cbn [map run]. rewrite E1. split; [exact E2|].
      replace (n - j) with (c + (n - (j + c))) by lia.
      rewrite place_split by lia. rewrite !Z.add_assoc in V2. now rewrite Z.add_assoc.
  Qed.

  Lemma copy_loop d0 st :
    0 <= n -> 0 <= d0 < 2 ^ b0 -> view d0 st ->
    exists st', run (map f (leaf_plan (a0 + b0) n)) st = Some st' /\
                view (d0 + chunk src a0 n * 2 ^ b0) st'.
  Proof.
    intros Hn Hd HV.
    destruct (copy_from 0 _ (leaf_plan_spec _ n Hn) d0 st) as (st' & E & V);
      rewrite ?Z.add_0_r, ?Z.sub_0_r in *; eauto.
  Qed.
End Copy.

Lemma rd_nth s k : 0 <= k < Z.of_nat (length s) -> rd s k = Some (nth (Z.to_nat k) s 0).
Proof.
  intros Hk. unfold rd. replace (k <? 0) with false by lia.
  apply nth_error_nth'. lia.
Qed.

Lemma buf_place s i m c :
  bytes_ok s -> 0 <= i -> 0 <= bufZ s < 2 ^ i -> 0 <= c -> c <= 8 - i mod 8 -> 0 <= m < 2 ^ c ->
  i < 8 * Z.of_nat (length s) ->
  exists old,
    rd s (i / 8) = Some old /\ 0 <= old < 2 ^ (i mod 8) /\
    let s' := wr s (i / 8) (old + m * 2 ^ (i mod 8)) in
    bytes_ok s' /\ length s' = length s /\ bufZ s' = bufZ s + m * 2 ^ i.
Proof.
  intros Hs Hi HB Hc Hc8 Hm Hlen.
  destruct (bufZ_place s i m c Hs ltac:(lia) HB Hc Hc8 Hm) as (Hold & _ & Hl & Ho & Hbuf).
  eexists. split; [apply rd_nth; Z.div_mod_to_equations; lia|]. split; [exact Hold|].
  rewrite (Z.mul_comm (2 ^ i)) in Hbuf. cbv zeta. unfold wr. auto.
Qed.

Definition leaf_ok (lf : leaf) : Prop :=
  match lk lf with
  | KUint n | KInt n | KEnum n => 1 <= n <= 64
  | _ => True
  end.

Definition pat_ok (lf : leaf) (u : Z) : Prop :=
  match lk lf with
  | KBool => u = 0 \/ u = 1
  | _ => 0 <= u < 2 ^ csz (leaf_cty lf)
  end.

Lemma leaf_facts lf :
  leaf_ok lf ->
  1 <= leaf_bits lf <= csz (leaf_cty lf) /\
  (csz (leaf_cty lf) = 8 \/ csz (leaf_cty lf) = 16 \/ csz (leaf_cty lf) = 32 \/ csz (leaf_cty lf) = 64) /\
  leaf_uty lf = CU (csz (leaf_cty lf)).
Proof.
  unfold leaf_ok, leaf_bits, leaf_cty, leaf_uty, bool_nbits, byte_nbits.
  destruct (lk lf) as [| |n|n|n]; intros H; cbn [csz];
    try (destruct (width_spec n H) as (A & B & _)); repeat split; try lia; auto.
Qed.

Lemma pat_ok_range lf u : leaf_ok lf -> pat_ok lf u -> 0 <= u < 2 ^ csz (leaf_cty lf).
Proof.
  unfold pat_ok, leaf_cty. destruct (lk lf); intros _ H; try exact H.
  cbn [csz]. change (2 ^ 8) with 256. lia.
Qed.

Definition enc_view (M : mem) (len : nat) (d : Z) (st : state) : Prop :=
  objs st = M /\ bytes_ok (buf st) /\ length (buf st) = len /\ bufZ (buf st) = d.

Lemma sval_mod T u : 0 <= u < 2 ^ csz T -> 1 <= csz T -> sval T u mod 2 ^ csz T = u.
Proof.
  intros Hu Hsz. destruct T as [|sz|sz]; cbn [sval csz] in *; try (apply Z.mod_small; lia).
  destruct (u <? 2 ^ (sz - 1)); [apply Z.mod_small; lia|].
  replace (u - 2 ^ sz) with (u + (-1) * 2 ^ sz) by ring.
  rewrite Z.mod_add by (apply Z.pow_nonzero; lia). apply Z.mod_small; lia.
Qed.

Lemma upat_sval_u T u : 0 <= u < 2 ^ csz T -> 1 <= csz T -> upat (CU (csz T)) (sval T u) = u.
Proof. intros. cbn [upat]. now apply sval_mod. Qed.

(* byte(f >> 8*fi) of the typed value is byte fi of the pattern (arithmetic >> on signed) *)
Lemma sval_shift_byte T u fi :
  0 <= fi -> 8 * fi + 8 <= csz T ->
  Z.shiftr (sval T u) (8 * fi) mod 256 = get_byte u fi.
Proof.
  intros Hfi Hsz. unfold get_byte. rewrite Z.shiftr_div_pow2 by lia.
  destruct T as [|sz|sz]; cbn [sval csz] in *; try reflexivity.
  destruct (u <? 2 ^ (sz - 1)); [reflexivity|].
  replace (2 ^ sz) with (2 ^ (sz - 8 * fi - 8) * 256 * 2 ^ (8 * fi)).
  2:{ change 256 with (2 ^ 8). rewrite <- !Z.pow_add_r by lia. f_equal. lia. }
  replace (u - 2 ^ (sz - 8 * fi - 8) * 256 * 2 ^ (8 * fi))
    with (u + (- (2 ^ (sz - 8 * fi - 8) * 256)) * 2 ^ (8 * fi)) by ring.
  rewrite Z.div_add by (apply Z.pow_nonzero; lia).
  replace (u / 2 ^ (8 * fi) + - (2 ^ (sz - 8 * fi - 8) * 256))
    with (u / 2 ^ (8 * fi) + (- 2 ^ (sz - 8 * fi - 8)) * 256) by ring.
  apply Z.mod_add. lia.
Qed.

Lemma go_enc_value lf u fi :
  leaf_ok lf -> pat_ok lf u -> 0 <= fi -> 8 * fi + 8 <= csz (leaf_cty lf) ->
  exists v,
    match go_conv_of lf with
    | GPlain => if is_cbool (leaf_cty lf) then None else Some (sval (leaf_cty lf) u)
    | _ => if is_cbool (leaf_cty lf) then Some (if u =? 0 then 0 else 1) else None
    end = Some v /\ Z.shiftr v (8 * fi) mod 256 = get_byte u fi.
Proof.
  intros Hok Hpat Hfi Hfits. pose proof (pat_ok_range lf u Hok Hpat) as Hu.
  destruct lf as [k al]. unfold go_conv_of, leaf_cty, pat_ok in *. cbn [lk lalias] in *.
  destruct k as [| |w|w|w]; cbn [is_cbool csz] in *;
    try (eexists; split; [reflexivity|]; apply sval_shift_byte; cbn [csz]; lia).
  (* bool2byte of a bool holding 0 or 1 *)
  assert (fi = 0) by lia. subst fi. change (8 * 0) with 0.
  exists u. split; [destruct al; destruct Hpat; subst u; reflexivity|].
  rewrite Z.shiftr_0_r. unfold get_byte. change (2 ^ 0) with 1. now rewrite Z.div_1_r.
Qed.

(* every target ends up adding the chunk to the byte under the cursor *)
Lemma enc_item L lf ch M len u i j c d st :
  leaf_ok lf -> pat_ok lf u -> mem_get M ch = Some (mkcell (leaf_cty lf) u) ->
  0 <= i -> 0 <= j -> 1 <= c -> j + c <= leaf_bits lf -> c <= 8 - i mod 8 -> c <= 8 - j mod 8 ->
  i + c <= 8 * Z.of_nat len -> 0 <= d < 2 ^ i -> enc_view M len d st ->
  exists st', exec st (item L true lf ch (i, j, c)) = Some st' /\
              enc_view M len (d + chunk u j c * 2 ^ i) st'.
Proof.
  intros Hok Hpat Hget Hi Hj Hc1 Hc2 Hc4 Hc3 Hlen Hd (HM & Hs & Hl & Hbuf). subst M len d.
  destruct (leaf_facts lf Hok) as (Hn & Hsz & Hut).
  pose proof (pat_ok_range lf u Hok Hpat) as Hu.
  set (sz := csz (leaf_cty lf)) in *.
  pose proof (Z.mod_pos_bound i 8 ltac:(lia)) as Hmi.
  pose proof (Z.mod_pos_bound j 8 ltac:(lia)) as Hmj.
  pose proof (Z.div_mod j 8 ltac:(lia)) as Hdj.
  assert (Hfi : 0 <= j / 8) by (apply Z.div_pos; lia).
  pose proof (chunk_range u j c ltac:(lia)) as Hm.
  destruct (buf_place (buf st) i (chunk u j c) c Hs Hi Hd ltac:(lia) Hc4 Hm ltac:(lia))
    as (old & Hrd & Hold & Hs' & Hl' & Hb').
  enough (exec st (item L true lf ch (i, j, c)) =
          Some (mkst (wr (buf st) (i / 8) (old + chunk u j c * 2 ^ (i mod 8))) (objs st))) as ->
    by (eexists; split; [reflexivity|]; repeat split; assumption).
  destruct (enc_pos i j c) as (Esi & Efi & Er).
  destruct L; cbn [item exec]; rewrite Hget, Esi, Efi, ?Er; cbn [bind cty_of pat].
  - (* C, byte pointer: byte j/8 of the object *)
    fold sz. replace ((0 <=? j / 8) && (8 * (j / 8) <? sz)) with true by lia.
    destruct (c_expr 8 (get_byte u (j / 8)) (j mod 8) (i mod 8) c ltac:(auto) (get_byte_range _ _)
                ltac:(lia) Hc1 ltac:(lia) Hmi Hc4) as (e1 & E1 & E2).
    rewrite byte_chunk in E2 by lia.
    unfold enc_shift, enc_mask. rewrite E1. cbn [bind]. rewrite Hrd. cbn [bind]. rewrite E2.
    destruct (assign_spec (i mod 8)) as (-> & _ & _).
    now rewrite (store_byte_place _ old _ (i mod 8) c) by lia.
  - (* C, value: the whole object converted to its unsigned type *)
    rewrite Hut. cbn [is_unsigned].
    pose proof (upat_sval_u (leaf_cty lf) u Hu ltac:(fold sz; lia)) as HU. fold sz in HU. rewrite HU.
    destruct (be_shift_spec (j / 8) (enc_shift i j c)) as (-> & _ & _).
    replace (8 * (j / 8) + enc_shift i j c) with (j - i mod 8) by (unfold enc_shift; lia).
    destruct (c_expr sz u j (i mod 8) c Hsz Hu Hj Hc1 ltac:(lia) Hmi Hc4) as (e1 & E1 & E2).
    unfold enc_mask. rewrite E1. cbn [bind]. rewrite Hrd. cbn [bind]. rewrite E2.
    destruct (assign_spec (i mod 8)) as (_ & -> & _).
    now rewrite (store_byte_place _ old _ (i mod 8) c) by lia.
  - (* Go: byte(f >> 8*(j/8)) *)
    destruct (go_bshift_spec (j / 8)) as (-> & -> & _ & _).
    replace (if 0 <? j / 8 then 8 * (j / 8) else 0) with (8 * (j / 8))
      by (destruct (Z.ltb_spec 0 (j / 8)); lia).
    destruct (go_enc_value lf u (j / 8) Hok Hpat Hfi ltac:(fold sz; lia)) as (v & Ev & Hb).
    rewrite Ev. cbn [bind]. rewrite Hb.
    unfold enc_shift, enc_mask.
    pose proof (mask_byte (i mod 8) c ltac:(lia) ltac:(lia) ltac:(lia)) as Hmask.
    replace ((0 <=? 8 * (j / 8)) && (0 <=? op_mode_get_mask (i mod 8) c) &&
             (op_mode_get_mask (i mod 8) c <? 256)) with true by lia.
    rewrite Hrd. cbn [bind].
    rewrite go_expr, byte_chunk, lor_disjoint_low by lia. reflexivity.
Qed.

Lemma post_enc_nil L lf ch : post L true lf ch = [].
Proof. unfold post. destruct (lk lf); reflexivity. Qed.

Theorem leaf_encode L lf ch M u i0 s :
  leaf_ok lf -> pat_ok lf u -> mem_get M ch = Some (mkcell (leaf_cty lf) u) ->
  0 <= i0 -> bytes_ok s -> 0 <= bufZ s < 2 ^ i0 ->
  i0 + leaf_bits lf <= 8 * Z.of_nat (length s) ->
  exists s',
    run (leaf_stmts L true (ch, lf) i0) (mkst s M) = Some (mkst s' M) /\
    bytes_ok s' /\ length s' = length s /\
    bufZ s' = bufZ s + 2 ^ i0 * (u mod 2 ^ leaf_bits lf).
Proof.
  intros Hok Hpat Hget Hi0 Hs HB Hlen.
  destruct (leaf_facts lf Hok) as (Hn & _ & _).
  unfold leaf_stmts. cbn [fst snd]. rewrite post_enc_nil, app_nil_r.
  destruct (copy_loop (enc_view M (length s)) (item L true lf ch) u 0 i0 (leaf_bits lf))
    with (d0 := bufZ s) (st := mkst s M) as ([s' M'] & Hrun & HM & Hs' & Hl' & Hb'); try lia.
  - intros j c d st; intros. apply enc_item; assumption || lia.
  - repeat split; assumption.
  - cbn [objs buf] in *. subst M'. exists s'. rewrite chunk_0, Z.mul_comm in Hb'. auto.
Qed.
