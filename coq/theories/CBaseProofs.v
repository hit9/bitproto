(* CBaseProofs.v — BpEndecodeBaseType (with the staging loops of the BP_BIG_ENDIAN build) and
   BpHandleIntSignAfterEndecode, for the two coherent configurations
   (B,E) = (LE,LE) and (BE,BE):  what they write to / read from the stream, in the
   bit-vector view, in terms of the NATIVE VALUE of the C object. *)
From Coq Require Import ZArith List Bool Lia.
From BP Require Import Bits Schema Spec CMem CMemProofs CRt CCopyProofs.
From BPGen Require Import GenC.
Import ListNotations.
Open Scope Z_scope.

Lemma good_cfg_ok B E : B = E -> cfg_ok B E.
Proof.
  intros <-. unfold cfg_ok. destruct B; [reflexivity|].
  intros H. vm_compute in H. discriminate H.
Qed.

(* the stream context during encoding: bits at and after the cursor are zero, room for n *)
Definition cenc_pre (x : cctx) (n : Z) : Prop :=
  bytes_ok (xs x) /\ 0 <= xi x /\ 0 <= bufZ (xs x) < 2 ^ xi x /\
  xi x + n <= 8 * Z.of_nat (length (xs x)).

Lemma bufZ_app_zeros l n : bufZ (l ++ zeros n) = bufZ l.
Proof. rewrite bufZ_app, bufZ_zeros. lia. Qed.

Lemma stage_len : bt_stage_len = 8.
Proof. reflexivity. Qed.

(* the staging loops of the BP_BIG_ENDIAN build, as list equations: with p2 consumed from the end of
   p and its bytes standing reversed in [done], the rest of the loop appends the reverse of p1 *)
Lemma stage_in_list : forall p1 p2 done rest,
  bytes_ok p1 -> length done = length p2 -> (length p1 <= length rest)%nat ->
  stage_in (length p1) (Z.of_nat (length p2)) (Z.of_nat (length (p1 ++ p2))) (p1 ++ p2) (done ++ rest)
  = COk (done ++ rev p1 ++ skipn (length p1) rest).
Proof.
  induction p1 as [|b p1 IH] using rev_ind; intros p2 done rest Hb Hd Hr; [reflexivity|].
  apply bytes_ok_app_inv in Hb. destruct Hb as [Hb1 Hb2]. inversion_clear Hb2 as [|? ? Hbb _].
  rewrite app_length, Nat.add_1_r in *. cbn [length stage_in] in *.
  destruct rest as [|r0 rest]; [cbn in Hr; lia|].
  rewrite <- app_assoc. cbn [app]. unfold bt_enc_src.
  replace (Z.of_nat (length (p1 ++ b :: p2)) - 1 - Z.of_nat (length p2)) with (Z.of_nat (length p1))
    by (rewrite app_length; cbn [length]; lia).
  rewrite rd_mid. cbn [cbind]. rewrite <- Hd, wr_mid. cbn [cbind].
  rewrite (Z.mod_small b 256 Hbb).
  replace (Z.of_nat (length done) + 1) with (Z.of_nat (length (b :: p2))) by (cbn [length]; lia).
  replace (done ++ b :: rest) with ((done ++ [b]) ++ rest) by now rewrite <- app_assoc.
  rewrite IH; try assumption.
  - rewrite rev_app_distr, <- !app_assoc. reflexivity.
  - rewrite app_length. cbn [length]. lia.
  - cbn [length] in Hr. lia.
Qed.

(* with l1 consumed from the front of le and standing reversed at the end of p, the rest of the loop
   fills the front part q of p with the reverse of l2 *)
Lemma stage_out_list : forall l2 l1 extra q,
  bytes_ok l2 -> length q = length l2 ->
  stage_out (length l2) (Z.of_nat (length l1)) (Z.of_nat (length (l1 ++ l2))) (l1 ++ l2 ++ extra) (q ++ rev l1)
  = COk (rev l2 ++ rev l1).
Proof.
  induction l2 as [|b l2 IH]; intros l1 extra q Hb Hq; [destruct q; [reflexivity|discriminate]|].
  inversion_clear Hb as [|? ? Hbb Hb2]. cbn [length stage_out] in *.
  destruct (exists_last (l := q)) as (q' & c & ->); [intros ->; discriminate|].
  rewrite app_length in Hq. cbn [length] in Hq. cbn [app].
  rewrite rd_mid. cbn [cbind].
  unfold bt_dec_dst.
  replace (Z.of_nat (length (l1 ++ b :: l2)) - 1 - Z.of_nat (length l1)) with (Z.of_nat (length q'))
    by (rewrite app_length; cbn [length]; lia).
  rewrite <- app_assoc. cbn [app].
  rewrite wr_mid. cbn [cbind].
  rewrite (Z.mod_small b 256 Hbb).
  replace (Z.of_nat (length l1) + 1) with (Z.of_nat (length (l1 ++ [b]))) by (rewrite app_length; cbn [length]; lia).
  replace (l1 ++ b :: l2 ++ extra) with ((l1 ++ [b]) ++ l2 ++ extra) by now rewrite <- app_assoc.
  replace (length (l1 ++ b :: l2)) with (length ((l1 ++ [b]) ++ l2)) by (now rewrite <- app_assoc).
  replace (q' ++ b :: rev l1) with (q' ++ rev (l1 ++ [b])) by (now rewrite rev_app_distr).
  rewrite IH; [|assumption|lia]. rewrite rev_app_distr. cbn [rev app]. now rewrite <- app_assoc.
Qed.

Lemma skipn_zeros k : forall n, skipn k (zeros n) = zeros (n - k).
Proof. induction k as [|k IH]; intros [|n]; try reflexivity. exact (IH n). Qed.

Lemma stage_in_full size p :
  bytes_ok p -> 0 <= size <= 8 -> Z.of_nat (length p) = size ->
  exists le', stage_in (Z.to_nat size) 0 size p (zeros 8) = COk le' /\
              length le' = 8%nat /\ bytes_ok le' /\ bufZ le' = bufZ (rev p).
Proof.
  intros Hp Hs Hl. subst size. rewrite Nat2Z.id. exists (rev p ++ zeros (8 - length p)).
  pose proof (stage_in_list p [] [] (zeros 8) Hp eq_refl) as H.
  rewrite app_nil_r in H. change (Z.of_nat (length [])) with 0 in H. cbn [app] in H.
  rewrite H by (rewrite zeros_length; lia).
  rewrite skipn_zeros.
  split; [reflexivity|]. split; [rewrite app_length, rev_length, zeros_length; lia|].
  split; [apply bytes_ok_app; [apply bytes_ok_rev, Hp|apply zeros_bytes_ok]|apply bufZ_app_zeros].
Qed.

Lemma stage_out_full size le :
  bytes_ok le -> 0 <= size <= 8 -> length le = 8%nat -> 0 <= bufZ le < 256 ^ size ->
  exists p', stage_out (Z.to_nat size) 0 size le (zeros (Z.to_nat size)) = COk p' /\
             length p' = Z.to_nat size /\ bytes_ok p' /\ bufZ (rev p') = bufZ le.
Proof.
  intros Hle Hs Hl Hz. set (n := Z.to_nat size). set (l2 := firstn n le).
  assert (Hl2 : length l2 = n) by (apply firstn_length_le; lia).
  exists (rev l2).
  pose proof (stage_out_list l2 [] (skipn n le) (zeros n) (bytes_ok_firstn _ _ Hle)) as H.
  cbn [app length rev] in H. rewrite !app_nil_r, Hl2 in H. change (Z.of_nat 0) with 0 in H.
  unfold l2 in H. rewrite firstn_skipn in H. replace (Z.of_nat n) with size in H by lia.
  rewrite H by (rewrite zeros_length; reflexivity).
  split; [reflexivity|]. split; [now rewrite rev_length|]. split; [apply bytes_ok_rev, bytes_ok_firstn, Hle|].
  rewrite rev_involutive. unfold l2.
  pose proof (slice_number le 0 n Hle ltac:(lia)) as Hsn. cbn [skipn] in Hsn. rewrite Hsn.
  change (256 ^ Z.of_nat 0) with 1. rewrite Z.div_1_r.
  apply Z.mod_small. now replace (Z.of_nat n) with size by lia.
Qed.

Definition opt_eqb (a : option Z) (b : Z) : bool := match a with Some x => x =? b | None => false end.

Definition width_ok (n : Z) : bool :=
  (BpBaseTypeStorageSize n =? int_size n) &&
  existsb (Z.eqb (int_size n)) [1; 2; 4; 8] &&
  (n <=? 8 * int_size n) &&
  implb (sg_skip n) (n =? 8 * int_size n) &&
  opt_eqb (lookup (sg_n (int_size n)) sg_cases) (int_size n) &&
  (sg_testmask (sg_n (int_size n)) n =? 2 ^ (n - 1)) &&
  (sg_ormask (sg_n (int_size n)) n =? 2 ^ (8 * int_size n) - 2 ^ n).

Fixpoint all_upto (f : Z -> bool) (k : nat) : bool :=
  match k with O => true | S j => f (Z.of_nat k) && all_upto f j end.

Lemma all_upto_spec f k n : all_upto f k = true -> 1 <= n <= Z.of_nat k -> f n = true.
Proof.
  induction k as [|j IH]; intros H Hn; [lia|].
  cbn [all_upto] in H. apply andb_true_iff in H. destruct H as [Hk Hj].
  destruct (Z.eq_dec n (Z.of_nat (S j))) as [->|]; [exact Hk|]. apply IH; [exact Hj|lia].
Qed.

Lemma widths_ok : all_upto width_ok 64 = true.
Proof. vm_compute. reflexivity. Qed.

(* what the sweep [widths_ok] says of a width: BpBaseTypeStorageSize is [int_size], which the n bits
   fit; the sign fix-up is skipped only where they fill it, and otherwise its switch has a case for
   this size, whose masks are bit n-1 and the bits from n up to the storage width *)
Record width_spec (n : Z) : Prop := {
  width_storage : BpBaseTypeStorageSize n = int_size n;
  width_sizes : int_size n = 1 \/ int_size n = 2 \/ int_size n = 4 \/ int_size n = 8;
  width_fits : n <= 8 * int_size n;
  width_skip : sg_skip n = true -> n = 8 * int_size n;
  width_case : lookup (sg_n (int_size n)) sg_cases = Some (int_size n);
  width_testmask : sg_testmask (sg_n (int_size n)) n = 2 ^ (n - 1);
  width_ormask : sg_ormask (sg_n (int_size n)) n = 2 ^ (8 * int_size n) - 2 ^ n }.

Lemma width_facts n : 1 <= n <= 64 -> width_spec n.
Proof.
  intros Hn. pose proof (all_upto_spec width_ok 64 n widths_ok Hn) as H. unfold width_ok in H.
  rewrite !andb_true_iff in H. destruct H as ((((((H1 & H2) & H3) & H4) & H5) & H6) & H7).
  constructor; try (now apply Z.eqb_eq).
  - apply existsb_exists in H2. destruct H2 as (y & Hy & Ey). apply Z.eqb_eq in Ey. subst y.
    cbn [In] in Hy. intuition.
  - lia.
  - intros Hs. rewrite Hs in H4. now apply Z.eqb_eq.
  - destruct (lookup (sg_n (int_size n)) sg_cases); cbn [opt_eqb] in H5; [|discriminate].
    f_equal. now apply Z.eqb_eq.
Qed.

(* constants of bitproto.c: the extensible prefix is a uint16_t (2 bytes, 16 bits); bool is 1 bit, byte 8 *)
Lemma ah_size_2 : ah_size = 2. Proof. reflexivity. Qed.
Lemma ah_nbits_16 : ah_nbits = 16. Proof. reflexivity. Qed.
Lemma bool_nbits_1 : BpBool_nbits = 1. Proof. reflexivity. Qed.
Lemma byte_nbits_8 : BpByte_nbits = 8. Proof. reflexivity. Qed.

(* sf is the finished stream (Bits.cut): its next nbits bits are those of the object's native value.
   The BP_BIG_ENDIAN build copies the object byte-reversed through an 8-byte staging buffer
   ([bt_stage_len]) as many bytes as BpBaseTypeStorageSize says: hence, for B = BE only, at most 64
   bits and an object of exactly that size (likewise in [base_dec]). *)
Lemma base_enc B E nbits sf i data :
  B = E -> 0 <= nbits -> 0 <= i -> i + nbits <= 8 * Z.of_nat (length sf) -> bytes_ok data ->
  nbits <= 8 * Z.of_nat (length data) ->
  (B = BE -> 1 <= nbits <= 64 /\ Z.of_nat (length data) = BpBaseTypeStorageSize nbits) ->
  chunk (bufZ sf) i nbits = native_val E data mod 2 ^ nbits ->
  base_type B E true nbits {| xs := cut sf i; xi := i |} data
  = COk ({| xs := cut sf (i + nbits); xi := i + nbits |}, data).
Proof.
  intros HBE Hn Hi Hlen Hd Hdl Hbe Hch. subst E.
  (* src: the object itself (LE build) or its staged little-endian copy (BE build) *)
  assert (Hcopy : forall src, bytes_ok src -> nbits <= 8 * Z.of_nat (length src) ->
            chunk (bufZ sf) i nbits = bufZ src mod 2 ^ nbits ->
            copy_bits B B (copy_fuel nbits) nbits (cut sf i) 0 src 0 i 0 = COk (cut sf (i + nbits))).
  { intros src Hsrc Hl Hc. rewrite <- chunk_0 in Hc.
    destruct (copy_bits_spec B B (good_cfg_ok B B eq_refl) (copy_fuel nbits) nbits (cut sf i) 0 src 0 i 0 i 0
                (Nat.le_refl _) Hn (cut_bytes_ok _ _) Hsrc (Z.le_refl 0) (Z.le_refl 0) Hi (Z.le_refl 0) eq_refl eq_refl
                (proj2 (bufZ_cut sf i ltac:(lia)))) as (s' & -> & P); rewrite ?cut_length; try assumption.
    rewrite <- Hc in P. f_equal. now apply cut_next. }
  unfold base_type. cbn [xs xi]. destruct B.
  - now rewrite Hcopy.
  - destruct (Hbe eq_refl) as (Hn64 & Hsz).
    destruct (width_facts nbits Hn64).
    rewrite stage_len. change (Z.to_nat 8) with 8%nat.
    destruct (stage_in_full (BpBaseTypeStorageSize nbits) data Hd ltac:(lia) Hsz)
      as (le' & -> & L0 & O0 & B0). cbn [cbind].
    rewrite Hcopy; [reflexivity|exact O0|rewrite L0; lia|now rewrite B0].
Qed.

Lemma base_dec B E nbits x (k : nat) :
  B = E -> 0 <= nbits -> bytes_ok (xs x) -> 0 <= xi x ->
  xi x + nbits <= 8 * Z.of_nat (length (xs x)) ->
  nbits <= 8 * Z.of_nat k ->
  (B = BE -> 1 <= nbits <= 64 /\ Z.of_nat k = BpBaseTypeStorageSize nbits) ->
  exists data',
    base_type B E false nbits x (zeros k) = COk ({| xs := xs x; xi := xi x + nbits |}, data') /\
    length data' = k /\ bytes_ok data' /\
    native_val E data' = (bufZ (xs x) / 2 ^ xi x) mod 2 ^ nbits.
Proof.
  intros HBE Hn Hs Hi Hlen Hk Hbe. subst E. fold (chunk (bufZ (xs x)) (xi x) nbits).
  (* into a zeroed destination of j bytes (the object, or the 8-byte staging buffer) *)
  assert (Hcopy : forall j, nbits <= 8 * Z.of_nat j ->
            exists d', copy_bits B B (copy_fuel nbits) nbits (zeros j) 0 (xs x) 0 0 (xi x) = COk d' /\
                       length d' = j /\ bytes_ok d' /\ bufZ d' = chunk (bufZ (xs x)) (xi x) nbits).
  { intros j Hj.
    destruct (copy_bits_spec B B (good_cfg_ok B B eq_refl) (copy_fuel nbits) nbits (zeros j) 0 (xs x) 0 0 (xi x) 0 (xi x) (Nat.le_refl _)
                Hn (zeros_bytes_ok j) Hs (Z.le_refl 0) (Z.le_refl 0) (Z.le_refl 0) Hi eq_refl eq_refl)
      as (d' & -> & L1 & O1 & B1); rewrite ?bufZ_zeros, ?zeros_length in *; try lia.
    exists d'. repeat split; try assumption. rewrite B1. lia. }
  unfold base_type. destruct B.
  - destruct (Hcopy k Hk) as (d' & -> & R). cbn [cbind native_val]. eauto.
  - destruct (Hbe eq_refl) as (Hn64 & Hsz).
    destruct (width_facts nbits Hn64).
    rewrite stage_len. change (Z.to_nat 8) with 8%nat.
    destruct (Hcopy 8%nat ltac:(lia)) as (le' & -> & L1 & O1 & B1). cbn [cbind].
    assert (Hb : 0 <= bufZ le' < 256 ^ BpBaseTypeStorageSize nbits).
    { rewrite B1, pow256 by lia. pose proof (chunk_range (bufZ (xs x)) (xi x) nbits Hn).
      assert (2 ^ nbits <= 2 ^ (8 * BpBaseTypeStorageSize nbits)) by (apply Z.pow_le_mono_r; lia). lia. }
    replace k with (Z.to_nat (BpBaseTypeStorageSize nbits)) by lia.
    destruct (stage_out_full (BpBaseTypeStorageSize nbits) le' O1 ltac:(lia) L1 Hb)
      as (p' & -> & L2 & O2 & B2).
    cbn [cbind native_val]. exists p'. rewrite B2, B1. auto.
Qed.

Lemma land_pow2_testbit x k : 0 <= k -> (Z.land x (2 ^ k) =? 0) = negb (Z.testbit x k).
Proof.
  intros Hk. destruct (Z.testbit x k) eqn:T; cbn [negb].
  - apply Z.eqb_neq. intros H0.
    assert (Z.testbit (Z.land x (2 ^ k)) k = true).
    { rewrite Z.land_spec, T, Z.pow2_bits_true by lia. reflexivity. }
    rewrite H0, Z.bits_0 in H. discriminate.
  - apply Z.eqb_eq. apply Z.bits_inj'. intros i Hi. rewrite Z.land_spec, Z.bits_0.
    destruct (Z.eq_dec i k) as [->|Hne]; [now rewrite T|].
    rewrite Z.pow2_bits_false by lia. apply andb_false_r.
Qed.

Lemma lor_high_mask x n w : 0 <= n <= w -> 0 <= x < 2 ^ n -> Z.lor x (2 ^ w - 2 ^ n) = x + 2 ^ w - 2 ^ n.
Proof.
  intros Hn Hx.
  assert (H : 2 ^ w - 2 ^ n = (2 ^ (w - n) - 1) * 2 ^ n).
  { rewrite Z.mul_sub_distr_r, <- Z.pow_add_r by lia. replace (w - n + n) with w by lia. lia. }
  rewrite <- Z.add_sub_assoc, H. apply lor_disjoint_low; lia.
Qed.

Lemma native_bytes_mod E w v : native_bytes E w (v mod 256 ^ Z.of_nat w) = native_bytes E w v.
Proof.
  assert (H : bytes_of w (v mod 256 ^ Z.of_nat w) = bytes_of w v).
  { apply bufZ_inj; try apply bytes_of_ok.
    - now rewrite !bytes_of_length.
    - rewrite !bufZ_bytes_of. apply Z.mod_mod. apply Z.pow_nonzero; lia. }
  unfold native_bytes, bytes_le. rewrite H. reflexivity.
Qed.

Lemma native_bytes_congr E w v1 v2 :
  v1 mod 256 ^ Z.of_nat w = v2 mod 256 ^ Z.of_nat w -> native_bytes E w v1 = native_bytes E w v2.
Proof. intros H. rewrite <- (native_bytes_mod E w v1), <- (native_bytes_mod E w v2), H. reflexivity. Qed.

Lemma sign_spec E n data :
  1 <= n <= 64 -> bytes_ok data -> Z.of_nat (length data) = int_size n ->
  0 <= native_val E data < 2 ^ n ->
  sign_after E false (int_size n) n data =
  COk (native_bytes E (length data) (sext n (native_val E data))).
Proof.
  intros Hn Hd Hl Hu.
  pose proof (width_facts n Hn) as W. pose proof (width_fits n W) as Hle.
  set (u := native_val E data) in *.
  assert (Hw : 1 <= int_size n <= 8) by (pose proof (width_sizes n W); lia).
  assert (Hp : 256 ^ Z.of_nat (length data) = 2 ^ (8 * int_size n)) by (rewrite Hl, pow256 by lia; reflexivity).
  unfold sign_after. destruct (sg_skip n) eqn:Es.
  - (* standard width: the n bits fill the object, nothing to do; u - 2^n = u (mod 2^n) *)
    pose proof (width_skip n W Es) as Hskip. f_equal.
    rewrite <- (native_bytes_val E data Hd) at 1. fold u.
    apply native_bytes_congr. rewrite Hp, <- Hskip. unfold sext.
    destruct (Z.testbit u (n - 1)); [|reflexivity].
    pose proof (pow2_pos n ltac:(lia)).
    replace (u - 2 ^ n) with (u + (-1) * 2 ^ n) by lia. now rewrite Z.mod_add by lia.
  - rewrite (width_case n W). replace (Z.to_nat (int_size n)) with (length data) by lia.
    rewrite (ld_whole E data). cbn [cbind]. fold u.
    rewrite (width_testmask n W), land_pow2_testbit by lia. rewrite negb_involutive.
    unfold sext. destruct (Z.testbit u (n - 1)) eqn:T.
    + rewrite st_whole, (width_ormask n W). f_equal. rewrite lor_high_mask by lia.
      apply native_bytes_congr. rewrite Hp.
      pose proof (pow2_pos (8 * int_size n) ltac:(lia)).
      replace (u + 2 ^ (8 * int_size n) - 2 ^ n) with (u - 2 ^ n + 1 * 2 ^ (8 * int_size n)) by lia.
      now rewrite Z.mod_add by lia.
    + f_equal. symmetry. apply native_bytes_val. exact Hd.
Qed.
