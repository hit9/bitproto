(* CStoreProofs.v — the storage layout [store E t v] of an in-range value: it has the shape
   the encoder theorem needs, and reading it back ([abs_val]) gives a value with the same wire
   bits. *)
From Coq Require Import ZArith List Bool Lia.
From BP Require Import ListFacts Bits Schema Spec CMem CMemProofs CRt PyEncProofs CBaseProofs CEncProofs.
Import ListNotations.
Open Scope Z_scope.

Definition store_fields (E : endian) (v : val) :=
  fix go (l : list (Z * ty)) : list (Z * obj) :=
    match l with
    | [] => []
    | kf :: r => (fst kf, store E (snd kf) (vfield (fst kf) v)) :: go r
    end.

Lemma store_msg E x fs v : store E (TMsg x fs) v = OS (store_fields E v fs).
Proof. reflexivity. Qed.

Lemma lookup_store_fields E v fs k ft :
  keys_distinct (map fst fs) = true -> In (k, ft) fs ->
  lookup k (store_fields E v fs) = Some (store E ft (vfield k v)).
Proof. exact (lookup_map_fields (fun k t => store E t (vfield k v)) fs k ft). Qed.

Section Store.
  Variable E : endian.

  Definition store_ok (t : ty) : Prop :=
    forall v, wf t = true -> has_ty t v = true ->
      shape_ok t (store E t v) /\
      enc_bits t (abs_val E t (store E t v)) = enc_bits t v.

  Lemma store_int_ok n z :
    1 <= n <= 64 ->
    bytes_shape (store_int E n z) (int_size n) /\
    bits_of (Z.to_nat n) (native_val E (obytes (store_int E n z))) = bits_of (Z.to_nat n) z.
  Proof.
    intros Hn. destruct (width_facts n Hn).
    unfold store_int. cbn [obytes]. split.
    - exists (native_bytes E (Z.to_nat (int_size n)) z). split; [reflexivity|].
      split; [apply native_bytes_ok|]. rewrite native_bytes_length. lia.
    - rewrite native_val_bytes, pow256 by lia. apply bits_of_congr, mod_mod_pow. lia.
  Qed.

  Lemma flat_store_bytes t v : flat t = true -> store E t v = OB (obytes (store E t v)).
  Proof.
    revert v. induction t as [| | n | n | n ms | t IH | x c e IH | x fs IH] using ty_ind'; intros v Hf;
      try reflexivity.
    - cbn [store flat] in *. apply IH, Hf.
    - cbn [store flat] in *. rewrite Hf. reflexivity.
    - discriminate.
  Qed.

  Theorem store_ok_all t : store_ok t.
  Proof.
    induction t as [| | n | n | n ms | t IH | x c e IH | x fs IH] using ty_ind'; intros v Hw Ht.
    - cbn [has_ty] in Ht. destruct v as [b| | |]; try discriminate. cbn [store abs_val enc_bits obytes hd shape_ok csize].
      split; [exists [Z.b2z b]; split; [reflexivity|]; split; [|reflexivity]; constructor; [destruct b; cbv; intuition congruence|constructor]|].
      destruct b; reflexivity.
    - cbn [has_ty] in Ht. destruct v as [|z| |]; try discriminate. cbn [store abs_val enc_bits obytes hd shape_ok csize zof].
      assert (Hz : 0 <= z < 256) by lia. rewrite Z.mod_small by lia.
      split; [exists [z]; split; [reflexivity|]; split; [|reflexivity]; constructor; [exact Hz|constructor]|reflexivity].
    - cbn [wf has_ty] in *. destruct v as [|z| |]; try discriminate.
      destruct (store_int_ok n z ltac:(lia)) as [Hs Hb]. cbn [store abs_val enc_bits shape_ok csize zof]. split; assumption.
    - cbn [wf has_ty] in *. destruct v as [|z| |]; try discriminate.
      destruct (store_int_ok n z ltac:(lia)) as [Hs Hb]. cbn [store abs_val enc_bits shape_ok csize zof]. split; assumption.
    - cbn [wf has_ty] in *. rewrite !andb_true_iff in Hw. destruct v as [|z| |]; try discriminate.
      destruct (store_int_ok n z ltac:(lia)) as [Hs Hb]. cbn [store abs_val enc_bits shape_ok csize zof]. split; assumption.
    - cbn [wf has_ty store abs_val enc_bits shape_ok] in *. apply IH; assumption.
    - cbn [wf has_ty] in *. rewrite !andb_true_iff in Hw. destruct Hw as [[Hc1 Hc2] Hwe].
      destruct v as [| |l|]; try discriminate. rewrite andb_true_iff in Ht. destruct Ht as [Hlen Hall].
      apply Nat.eqb_eq in Hlen. rewrite forallb_forall in Hall.
      pose proof (csize_nonneg e Hwe) as Hcs.
      cbn [store abs_val enc_bits shape_ok vlist]. destruct (flat e) eqn:Hfl.
      + set (f := fun x => obytes (store E e x)).
        assert (Hfl' : forall a, In a l -> length (f a) = Z.to_nat (csize e) /\ bytes_ok (f a)).
        { intros a Ha. destruct (IH a Hwe (Hall a Ha)) as [Hs _].
          apply (flat_shape e _ Hfl) in Hs. destruct Hs as (bs & Eb & Hb & Hl).
          unfold f. rewrite Eb. cbn [obytes]. split; [lia|exact Hb]. }
        split.
        * exists (flat_map f l). split; [reflexivity|]. split.
          -- unfold bytes_ok. apply Forall_forall. intros b Hb. apply in_flat_map in Hb.
             destruct Hb as (a & Ha & Hb). destruct (Hfl' a Ha) as [_ Ho].
             unfold bytes_ok in Ho. rewrite Forall_forall in Ho. now apply Ho.
          -- rewrite (flat_map_length_const f l (Z.to_nat (csize e))) by (intros a Ha; apply Hfl', Ha). lia.
        * f_equal. cbn [obytes vlist]. subst c.
          rewrite (chunks_flat_map f (Z.to_nat (csize e)) l) by (intros a Ha; apply Hfl', Ha).
          rewrite map_map, !flat_map_concat_map, map_map. f_equal. apply map_ext_in. intros a Ha.
          unfold f. rewrite <- (flat_store_bytes e a Hfl). apply IH; [assumption|apply Hall, Ha].
      + split.
        * exists (map (store E e) l). split; [reflexivity|]. split; [rewrite map_length; exact Hlen|].
          apply Forall_forall. intros o Ho. apply in_map_iff in Ho. destruct Ho as (a & <- & Ha).
          apply IH; [assumption|apply Hall, Ha].
        * f_equal. cbn [vlist]. rewrite !flat_map_concat_map, !map_map. f_equal. apply map_ext_in. intros a Ha.
          apply IH; [assumption|apply Hall, Ha].
    - pose proof Hw as Hw'. rewrite wf_msg in Hw. rewrite !andb_true_iff in Hw. destruct Hw as [[Hkd _] _].
      destruct v as [| | |vs]; try discriminate. rewrite has_ty_msg, fields_has_ty_In in Ht.
      rewrite store_msg. set (v := VM vs) in *.
      assert (Hall : forall k ft, In (k, ft) fs ->
                shape_ok ft (store E ft (vfield k v)) /\
                enc_bits ft (abs_val E ft (store E ft (vfield k v))) = enc_bits ft (vfield k v)).
      { intros k ft Hin. destruct (Ht k ft Hin) as (fv & Hl & Hty). unfold v, vfield. rewrite Hl.
        apply (proj1 (Forall_forall _ _) IH _ Hin); [apply (wf_msg_In _ _ _ _ Hw' Hin)|exact Hty]. }
      split.
      + rewrite shape_msg. exists (store_fields E v fs). split; [reflexivity|].
        apply shape_fields_In. intros k ft Hin. exists (store E ft (vfield k v)).
        split; [now apply lookup_store_fields|now apply Hall].
      + rewrite abs_val_msg, !enc_bits_msg. f_equal. apply fields_bits_ext. intros k ft Hin.
        unfold vfield at 1.
        rewrite (lookup_abs_fields E (store_fields E v fs) fs k ft (store E ft (vfield k v)) Hkd Hin)
          by now apply lookup_store_fields.
        now apply Hall.
  Qed.
End Store.
