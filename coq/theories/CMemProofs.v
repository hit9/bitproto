(* CMemProofs.v — facts about the byte memory of CMem.v in the bit-vector view: a byte
   list is one little-endian number [bufZ]; a w-byte little-endian load at byte p is
   (M / 256^p) mod 256^w; stores replace exactly that slice. *)
From Coq Require Import ZArith List Bool Lia.
From BP Require Import ListFacts Bits CMem.
Import ListNotations.
Open Scope Z_scope.

Lemma pow256_pos k : 0 <= k -> 0 < 256 ^ k.
Proof. intros; apply Z.pow_pos_nonneg; lia. Qed.

Lemma bufZ_app a b : bufZ (a ++ b) = bufZ a + 256 ^ Z.of_nat (length a) * bufZ b.
Proof.
  induction a as [|x a IH]; cbn [app bufZ length].
  - change (256 ^ Z.of_nat 0) with 1. lia.
  - rewrite IH, Nat2Z.inj_succ, Z.pow_succ_r by lia. ring.
Qed.

Lemma bytes_ok_app a b : bytes_ok a -> bytes_ok b -> bytes_ok (a ++ b).
Proof. intros; apply Forall_app; split; assumption. Qed.

Lemma bytes_ok_app_inv a b : bytes_ok (a ++ b) -> bytes_ok a /\ bytes_ok b.
Proof. intros H; apply Forall_app in H; exact H. Qed.

Lemma bytes_ok_firstn n s : bytes_ok s -> bytes_ok (firstn n s).
Proof.
  intros H. rewrite <- (firstn_skipn n s) in H. apply bytes_ok_app_inv in H. tauto.
Qed.

Lemma bytes_ok_skipn n s : bytes_ok s -> bytes_ok (skipn n s).
Proof.
  intros H. rewrite <- (firstn_skipn n s) in H. apply bytes_ok_app_inv in H. tauto.
Qed.

Lemma bytes_ok_rev s : bytes_ok s -> bytes_ok (rev s).
Proof. intros H. apply Forall_rev. exact H. Qed.

Lemma split3 (m : list Z) (p w : nat) :
  (p + w <= length m)%nat ->
  m = firstn p m ++ firstn w (skipn p m) ++ skipn (p + w) m /\
  length (firstn p m) = p /\ length (firstn w (skipn p m)) = w.
Proof.
  intros H. split; [|split].
  - rewrite <- (firstn_skipn p m) at 1. f_equal.
    rewrite <- (firstn_skipn w (skipn p m)) at 1. f_equal.
    rewrite skipn_skipn'. reflexivity.
  - apply firstn_length_le. lia.
  - apply firstn_length_le. rewrite skipn_length. lia.
Qed.

Lemma slice_number (m : list Z) (p w : nat) :
  bytes_ok m -> (p + w <= length m)%nat ->
  bufZ (firstn w (skipn p m)) = (bufZ m / 256 ^ Z.of_nat p) mod 256 ^ Z.of_nat w.
Proof.
  intros Hok Hlen.
  destruct (split3 m p w Hlen) as (E & L1 & L2).
  set (pre := firstn p m) in *. set (mid := firstn w (skipn p m)) in *. set (post := skipn (p + w) m) in *.
  rewrite E in Hok. apply bytes_ok_app_inv in Hok. destruct Hok as [Hpre Hrest].
  apply bytes_ok_app_inv in Hrest. destruct Hrest as [Hmid Hpost].
  rewrite E, !bufZ_app, L1, L2.
  pose proof (bufZ_range pre Hpre) as R1. rewrite L1 in R1.
  pose proof (bufZ_range mid Hmid) as R2. rewrite L2 in R2.
  pose proof (pow256_pos (Z.of_nat p) ltac:(lia)) as P1.
  pose proof (pow256_pos (Z.of_nat w) ltac:(lia)) as P2.
  set (A := 256 ^ Z.of_nat p) in *. set (Bw := 256 ^ Z.of_nat w) in *.
  replace (bufZ pre + A * (bufZ mid + Bw * bufZ post)) with (bufZ pre + (bufZ mid + Bw * bufZ post) * A) by ring.
  rewrite Z.div_add by lia. rewrite (Z.div_small (bufZ pre)) by lia. cbn [Z.add].
  replace (bufZ mid + Bw * bufZ post) with (bufZ mid + bufZ post * Bw) by ring.
  rewrite Z.mod_add by lia. symmetry. apply Z.mod_small. lia.
Qed.

Lemma in_obj_true m p : 0 <= p < Z.of_nat (length m) -> in_obj m p = true.
Proof. intros. unfold in_obj. apply andb_true_iff. split; [apply Z.leb_le|apply Z.ltb_lt]; lia. Qed.

Lemma rd_ok m p : 0 <= p < Z.of_nat (length m) -> rd m p = COk (nth (Z.to_nat p) m 0).
Proof. intros. unfold rd. now rewrite in_obj_true. Qed.

Lemma wr_ok m p v :
  0 <= p < Z.of_nat (length m) -> wr m p v = COk (upd m (Z.to_nat p) (v mod 256)).
Proof. intros. unfold wr. now rewrite in_obj_true. Qed.

Lemma upd_app_mid {A} (pre : list A) x post y :
  upd (pre ++ x :: post) (length pre) y = pre ++ y :: post.
Proof. induction pre; cbn [app length upd]; [reflexivity|now rewrite IHpre]. Qed.

Lemma rd_mid pre x post : rd (pre ++ x :: post) (Z.of_nat (length pre)) = COk x.
Proof. rewrite rd_ok, Nat2Z.id by (rewrite app_length; cbn [length]; lia). now rewrite nth_middle. Qed.

Lemma wr_mid pre x post v :
  wr (pre ++ x :: post) (Z.of_nat (length pre)) v = COk (pre ++ v mod 256 :: post).
Proof. rewrite wr_ok, Nat2Z.id by (rewrite app_length; cbn [length]; lia). now rewrite upd_app_mid. Qed.

Lemma snoc_mid {A} (pre : list A) x rest :
  pre ++ x :: rest = (pre ++ [x]) ++ rest /\ Z.of_nat (length pre) + 1 = Z.of_nat (length (pre ++ [x])).
Proof. rewrite <- app_assoc, app_length. cbn [length app]. split; [reflexivity|lia]. Qed.

Lemma ld_le_list (w : nat) : forall pre mid post,
  length mid = w ->
  ld_le w (pre ++ mid ++ post) (Z.of_nat (length pre)) = COk (bufZ mid).
Proof.
  induction w as [|w IH]; intros pre mid post Hm.
  - destruct mid; [reflexivity|discriminate].
  - destruct mid as [|x mid]; [discriminate|]. cbn [length] in Hm.
    cbn [ld_le app]. rewrite rd_mid. cbn [cbind].
    destruct (snoc_mid pre x (mid ++ post)) as [-> ->]. now rewrite IH by lia.
Qed.

Lemma st_le_list (w : nat) : forall pre mid post v,
  length mid = w ->
  st_le w (pre ++ mid ++ post) (Z.of_nat (length pre)) v = COk (pre ++ bytes_of w v ++ post).
Proof.
  induction w as [|w IH]; intros pre mid post v Hm.
  - destruct mid; [reflexivity|discriminate].
  - destruct mid as [|x mid]; [discriminate|]. cbn [length] in Hm.
    cbn [st_le app]. rewrite wr_mid. cbn [cbind].
    destruct (snoc_mid pre (v mod 256) (mid ++ post)) as [-> ->].
    rewrite IH by lia. cbn [bytes_of]. rewrite <- app_assoc. reflexivity.
Qed.

Lemma ld_le_number (w : nat) m p :
  bytes_ok m -> 0 <= p -> p + Z.of_nat w <= Z.of_nat (length m) ->
  ld_le w m p = COk ((bufZ m / 256 ^ p) mod 256 ^ Z.of_nat w).
Proof.
  intros Hok Hp Hlen.
  destruct (split3 m (Z.to_nat p) w ltac:(lia)) as (E & L1 & L2).
  pose proof (slice_number m (Z.to_nat p) w Hok ltac:(lia)) as Hs.
  rewrite Z2Nat.id in Hs by lia. rewrite <- Hs.
  set (pre := firstn (Z.to_nat p) m) in *. set (mid := firstn w (skipn (Z.to_nat p) m)) in *.
  set (post := skipn (Z.to_nat p + w) m) in *.
  rewrite E. replace p with (Z.of_nat (length pre)) by lia.
  apply ld_le_list. exact L2.
Qed.

Lemma st_le_number (w : nat) m p v :
  bytes_ok m -> 0 <= p -> p + Z.of_nat w <= Z.of_nat (length m) ->
  exists m',
    st_le w m p v = COk m' /\ length m' = length m /\ bytes_ok m' /\
    bufZ m' = bufZ m + (v mod 256 ^ Z.of_nat w - (bufZ m / 256 ^ p) mod 256 ^ Z.of_nat w) * 256 ^ p.
Proof.
  intros Hok Hp Hlen.
  destruct (split3 m (Z.to_nat p) w ltac:(lia)) as (E & L1 & L2).
  pose proof (slice_number m (Z.to_nat p) w Hok ltac:(lia)) as Hs.
  rewrite Z2Nat.id in Hs by lia.
  set (pre := firstn (Z.to_nat p) m) in *. set (mid := firstn w (skipn (Z.to_nat p) m)) in *.
  set (post := skipn (Z.to_nat p + w) m) in *.
  exists (pre ++ bytes_of w v ++ post).
  assert (Hok' := Hok). rewrite E in Hok'. apply bytes_ok_app_inv in Hok'. destruct Hok' as [Hpre Hrest].
  apply bytes_ok_app_inv in Hrest. destruct Hrest as [Hmid Hpost].
  split.
  { rewrite E. replace p with (Z.of_nat (length pre)) by lia. apply st_le_list. exact L2. }
  split.
  { rewrite E. rewrite !app_length, bytes_of_length, L2. reflexivity. }
  split.
  { apply bytes_ok_app; [assumption|]. apply bytes_ok_app; [apply bytes_of_ok|assumption]. }
  rewrite <- Hs. rewrite E. rewrite !bufZ_app, bufZ_bytes_of, bytes_of_length, L1, L2.
  rewrite Z2Nat.id by lia. ring.
Qed.

Lemma ld_be_list (w : nat) : forall pre mid post acc,
  length mid = w ->
  ld_be w (pre ++ mid ++ post) (Z.of_nat (length pre)) acc = COk (acc * 256 ^ Z.of_nat w + bufZ (rev mid)).
Proof.
  induction w as [|w IH]; intros pre mid post acc Hm.
  - destruct mid; [|discriminate]. cbn. f_equal. lia.
  - destruct mid as [|x mid]; [discriminate|]. cbn [length] in Hm.
    cbn [ld_be app]. rewrite rd_mid. cbn [cbind].
    destruct (snoc_mid pre x (mid ++ post)) as [-> ->]. rewrite IH by lia. f_equal. cbn [rev]. rewrite bufZ_app, rev_length. cbn [bufZ].
    replace (length mid) with w by lia.
    rewrite Nat2Z.inj_succ, Z.pow_succ_r by lia. ring.
Qed.

Lemma st_be_list (w : nat) : forall pre mid post v,
  length mid = w ->
  st_be w (pre ++ mid ++ post) (Z.of_nat (length pre)) v = COk (pre ++ rev (bytes_of w v) ++ post).
Proof.
  induction w as [|w IH]; intros pre mid post v Hm.
  - destruct mid; [reflexivity|discriminate].
  - destruct mid as [|x mid]; [discriminate|]. cbn [length] in Hm.
    cbn [st_be app]. rewrite wr_mid. cbn [cbind].
    destruct (snoc_mid pre ((v / 256 ^ Z.of_nat w) mod 256) (mid ++ post)) as [-> ->].
    rewrite IH by lia. rewrite <- app_assoc. cbn [app]. f_equal. f_equal.
    (* rev (bytes_of (S w) v) = b :: rev (bytes_of w v) *)
    assert (Hsnoc : forall k u, bytes_of (S k) u = bytes_of k u ++ [(u / 256 ^ Z.of_nat k) mod 256]).
    { clear. induction k as [|k IHk]; intros u.
      - cbn. now rewrite Z.div_1_r.
      - change (bytes_of (S (S k)) u) with (u mod 256 :: bytes_of (S k) (u / 256)).
        rewrite IHk. cbn [bytes_of app]. f_equal. f_equal. f_equal. f_equal.
        rewrite Nat2Z.inj_succ, Z.pow_succ_r by lia. rewrite Z.div_div by (try apply pow256_pos; lia). reflexivity. }
    rewrite Hsnoc, rev_app_distr. reflexivity.
Qed.

Lemma ld_whole E m : ld E (length m) m 0 = COk (native_val E m).
Proof.
  destruct E; cbn [ld native_val].
  - pose proof (ld_le_list (length m) [] m [] eq_refl) as H. cbn [app length] in H.
    rewrite app_nil_r in H. exact H.
  - pose proof (ld_be_list (length m) [] m [] 0 eq_refl) as H. cbn [app length] in H.
    rewrite app_nil_r in H. change (Z.of_nat 0) with 0 in H. rewrite H. reflexivity.
Qed.

Lemma st_whole E m v : st E (length m) m 0 v = COk (native_bytes E (length m) v).
Proof.
  destruct E; cbn [st native_bytes bytes_le].
  - pose proof (st_le_list (length m) [] m [] v eq_refl) as H. cbn [app length] in H.
    rewrite !app_nil_r in H. exact H.
  - pose proof (st_be_list (length m) [] m [] v eq_refl) as H. cbn [app length] in H.
    rewrite !app_nil_r in H. exact H.
Qed.

Lemma native_val_bytes E w v : native_val E (native_bytes E w v) = v mod 256 ^ Z.of_nat w.
Proof.
  destruct E; cbn [native_val native_bytes bytes_le].
  - apply bufZ_bytes_of.
  - rewrite rev_involutive. apply bufZ_bytes_of.
Qed.

Lemma native_bytes_length E w v : length (native_bytes E w v) = w.
Proof. destruct E; cbn [native_bytes bytes_le]; [|rewrite rev_length]; apply bytes_of_length. Qed.

Lemma native_bytes_ok E w v : bytes_ok (native_bytes E w v).
Proof. destruct E; cbn [native_bytes bytes_le]; [|apply bytes_ok_rev]; apply bytes_of_ok. Qed.

Lemma native_val_range E m : bytes_ok m -> 0 <= native_val E m < 256 ^ Z.of_nat (length m).
Proof.
  intros H. destruct E; cbn [native_val]; [apply bufZ_range; exact H|].
  rewrite <- rev_length. apply bufZ_range. apply bytes_ok_rev. exact H.
Qed.

Lemma native_bytes_val E m : bytes_ok m -> native_bytes E (length m) (native_val E m) = m.
Proof.
  intros H. destruct E; cbn [native_val native_bytes bytes_le].
  - apply bytes_of_bufZ. exact H.
  - rewrite <- (rev_length m). rewrite bytes_of_bufZ by (apply bytes_ok_rev; exact H). apply rev_involutive.
Qed.
