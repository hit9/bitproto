(* EmitDbuMain.v — C10_declared_before_use for the C header and the C source, standard and -O. *)
From Coq Require Import String Ascii List Bool Arith Lia.
From BP Require Import ListFacts EmitBase Emit EmitSpec EmitProofs EmitDbu.
From BPGen Require Import GenC10.
Import ListNotations.
Open Scope string_scope.
Open Scope list_scope.
Open Scope nat_scope.

Ltac split_and := apply andb_true_iff; split.

Section Main.
Variables (s : schema) (i : nat) (flt : list string).
Hypothesis Hwf : wf s = true.
Hypothesis Hi : i < length s.

Let fl := flat_file (getf s i).

Lemma refs_here fl1 fd fl2 r :
  fl = fl1 ++ fd :: fl2 -> In r (def_refs (fd_def fd)) -> ref_wf s i fl1 r = true.
Proof.
  intros E Hr. pose proof (proj1 (wf_inv s i Hwf Hi)) as Hf. unfold file_wf in Hf.
  apply andb_true_iff in Hf. destruct Hf as [_ Hf].
  pose proof (refs_wf_split s i fl [] fl1 fd fl2 Hf E) as H. cbn [app] in H.
  rewrite forallb_forall in H. apply H. exact Hr.
Qed.

Lemma ref_in_file_refs fl1 fd fl2 r :
  fl = fl1 ++ fd :: fl2 -> In r (def_refs (fd_def fd)) -> In r (file_refs s i).
Proof.
  intros E Hr. unfold file_refs. apply in_flat_map. exists fd. split; [|exact Hr].
  fold fl. rewrite E. apply in_or_app. right. left. reflexivity.
Qed.

(* where the declaration sits that a use from a reference names: earlier in the same dispatcher's
   list for this file, or in that dispatcher's list for a directly imported file *)
Lemma ref_decl t b fl1 fd fl2 r u :
  fl = fl1 ++ fd :: fl2 -> In r (def_refs (fd_def fd)) -> g_qualify (lang_of t) s i = true -> uses_ref s flt t b r u ->
  (r_via r = [] /\ In (u_ns u, u_name u) (map dkey (flat_map (dispatch_one s i flt b) fl1))) \/
  (exists m, r_via r = [m] /\ In (m, r_file r) (f_imports (getf s i)) /\
             In (u_ns u, u_name u) (map dkey (dispatcher s (r_file r) flt b))).
Proof.
  intros E Hr Hq [_ H].
  (* the guard admits at most one import hop in every language *)
  assert (Hs : single_hop r = true).
  { pose proof (ref_in_file_refs fl1 fd fl2 r E Hr) as Hin. unfold g_qualify in Hq.
    destruct (lang_of t); rewrite forallb_forall in Hq; specialize (Hq r Hin); [exact Hq | |];
      unfold direct_ref in Hq; unfold single_hop; destruct (r_via r) as [|m [|m2 via]]; try reflexivity; discriminate Hq. }
  destruct (ref_wf_cases s i fl1 r (refs_here fl1 fd fl2 r E Hr)) as [[Hv [Hf [fd' [Hin Ht]]]] | [Hv [Hfo [Hne [fd' [Hin Ht]]]]]];
    specialize (H fd' Ht).
  - left. split; [exact Hv|]. rewrite Hf in H. rewrite map_flat_map. apply in_flat_map. exists fd'. auto.
  - unfold single_hop in Hs. destruct (r_via r) as [|m [|m2 via]] eqn:Ev; try contradiction; [|cbn in Hs; discriminate].
    apply follow_one in Hfo. right. exists m. repeat split; [exact Hfo|]. apply (in_dispatcher s _ flt _ fd' _ Hin H).
Qed.

Definition inc_keys (t : target) : list key :=
  flat_map (fun mj => exports (fuel_of s) s t flt (snd mj)) (f_imports (getf s i)).

Lemma all_keys_h_includes t : lang_of t = LC -> all_keys s t flt (h_includes s i) = inc_keys t.
Proof.
  intros HL. unfold all_keys, h_includes, inc_keys. rewrite flat_map_concat_map, map_map.
  rewrite <- flat_map_concat_map. apply flat_map_ext. intros mj. rewrite HL. reflexivity.
Qed.

Lemma c_headers t : lang_of t = LC -> header_of t = TgH \/ header_of t = TgHO.
Proof. destruct t; try discriminate; auto. Qed.

Lemma header_has_ds t : lang_of t = LC -> In H_DataStructuresList (flat_map (expand 4) (blocklist (header_of t))).
Proof. intros HL. destruct (c_headers t HL) as [-> | ->]; vm_compute; auto 20. Qed.

(* in a header, what the data-structure dispatcher declares for the definition a reference
   resolves to has been seen: earlier in the same list, or through an #include *)
Lemma header_vis t fl1 fd fl2 r u seen all imps :
  lang_of t = LC ->
  fl = fl1 ++ fd :: fl2 -> In r (def_refs (fd_def fd)) -> g_qualify LC s i = true ->
  incl (inc_keys t) seen ->
  incl (map dkey (flat_map (dispatch_one s i flt H_DataStructuresList) fl1)) seen ->
  u_eager u = true -> uses_ref s flt t H_DataStructuresList r u -> amb s t flt all imps seen u.
Proof.
  intros HL E Hr Hq Hinc Hpre He Hu.
  destruct (c_quals t r HL) as [Q1 Q2].
  apply amb_seen; [destruct Hu as [[Hqu | Hqu] _]; congruence | exact He |].
  rewrite <- HL in Hq. destruct (ref_decl t _ fl1 fd fl2 r u E Hr Hq Hu) as [[_ H] | [m [_ [Him H]]]]; [apply Hpre, H|].
  apply Hinc. unfold inc_keys. apply in_flat_map. exists (m, r_file r). split; [exact Him|]. cbn [snd].
  apply (exports_disp s t flt _ H_DataStructuresList); [apply header_has_ds, HL | reflexivity | exact H].
Qed.

Lemma header_block t all imps fl1 fd fl2 seen :
  lang_of t = LC ->
  g_qualify LC s i = true ->
  fl = fl1 ++ fd :: fl2 ->
  incl (inc_keys t) seen ->
  incl (map dkey (flat_map (dispatch_one s i flt H_DataStructuresList) fl1)) seen ->
  dbu_go s t flt all seen imps (map IDecl (dispatch_one s i flt H_DataStructuresList fd)) = true.
Proof.
  intros HL Hq E Hinc Hpre.
  apply block_dbu.
  assert (Hty : forall own ty, incl (ty_refs ty) (def_refs (fd_def fd)) ->
                Forall (use_in s t flt all imps seen own) (c_type_uses s ty)).
  { intros own ty Hsub. apply use_in_amb, Forall_forall. intros u Hu.
    destruct (c_type_uses_from s flt t ty u HL Hu) as [r [Hr [He Hf]]].
    exact (header_vis t fl1 fd fl2 r u seen all imps HL E (Hsub r Hr) Hq Hinc Hpre He Hf). }
  destruct fd as [pth d]. cbn [fd_def] in Hty.
  destruct d as [n v | n ty | n w ms | n x nested fs]; unfold_dispatch.
  - repeat constructor.
  - split; [apply Hty, incl_refl | exact I].
  - rewrite app_nil_r. apply block_ok_all. intros d [<- | Hd]; [constructor|].
    apply in_map_iff in Hd. destruct Hd as [m [<- _]]. constructor.
  - repeat split; try apply Forall_nil. apply Forall_flat_map, Forall_forall. intros fld Hfld. apply in_sort_fl in Hfld.
    apply Hty. intros r Hr. cbn [def_refs]. apply in_flat_map. exists fld. split; assumption.
Qed.

Lemma own_tag_declared pth n x nested fs :
  In (mkF pth (DMsg n x nested fs)) fl ->
  In (NsTag, dname LC KMessage (own_px s i LC) pth n) (map dkey (dispatcher s i flt H_DataStructuresList)).
Proof.
  intros Hin. apply (in_dispatcher s i flt _ _ _ Hin). unfold_dispatch. right. left. reflexivity.
Qed.

(* prototypes, and the two functions of -O mode: the only generated name they use is the message's own struct tag *)
Lemma protos_ok t all imps seen b :
  (b = H_FunctionDeclarationsForUserList \/ b = H_FunctionDeclarationsForInternalList \/
   b = H_FunctionDeclarationsForUserListOpMode \/ b = C_BoundDefinitionListOpMode) ->
  incl (map dkey (dispatcher s i flt H_DataStructuresList)) seen ->
  dbu_go s t flt all seen imps (map IDecl (dispatcher s i flt b)) = true.
Proof.
  intros Hb Hseen. unfold dispatcher. apply dbu_go_flat_map. intros fl1 fd fl2 E.
  assert (Hfd : In fd fl) by (unfold fl; rewrite E; apply in_elt).
  apply (incl_appl (map dkey (flat_map (dispatch_one s i flt b) fl1))) in Hseen.
  set (seen0 := seen ++ _) in *. clearbody seen0.
  destruct fd as [pth d]. apply block_dbu, block_ok_all.
  assert (Htag : forall n x nested fs, d = DMsg n x nested fs ->
            amb s t flt all imps seen0 (mkUse NsTag "" (dname LC KMessage (own_px s i LC) pth n) true)).
  { intros n x nested fs ->. apply amb_seen; [reflexivity | reflexivity |].
    apply Hseen, (own_tag_declared pth n x nested fs), Hfd. }
  intros d' Hd. revert Hd.
  destruct d as [n v | n ty | n w ms | n x nested fs]; destruct Hb as [-> | [-> | [-> | ->]]]; unfold_dispatch;
    try (destruct (negb (passes_filter flt (DMsg n x nested fs))); cbn [flat_map app leaf fd_path fd_def]);
    cbn [In]; intros Hd; repeat (destruct Hd as [<- | Hd]); try contradiction;
    repeat (apply Forall_cons || apply Forall_nil); left; apply (Htag n x nested fs eq_refl).
Qed.

Theorem dbu_TgH : g_qualify LC s i = true -> dbu_b s TgH flt (render_items s i TgH flt) = true.
Proof.
  intros Hq. unfold dbu_b. rewrite items_TgH. set (all := all_keys s TgH flt _).
  change (h_guard s i :: ?l) with ([h_guard s i] ++ l). unfold disp. rewrite !dbu_go_app.
  split_and; [reflexivity|]. split_and; [apply dbu_go_imports_map|]. split_and; [|split_and].
  - unfold dispatcher. apply dbu_go_flat_map. intros fl1 fd fl2 E.
    apply (header_block TgH all _ fl1 fd fl2 _ eq_refl Hq E); [apply incl_appl | apply incl_appr, incl_refl].
    rewrite (all_keys_h_includes TgH eq_refl). apply incl_appr. apply incl_refl.
  - apply protos_ok; [auto|]. rewrite all_keys_decls. apply incl_appr. apply incl_refl.
  - apply protos_ok; [auto|]. rewrite !all_keys_decls. apply incl_appl. apply incl_appr. apply incl_refl.
Qed.

Theorem dbu_TgHO : g_qualify LC s i = true -> dbu_b s TgHO flt (render_items s i TgHO flt) = true.
Proof.
  intros Hq. unfold dbu_b. rewrite items_TgHO. set (all := all_keys s TgHO flt _).
  change (h_guard s i :: ?l) with ([h_guard s i] ++ l).
  change (IDecl ?d :: disp s i flt H_DataStructuresList ++ ?l) with ([IDecl d] ++ disp s i flt H_DataStructuresList ++ l).
  unfold disp. rewrite !dbu_go_app.
  split_and; [reflexivity|]. split_and; [apply dbu_go_imports_map|]. split_and; [reflexivity|]. split_and.
  - unfold dispatcher. apply dbu_go_flat_map. intros fl1 fd fl2 E.
    apply (header_block TgHO all _ fl1 fd fl2 _ eq_refl Hq E); [apply incl_appl | apply incl_appr, incl_refl].
    rewrite (all_keys_h_includes TgHO eq_refl). apply incl_appl. apply incl_appr. apply incl_refl.
  - apply protos_ok; [auto|]. rewrite all_keys_decls. apply incl_appr. apply incl_refl.
Qed.

Definition own_header (t : target) : list key := exports (fuel_of s) s t flt i.

Lemma header_includes t it : lang_of t = LC -> In it (h_includes s i) -> In it (render_items s i (header_of t) flt).
Proof.
  intros HL Hit. destruct (c_headers t HL) as [-> | ->]; [rewrite items_TgH | rewrite items_TgHO];
    right; apply in_or_app; left; exact Hit.
Qed.

Lemma visible_in_source t j b k :
  lang_of t = LC -> In b (flat_map (expand 4) (blocklist (header_of t))) -> is_dispatcher b = true ->
  (j = i \/ exists m, In (m, j) (f_imports (getf s i))) ->
  In k (map dkey (dispatcher s j flt b)) -> In k (own_header t).
Proof.
  intros HL Hb Hd Hj Hk. unfold own_header, fuel_of. destruct Hj as [-> | [m Him]].
  - apply (exports_disp s t flt i b k _ Hb Hd Hk).
  - destruct (length s) as [|n] eqn:El; [lia|].
    apply (exports_include s t flt i (S n) "" (c_import_target (f_proto (getf s j))) j k HL).
    + apply (header_includes t _ HL). unfold h_includes. apply in_map_iff. exists (m, j). split; [reflexivity | exact Him].
    + apply (exports_disp s t flt j b k _ Hb Hd Hk).
Qed.

(* the processor and the JSON formatter of an alias or a message have prototypes in the header *)
Lemma internal_from t r x :
  lang_of t = LC ->
  r_k r = RkAlias /\ (x = c_alias_processor_name (ref_name s LC r) \/ x = c_alias_json_formatter_name (ref_name s LC r)) \/
  r_k r = RkMsg /\ (x = c_msg_proc (ref_name s LC r) \/ x = c_msg_json (ref_name s LC r)) ->
  uses_ref s flt t H_FunctionDeclarationsForInternalList r (cuse NsOrd x).
Proof.
  intros HL Hx. split; [left; symmetry; apply (c_quals t r HL)|]. cbn [cuse u_ns u_name].
  intros [pth d] H. destruct (targets_inv r pth d H) as [-> [Hn Hk]]. unfold ref_name, ref_px in Hx.
  destruct (r_k r), d as [n v | n ty | n w ms | n y nested fs]; try contradiction; cbn [def_name class_of_rk] in *; subst n;
    destruct Hx as [[Hr Hx] | [Hr Hx]]; try discriminate Hr; destruct Hx as [-> | ->];
    unfold_dispatch; unfold own_px; cbn [map dkey d_ns d_name mk mkm app]; auto 8 with datatypes.
Qed.

Lemma c_bp_uses_from t ty u : lang_of t = LC ->
  In u (c_bp_uses s ty) ->
  exists r b, In r (ty_refs ty) /\ In b [H_DataStructuresList; H_FunctionDeclarationsForInternalList] /\
              u_eager u = true /\ uses_ref s flt t b r u.
Proof.
  intros HL Hu. destruct ty as [b | r | e cap x]; cbn [c_bp_uses] in Hu; try contradiction. exists r.
  pose proof (type_from s flt t r true) as F. rewrite HL, (base_disp_C t HL) in F.
  pose proof (internal_from t r) as I.
  destruct (r_k r); cbn [In] in Hu; repeat (destruct Hu as [<- | Hu]); try contradiction;
    first [ exists H_DataStructuresList; split; [left; reflexivity|]; split; [left; reflexivity|]; split; [reflexivity | exact F]
          | exists H_FunctionDeclarationsForInternalList; split; [left; reflexivity|]; split; [right; left; reflexivity|];
            split; [reflexivity | apply (I _ HL); auto 6] ].
Qed.

(* in a source file everything its own header declares or includes is visible *)
Lemma source_vis t fd r b u :
  lang_of t = LC -> header_of t = TgH ->
  In fd fl -> In r (def_refs (fd_def fd)) -> g_qualify LC s i = true ->
  In b [H_DataStructuresList; H_FunctionDeclarationsForInternalList] -> uses_ref s flt t b r u ->
  u_qual u = "" /\ In (u_ns u, u_name u) (own_header t).
Proof.
  intros HL Hh Hfd Hr Hq Hb Hu. destruct (in_split _ _ Hfd) as [fl1 [fl2 E]]. rewrite <- HL in Hq.
  destruct (c_quals t r HL) as [Q1 Q2]. split; [destruct Hu as [[Hqu | Hqu] _]; congruence|].
  assert (Hbl : In b (flat_map (expand 4) (blocklist (header_of t))) /\ is_dispatcher b = true).
  { rewrite Hh. destruct Hb as [<- | [<- | []]]; vm_compute; auto 20. }
  destruct (ref_decl t b fl1 fd fl2 r u E Hr Hq Hu) as [[_ H] | [m [_ [Him H]]]].
  - apply (visible_in_source t i b _ HL (proj1 Hbl) (proj2 Hbl) (or_introl eq_refl)).
    apply (proj1 (dkey_flat_map_incl _ _ fl1 fd fl2 E)), H.
  - apply (visible_in_source t (r_file r) b _ HL (proj1 Hbl) (proj2 Hbl)); eauto.
Qed.

Lemma own_tag_visible t pth n x nested fs :
  lang_of t = LC -> In (mkF pth (DMsg n x nested fs)) fl ->
  In (NsTag, dname LC KMessage (own_px s i LC) pth n) (own_header t).
Proof.
  intros HL Hin. apply (visible_in_source t i H_DataStructuresList _ HL (header_has_ds t HL) eq_refl (or_introl eq_refl)).
  apply (own_tag_declared pth n x nested fs Hin).
Qed.

(* In x (((_ ++ x :: _) ++ _) ++ _): x heads a right operand somewhere down the left spine *)
Ltac in_tail :=
  repeat first [ apply in_or_app; right; left; reflexivity | apply in_or_app; left ].

Section SourceBlocks.
Variable t : target.
Hypothesis HL : lang_of t = LC.
Hypothesis Hh : header_of t = TgH.
Hypothesis Hq : g_qualify LC s i = true.

Lemma ty_uses_ok fd ty all imps seen :
  In fd fl -> incl (ty_refs ty) (def_refs (fd_def fd)) -> incl (own_header t) seen ->
  Forall (amb s t flt all imps seen) (c_type_uses s ty) /\ Forall (amb s t flt all imps seen) (c_bp_uses s ty).
Proof.
  intros Hfd Hsub Hseen.
  assert (V : forall u r b, In r (ty_refs ty) -> In b [H_DataStructuresList; H_FunctionDeclarationsForInternalList] ->
              u_eager u = true -> uses_ref s flt t b r u -> amb s t flt all imps seen u).
  { intros u r b Hr Hb He Hf.
    destruct (source_vis t fd r b u HL Hh Hfd (Hsub r Hr) Hq Hb Hf) as [Hqu Hin].
    apply amb_seen; [exact Hqu | exact He | apply Hseen, Hin]. }
  split; apply Forall_forall; intros u Hu.
  - destruct (c_type_uses_from s flt t ty u HL Hu) as [r [Hr [He Hf]]].
    apply (V u r _ Hr (or_introl eq_refl) He Hf).
  - destruct (c_bp_uses_from t ty u HL Hu) as [r [b [Hr [Hb [He Hf]]]]]. apply (V u r b Hr Hb He Hf).
Qed.

Lemma source_block all imps fd seen :
  In fd fl -> incl (own_header t) seen ->
  dbu_go s t flt all seen imps (map IDecl (dispatch_one s i flt C_BoundDefinitionList fd)) = true.
Proof.
  intros Hfd Hown. apply block_dbu.
  pose proof (fun ty => ty_uses_ok (mkF (fd_path fd) (fd_def fd)) ty all imps seen) as Hty.
  destruct fd as [pth d]. cbn [fd_path fd_def] in Hty. specialize (fun ty H => Hty ty Hfd H Hown).
  destruct d as [n v | n ty | n w ms | n x nested fs]; unfold_dispatch; try exact I.
  - (* alias: the uses of its type, and for an array the two helpers defined just before *)
    cbn [def_refs] in Hty.
    destruct ty as [b | r | e cap x]; cbn [is_arr arr_elem app block_ok mk d_uses c_alias_bp_uses c_bp_uses].
    + repeat constructor.
    + repeat split; apply use_in_amb, (Hty (TRef r)), incl_refl.
    + set (cn := dname LC KAlias (own_px s i LC) pth n).
      assert (Hcall : forall own, In (NsOrd, c_array_processor_name_alias cn) own ->
                In (NsOrd, c_array_json_formatter_name_alias cn) own ->
                Forall (use_in s t flt all imps seen own)
                  (c_type_uses s e ++ [cuse NsOrd (c_array_processor_name_alias cn);
                                       cuse NsOrd (c_array_json_formatter_name_alias cn)])).
      { intros own H1 H2. apply Forall_app. split; [apply use_in_amb, (Hty e), incl_refl|].
        repeat (apply Forall_cons; [apply use_in_own; assumption|]). apply Forall_nil. }
      repeat split; try (apply use_in_amb, (Hty e), incl_refl); apply Hcall; cbn; auto.
  - (* message: the array helpers of its fields, then six functions; the struct tag comes from the header,
       the helper, initer, processor or formatter a later function calls stands earlier in the block *)
    assert (Hfld : forall fld, In fld (sort_fl fs) ->
              Forall (amb s t flt all imps seen) (c_type_uses s (arr_elem (fl_ty fld))) /\
              Forall (amb s t flt all imps seen) (c_bp_uses s (arr_elem (fl_ty fld)))).
    { intros fld Hf. apply Hty. intros r Hr. cbn [def_refs]. apply in_flat_map. exists fld.
      split; [apply in_sort_fl; exact Hf | destruct (fl_ty fld); exact Hr]. }
    assert (Htag : amb s t flt all imps seen (cuse NsTag (dname LC KMessage (own_px s i LC) pth n))).
    { apply amb_seen; [reflexivity | reflexivity |]. apply Hown, (own_tag_visible t pth n x nested fs HL Hfd). }
    assert (Harr : forall own (nm : field -> string),
              block_ok s t flt all imps seen own
                (map (fun fld => mk DkFunc NsOrd (nm fld) (c_bp_uses s (arr_elem (fl_ty fld))))
                     (filter (fun fld => is_arr (fl_ty fld)) (sort_fl fs)))).
    { intros own nm. apply block_ok_all. intros d Hd. apply in_map_iff in Hd. destruct Hd as [fld [<- Hf]].
      apply filter_In in Hf. apply use_in_amb, (Hfld fld (proj1 Hf)). }
    apply block_ok_app; [apply Harr | apply block_ok_app; [apply Harr|]].
    cbn [block_ok mk d_uses dkey d_ns d_name]. set (own0 := ([] ++ _) ++ _).
    repeat split; repeat apply Forall_cons; try apply Forall_nil;
      try (left; exact Htag); try (apply use_in_own; in_tail).
    apply Forall_flat_map, Forall_forall. intros fld Hf. unfold c_field_bp_uses.
    pose proof (Hfld fld Hf) as [Ht Hb].
    destruct (fl_ty fld) as [b | r | e cap x0] eqn:Ety; cbn [arr_elem] in Ht, Hb; [constructor | apply use_in_amb, Hb|].
    apply Forall_app. split; [apply use_in_amb, Ht|].
    assert (Hin : In fld (filter (fun fld => is_arr (fl_ty fld)) (sort_fl fs))).
    { apply filter_In. split; [exact Hf | rewrite Ety; reflexivity]. }
    repeat apply Forall_cons; try apply Forall_nil; apply use_in_own; unfold own0; rewrite !map_map; cbn [dkey mk d_ns d_name].
    + apply in_or_app. left. apply (in_map (fun fld => (NsOrd, _)) _ _ Hin).
    + apply in_or_app. right. apply (in_map (fun fld => (NsOrd, _)) _ _ Hin).
Qed.

End SourceBlocks.

Theorem dbu_TgC : g_qualify LC s i = true -> dbu_b s TgC flt (render_items s i TgC flt) = true.
Proof.
  intros Hq. unfold dbu_b. rewrite items_TgC. set (all := all_keys s TgC flt _).
  change (c_self_include s i :: ?l) with ([c_self_include s i] ++ l). rewrite dbu_go_app.
  split_and; [reflexivity|]. unfold disp, dispatcher. apply dbu_go_flat_map. intros fl1 fd fl2 E.
  apply (source_block TgC eq_refl eq_refl Hq all _ fd); [unfold fl; rewrite E; apply in_elt | apply incl_appl].
  unfold all_keys, c_self_include. cbn [flat_map lang_of]. rewrite app_nil_r. apply incl_refl.
Qed.

Theorem dbu_TgCO : dbu_b s TgCO flt (render_items s i TgCO flt) = true.
Proof.
  unfold dbu_b. rewrite items_TgCO. set (all := all_keys s TgCO flt _).
  change (c_self_include s i :: ?l) with ([c_self_include s i] ++ l). rewrite dbu_go_app.
  split_and; [reflexivity|]. apply protos_ok; [auto|]. intros k Hk. apply in_or_app. right.
  unfold all_keys, c_self_include. cbn [flat_map lang_of]. rewrite app_nil_r.
  apply (visible_in_source TgCO i H_DataStructuresList k eq_refl (header_has_ds TgCO eq_refl) eq_refl (or_introl eq_refl) Hk).
Qed.

End Main.
