(* PyEncStep.v — process_base_type (encode direction) writes exactly the low n bits of
   the accessor's integer at the cursor, for every n, cursor and integer (no bound). *)
From Coq Require Import ZArith List Bool Lia.
From BP Require Import Bits Schema PyRt ByteStep.
From BPGen Require Import GenPy.
Import ListNotations.
Open Scope Z_scope.

(* bits [j, j+c) of z, read through the byte the accessor hands out *)
Lemma byte_slice z j c :
  0 <= j -> 0 <= c -> c <= 8 - j mod 8 ->
  Z.shiftr (Z.land (Z.shiftr z (j / 8 * 8)) 255) (j mod 8) mod 2 ^ c = (z / 2 ^ j) mod 2 ^ c.
Proof.
  intros Hj Hc Hle. pose proof (Z.mod_pos_bound j 8 ltac:(lia)).
  assert (0 <= j / 8) by (apply Z.div_pos; lia).
  change 255 with (Z.ones 8). rewrite Z.land_ones, !Z.shiftr_div_pow2, (Z.mul_comm (j / 8)) by lia.
  now apply chunk_byte.
Qed.

(* sf is the finished stream (Bits.cut): at cursor i the encoder holds [cut sf i] *)
Section PBT.
  Variables (c : cls) (acc : val) (fn : Z) (stk : list nat) (z : Z).
  Hypothesis Hget :
    forall r, 0 <= r -> get_byte c acc fn stk r = Ok (Z.land (Z.shiftr z r) 255).
  Variable sf : list Z.

  Lemma enc_single_byte_cut j cnt i :
    0 <= i -> i + cnt <= 8 * Z.of_nat (length sf) ->
    0 <= j -> 1 <= cnt -> cnt <= 8 - j mod 8 -> cnt <= 8 - i mod 8 ->
    chunk (bufZ sf) i cnt = chunk z j cnt ->
    enc_single_byte c acc fn stk j cnt {| cs := cut sf i; ci := i |} =
    Ok {| cs := cut sf (i + cnt); ci := i |}.
  Proof.
    intros Hi Hlen Hj Hc1 Hc2 Hc3 Hch.
    set (m := chunk z j cnt). assert (Hm : 0 <= m < 2 ^ cnt) by (apply chunk_range; lia).
    pose proof (Z.mod_pos_bound i 8 ltac:(lia)) as Hr.
    destruct (bufZ_place (cut sf i) i m cnt (cut_bytes_ok _ _) ltac:(rewrite cut_length; lia)
                (proj2 (bufZ_cut sf i ltac:(lia))) ltac:(lia) Hc3 Hm) as (Hold & Hnv & Hpl).
    unfold enc_single_byte, enc_rshift, enc_index. cbn [cs ci].
    rewrite Hget by (Z.div_mod_to_equations; lia). cbn [bind].
    rewrite enc_d_spec, byte_slice by lia. change ((z / 2 ^ j) mod 2 ^ cnt) with m.
    destruct (nth_error (cut sf i) (Z.to_nat (i / 8))) as [old|] eqn:Hnth.
    2:{ apply nth_error_None in Hnth. rewrite cut_length in Hnth. Z.div_mod_to_equations; lia. }
    rewrite (nth_error_nth _ _ 0 Hnth) in Hold, Hnv, Hpl.
    (* the byte holds nothing at or above the cursor's bit: |= adds *)
    rewrite lor_disjoint_low by lia. unfold is_byte in Hnv.
    set (nv := old + m * 2 ^ (i mod 8)) in *.
    replace ((0 <=? nv) && (nv <? 256)) with true
      by (symmetry; apply andb_true_iff; split; [apply Z.leb_le|apply Z.ltb_lt]; lia).
    do 2 f_equal. apply cut_next; try lia. now rewrite Hch.
  Qed.

  (* the loop: at chunk offset j the buffer is sf cut at i0 + j *)
  Lemma pbt_enc_cut n i0 :
    0 <= i0 -> i0 + n <= 8 * Z.of_nat (length sf) -> chunk (bufZ sf) i0 n = chunk z 0 n ->
    forall fuel j,
      (Z.to_nat (n - j) <= fuel)%nat -> 0 <= j <= n ->
      pbt_enc fuel n c acc fn stk j {| cs := cut sf (i0 + j); ci := i0 + j |} =
      Ok {| cs := cut sf (i0 + n); ci := i0 + n |}.
  Proof.
    intros Hi0 Hlen Hch. induction fuel as [|f IH]; intros j Hfuel Hj; cbn [pbt_enc].
    - (* no fuel is needed only when j = n *)
      assert (j = n) by lia. subst j. now rewrite Z.ltb_irrefl.
    - destruct (Z.ltb_spec j n) as [Hjn|Hjn]; [|assert (j = n) by lia; now subst j].
      cbn [cs ci].
      pose proof (nbits_to_copy_range (i0 + j) j n ltac:(lia)) as (Hc1 & Hc2 & Hc3 & Hc4).
      set (cnt := get_nbits_to_copy (i0 + j) j n) in *.
      rewrite enc_single_byte_cut; try lia.
      2:{ rewrite <- (chunk_chunk (bufZ sf) i0 n), Hch, chunk_chunk by lia. reflexivity. }
      cbn [bind cs ci]. replace (i0 + j + cnt) with (i0 + (j + cnt)) by lia. apply IH; lia.
  Qed.

  Lemma pbt_enc_at n i :
    0 <= n -> 0 <= i -> i + n <= 8 * Z.of_nat (length sf) -> chunk (bufZ sf) i n = z mod 2 ^ n ->
    pbt_enc (fuel_of n) n c acc fn stk 0 {| cs := cut sf i; ci := i |} =
    Ok {| cs := cut sf (i + n); ci := i + n |}.
  Proof.
    intros Hn Hi Hlen Hch.
    pose proof (pbt_enc_cut n i Hi Hlen ltac:(now rewrite chunk_0) (fuel_of n) 0) as H.
    rewrite Z.add_0_r in H. apply H; [unfold fuel_of|]; lia.
  Qed.
End PBT.
