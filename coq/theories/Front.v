(* Front.v — executable model of bitproto's front end (parser.py semantic actions + _ast.py
   validators), used by C08 / C11 / C12.

   INPUT of the model: a surface syntax tree of .bitproto files ([files]); ply's tokenizer and
   LALR driver are NOT modelled here (they are in Lex.v and LR.v).  Every statement carries the
   line number of its tokens (a statement other than a scope head cannot span lines: NEWLINE is
   a grammar unit).

   What is representable and what is not
   -------------------------------------
   * every production of grammars.py has a constructor of [item]; ONE item type is used for
     the three kinds of scope (file / message / enum) and the scope decides, exactly like the
     grammar's `*_item_unsupported` productions do, what happens to an item it does not admit:
     the item is first processed completely (its own errors come first, it is pushed into the
     scope: duplicate-name check), then the `...Unsupported` error is raised;
   * items the grammar has no production for in a scope (a message field or enum member at file
     level, an enum member inside a message, an enum over a non-uint base) are representable
     and yield [KGrammar] at their line (checked by T2 for these shapes only);
   * NOT representable (text-level, see C09): two-dimensional arrays by double brackets, array
     capacities / field numbers written as expressions or hex, negative literals, anything
     that is not a token sequence of the grammar; the deprecated `typedef T name` spelling,
     comments, blank lines, optional semicolons, hex spelling of integers and the spelling of
     import paths are trivia of the printer (tools/front_gen.py) and absent from the tree;
   * lexer look-ahead: ply reads ONE token ahead before some reductions, and a `uintN`/`intN`
     token with a bad N raises while it is being read.  The model orders events by statement;
     it is exact when every statement is followed by `;`, a newline, a comment or `}` (the
     printer guarantees this).

   OUTPUT: [check fs root trad] = [Ok proto_def] | [Err kind file line] where [kind] is the
   bitproto error class, file/line what the error cites. *)
From Coq Require Import ZArith List Bool String.
From BP Require Import Schema FrontBase.
From BPGen Require GenFront.
Import ListNotations.
Open Scope Z_scope.

(* ------------------------------------------------------------------------------------ *)
(* surface syntax                                                                         *)
(* ------------------------------------------------------------------------------------ *)

Definition path := list string.                    (* dotted identifier a.b.c *)

Inductive sty : Type :=                            (* grammar: single_type *)
| SBool | SByte
| SUint (n : Z) | SInt (n : Z)
| SRef (p : path).

Inductive capx : Type := CapLit (z : Z) | CapRef (p : path).     (* array_capacity *)

Inductive tyx : Type :=                            (* grammar: type *)
| XSingle (s : sty)
| XArr (s : sty) (c : capx) (ext : bool).

Inductive cexpr : Type :=                          (* calculation_expression, as a tree *)
| EInt (z : Z)
| ERef (p : path)
| EAdd (a b : cexpr) | ESub (a b : cexpr) | EMul (a b : cexpr) | EDiv (a b : cexpr).

Inductive cvalx : Type :=                          (* const_value *)
| CBool (b : bool) | CStr (s : string)
| CRef (p : path)                                  (* a bare reference: any constant kind *)
| CExpr (e : cexpr).                               (* printed so that it is not a bare name *)

Inductive optx : Type := OLit (v : cval) | ORef (p : path).     (* option_value *)

Inductive item : Type :=
| IProto (l : Z) (name : string)
| IImport (l : Z) (asname : option string) (file : string)
| IOption (l : Z) (name : string) (v : optx)
| IConst (l : Z) (name : string) (v : cvalx)
| IAlias (l : Z) (name : string) (t : tyx)
| IEnum (l : Z) (name : string) (base : sty) (body : list item)
| IMsg (l : Z) (name : string) (ext : bool) (body : list item)
| IField (l : Z) (t : tyx) (name : string) (num : Z)
| IEnumField (l : Z) (name : string) (v : Z).

Definition files := list (string * list item).     (* canonical file key -> content *)

(* ------------------------------------------------------------------------------------ *)
(* outcome                                                                                *)
(* ------------------------------------------------------------------------------------ *)

Inductive kind : Type :=
| KInvalidUintCap | KInvalidIntCap | KInvalidArrayCap
| KDuplicatedDefinition | KDuplicatedImport | KCyclicImport
| KRefConstNotDefined | KRefNotConst | KRefTypeNotDefined | KRefNotType
| KInvalidEnumFieldValue | KEnumValueOverflow | KDupEnumValue
| KInvalidAliasedType | KInvalidFieldNumber | KDupFieldNumber
| KUnsupportedOption | KInvalidOptionValue | KMessageSizeOverflows
| KAliasInMessage | KConstInMessage | KImportInMessage | KProtoNameOutOfScope
| KAliasInEnum | KConstInEnum | KImportInEnum | KOptionInEnum | KEnumInEnum | KMessageInEnum
| KFieldInEnum
| KProtoNameUndefined | KExtensibleInTraditional | KCalcExpr
| KGrammar
| KIOError              (* OSError from open()/samefile(): not a ParserError, fatal(str(e)) *)
| KFuel.                (* never returned by [check] (FrontValidProofs.check_fuel_enough) *)

Inductive res (A : Type) : Type :=
| Ok (a : A)
| Err (k : kind) (file : string) (line : Z).
Arguments Ok {A} a.
Arguments Err {A} k file line.

Definition bind {A B} (r : res A) (f : A -> res B) : res B :=
  match r with Ok a => f a | Err k fl l => Err k fl l end.
Notation "'do' x <- r ; k" := (bind r (fun x => k)) (at level 200, x pattern, r at level 100, k at level 200).

(* ------------------------------------------------------------------------------------ *)
(* definitions (the parsed, frozen nodes)                                                 *)
(* ------------------------------------------------------------------------------------ *)

Record loc : Type := mkloc { lfile : string; lline : Z }.

Inductive def : Type :=
| DConst (at_ : loc) (v : cval)
| DAlias (at_ : loc) (t : ty) (r : option loc)       (* t: the aliased type; r: what its name resolved to *)
| DEnum (at_ : loc) (t : ty) (mem : list (string * def))
| DMsg (at_ : loc) (t : ty) (mem : list (string * def))
| DProto (file : string) (name : string) (mem : list (string * def))
| DOption (at_ : loc) (v : cval)
| DField (at_ : loc) (num : Z) (t : ty) (r : option loc)
| DEnumField (at_ : loc) (v : Z).

Definition def_loc (d : def) : loc :=
  match d with
  | DConst a _ | DAlias a _ _ | DEnum a _ _ | DMsg a _ _ | DOption a _ | DField a _ _ _ | DEnumField a _ => a
  | DProto f _ _ => mkloc f 0                        (* Proto: token "", lineno 0 *)
  end.

(* isinstance(d, Type): the type a reference to d denotes *)
Definition def_type (d : def) : option ty :=
  match d with
  | DAlias _ t _ => Some (TAlias t)
  | DEnum _ t _ => Some t
  | DMsg _ t _ => Some t
  | _ => None
  end.

Definition def_const (d : def) : option cval :=
  match d with DConst _ v => Some v | _ => None end.

(* isinstance(d, Scope): members *)
Definition def_members (d : def) : option (list (string * def)) :=
  match d with
  | DEnum _ _ m | DMsg _ _ m | DProto _ _ m => Some m
  | _ => None
  end.

Fixpoint assoc {A} (n : string) (l : list (string * A)) : option A :=
  match l with
  | [] => None
  | h :: r => if String.eqb (fst h) n then Some (snd h) else assoc n r
  end.

(* Scope.get_member( *names ) *)
Fixpoint get_member (mem : list (string * def)) (p : path) : option def :=
  match p with
  | [] => None
  | n :: rest =>
      match assoc n mem with
      | None => None
      | Some d =>
          match rest with
          | [] => Some d
          | _ :: _ => match def_members d with
                      | Some m => get_member m rest
                      | None => None
                      end
          end
      end
  end.

(* ------------------------------------------------------------------------------------ *)
(* scope stack                                                                            *)
(* ------------------------------------------------------------------------------------ *)

Inductive fkind : Type :=
| FProto (name : option string)
| FMsg (at_ : loc) (ext : bool)
| FEnum (at_ : loc) (n : Z).

(* a scope under construction; members newest first *)
Record frame : Type := mkframe { fk : fkind; fmem : list (string * def) }.

(* Parser._lookup_referenced_member: the stack is given innermost first (the scope being
   defined is its head), so the reverse walk of the Python list is a left-to-right walk *)
Fixpoint lookup (st : list frame) (p : path) : option def :=
  match st with
  | [] => None
  | f :: r => match get_member (fmem f) p with
              | Some d => Some d
              | None => lookup r p
              end
  end.

Fixpoint last_frame (cur : frame) (outer : list frame) : frame :=
  match outer with [] => cur | f :: r => last_frame f r end.

(* ------------------------------------------------------------------------------------ *)
(* sizes (arithmetic from GenFront)                                                       *)
(* ------------------------------------------------------------------------------------ *)

Fixpoint ty_nbits (t : ty) : Z :=
  match t with
  | TBool => GenFront.bool_nbits
  | TByte => GenFront.byte_nbits
  | TUint n => n
  | TInt n => n
  | TEnum n _ => n
  | TAlias t => ty_nbits t
  | TArr x cap e => GenFront.array_nbits (Z.of_nat cap) (ty_nbits e) x
  | TMsg x fs =>
      GenFront.message_nbits
        ((fix go (l : list (Z * ty)) : Z :=
            match l with
            | [] => 0
            | kf :: r => ty_nbits (snd kf) + go r
            end) fs) x
  end.

(* ------------------------------------------------------------------------------------ *)
(* references, types, constants                                                           *)
(* ------------------------------------------------------------------------------------ *)

Section Resolve.
  Variable file : string.
  Variable trad : bool.
  Variable st : list frame.           (* innermost first *)
  Variable l : Z.

  (* p_type_reference *)
  Definition resolve_type_ref (p : path) : res (ty * option loc) :=
    match lookup st p with
    | None => Err KRefTypeNotDefined file l
    | Some d => match def_type d with
                | Some t => Ok (t, Some (def_loc d))
                | None => Err KRefNotType file l
                end
    end.

  (* p_constant_reference *)
  Definition resolve_const_ref (p : path) : res cval :=
    match lookup st p with
    | None => Err KRefConstNotDefined file l
    | Some d => match def_const d with
                | Some v => Ok v
                | None => Err KRefNotConst file l
                end
    end.

  (* lexer (Uint/Int are validated when the token is built) + p_single_type *)
  Definition resolve_sty (s : sty) : res (ty * option loc) :=
    match s with
    | SBool => Ok (TBool, None)
    | SByte => Ok (TByte, None)
    | SUint n => if GenFront.uint_cap_raises n then Err KInvalidUintCap file l else Ok (TUint n, None)
    | SInt n => if GenFront.int_cap_raises n then Err KInvalidIntCap file l else Ok (TInt n, None)
    | SRef p => resolve_type_ref p
    end.

  (* p_array_capacity / p_constant_reference_for_array_capacity *)
  Definition resolve_cap (c : capx) : res Z :=
    match c with
    | CapLit z => Ok z
    | CapRef p => do v <- resolve_const_ref p;
                  match v with
                  | CVInt z => Ok z
                  | _ => Err KInvalidArrayCap file l
                  end
    end.

  (* p_type / p_array_type (+ p_optional_extensible_flag, Array.validate_post_freeze; the
     element-type test of Array cannot fail for anything the grammar produces) *)
  Definition resolve_tyx (t : tyx) : res (ty * option loc) :=
    match t with
    | XSingle s => resolve_sty s
    | XArr s c ext =>
        do er <- resolve_sty s;
        do n <- resolve_cap c;
        if ext && trad then Err KExtensibleInTraditional file l else
        if GenFront.array_cap_raises n then Err KInvalidArrayCap file l else
        Ok (TArr ext (Z.to_nat n) (fst er), snd er)
    end.

  (* calculation expressions: operands left to right; Python floor division *)
  Fixpoint eval_cexpr (e : cexpr) : res Z :=
    match e with
    | EInt z => Ok z
    | ERef p => do v <- resolve_const_ref p;
                match v with
                | CVInt z => Ok z
                | _ => Err KCalcExpr file l
                end
    | EAdd a b => do x <- eval_cexpr a; do y <- eval_cexpr b; Ok (x + y)
    | ESub a b => do x <- eval_cexpr a; do y <- eval_cexpr b; Ok (x - y)
    | EMul a b => do x <- eval_cexpr a; do y <- eval_cexpr b; Ok (x * y)
    | EDiv a b => do x <- eval_cexpr a; do y <- eval_cexpr b;
                  if y =? 0 then Err KCalcExpr file l else Ok (x / y)   (* fix ba6c9a1 *)
    end.

  Definition eval_cvalx (v : cvalx) : res cval :=
    match v with
    | CBool b => Ok (CVBool b)
    | CStr s => Ok (CVStr s)
    | CRef p => resolve_const_ref p
    | CExpr e => do z <- eval_cexpr e; Ok (CVInt z)
    end.

  Definition eval_optx (v : optx) : res cval :=
    match v with
    | OLit v => Ok v
    | ORef p => resolve_const_ref p
    end.
End Resolve.

(* the first token of a type (what the lexer sees first) *)
Definition tyx_head (t : tyx) : sty := match t with XSingle s => s | XArr s _ _ => s end.

(* a production that does not exist in the scope: the lexer still validates a uintN/intN
   token before the parser rejects it *)
Definition lex_then_grammar {A} (file : string) (l : Z) (s : sty) : res A :=
  match s with
  | SUint n => if GenFront.uint_cap_raises n then Err KInvalidUintCap file l else Err KGrammar file l
  | SInt n => if GenFront.int_cap_raises n then Err KInvalidIntCap file l else Err KGrammar file l
  | _ => Err KGrammar file l
  end.

(* ------------------------------------------------------------------------------------ *)
(* pushing members                                                                        *)
(* ------------------------------------------------------------------------------------ *)

Definition has_name (n : string) (mem : list (string * def)) : bool :=
  match assoc n mem with Some _ => true | None => false end.

(* ScopeWithOptions.validate_option_on_push *)
Definition validate_option (table : list odesc) (at_ : loc) (name : string) (v : cval) : res unit :=
  match find_odesc name table with
  | None => Err KUnsupportedOption (lfile at_) (lline at_)
  | Some d =>
      if negb (vclass_eqb (class_of v) (class_of (od_default d)))
      then Err KInvalidOptionValue (lfile at_) (lline at_)
      else match od_validator d, v with
           | Some f, CVInt z => if f z then Ok tt else Err KInvalidOptionValue (lfile at_) (lline at_)
           | _, _ => Ok tt
           end
  end.

Definition field_numbers (mem : list (string * def)) : list Z :=
  flat_map (fun nd => match snd nd with DField _ n _ _ => [n] | _ => [] end) mem.

Definition enum_values (mem : list (string * def)) : list Z :=
  flat_map (fun nd => match snd nd with DEnumField _ v => [v] | _ => [] end) mem.

Definition mem_z (z : Z) (l : list Z) : bool := existsb (Z.eqb z) l.

(* <scope>.validate_member_on_push *)
Definition validate_on_push (f : frame) (name : string) (d : def) : res unit :=
  let a := def_loc d in
  match fk f, d with
  | FProto _, DOption _ v => validate_option GenFront.proto_opttions a name v
  | FMsg _ _, DOption _ v => validate_option GenFront.message_options a name v
  | FMsg _ _, DField _ n _ _ =>
      if mem_z n (field_numbers (fmem f)) then Err KDupFieldNumber (lfile a) (lline a) else Ok tt
  | FEnum _ nb, DEnumField _ v =>
      if GenFront.enum_value_overflows v nb then Err KEnumValueOverflow (lfile a) (lline a)
      else if mem_z v (enum_values (fmem f)) then Err KDupEnumValue (lfile a) (lline a)
      else Ok tt
  | _, _ => Ok tt
  end.

(* Scope.push_member *)
Definition push_member (f : frame) (name : string) (d : def) : res frame :=
  if has_name name (fmem f)
  then Err KDuplicatedDefinition (lfile (def_loc d)) (lline (def_loc d))
  else do _ <- validate_on_push f name d;
       Ok (mkframe (fk f) ((name, d) :: fmem f)).

(* ------------------------------------------------------------------------------------ *)
(* closing scopes                                                                         *)
(* ------------------------------------------------------------------------------------ *)

Definition msg_fields (mem : list (string * def)) : list (Z * ty) :=
  flat_map (fun nd => match snd nd with DField _ n t _ => [(n, t)] | _ => [] end) mem.

Definition option_value (name : string) (mem : list (string * def)) : option cval :=
  match assoc name mem with
  | Some (DOption _ v) => Some v
  | _ => None
  end.

Definition max_bytes_of (mem : list (string * def)) : Z :=
  match option_value GenFront.max_bytes_option_name mem with
  | Some (CVInt z) => z
  | _ => match find_odesc GenFront.max_bytes_option_name GenFront.message_options with
         | Some d => match od_default d with CVInt z => z | _ => 0 end
         | None => 0
         end
  end.

(* p_close_message_scope: Message.freeze() -> validate_post_freeze *)
Definition close_msg (a : loc) (ext : bool) (f : frame) : res def :=
  let mem := rev (fmem f) in
  let t := TMsg ext (msg_fields mem) in
  let nb := ty_nbits t in
  if GenFront.message_size_raises nb then Err KMessageSizeOverflows (lfile a) (lline a) else
  if GenFront.message_max_bytes_raises (max_bytes_of mem) (GenFront.nbytes nb)
  then Err KMessageSizeOverflows (lfile a) (lline a) else
  Ok (DMsg a t mem).

Definition close_enum (a : loc) (n : Z) (f : frame) : def :=
  let mem := rev (fmem f) in
  DEnum a (TEnum n (enum_values mem)) mem.

(* the `*_item_unsupported` productions, after the item has been built and pushed *)
Inductive ikind : Type := IKAlias | IKConst | IKOption | IKEnum | IKMsg | IKField.

Definition unsupported (f : frame) (ik : ikind) (a : loc) : res unit :=
  match fk f, ik with
  | FMsg _ _, IKAlias => Err KAliasInMessage (lfile a) (lline a)
  | FMsg _ _, IKConst => Err KConstInMessage (lfile a) (lline a)
  | FEnum _ _, IKAlias => Err KAliasInEnum (lfile a) (lline a)
  | FEnum _ _, IKConst => Err KConstInEnum (lfile a) (lline a)
  | FEnum _ _, IKOption => Err KOptionInEnum (lfile a) (lline a)
  | FEnum _ _, IKEnum => Err KEnumInEnum (lfile a) (lline a)
  | FEnum _ _, IKMsg => Err KMessageInEnum (lfile a) (lline a)
  | FEnum _ _, IKField => Err KFieldInEnum (lfile a) (lline a)
  | _, _ => Ok tt
  end.

Definition is_proto_frame (f : frame) : bool := match fk f with FProto _ => true | _ => false end.
Definition is_enum_frame (f : frame) : bool := match fk f with FEnum _ _ => true | _ => false end.

(* Scope.protos(recursive=False) of the current proto: files already imported *)
Definition imported_files (mem : list (string * def)) : list string :=
  flat_map (fun nd => match snd nd with DProto f _ _ => [f] | _ => [] end) mem.

Definition mem_s (s : string) (l : list string) : bool := existsb (String.eqb s) l.

(* ------------------------------------------------------------------------------------ *)
(* the parser's semantic actions, item by item                                            *)
(* ------------------------------------------------------------------------------------ *)

Section Proc.
  (* parse_child: filepath stack (current file first) -> file -> its Proto *)
  Variable parse_child : list string -> string -> res def.
  Variable known_file : string -> bool.
  Variable trad : bool.
  Variable file : string.
  Variable fstack : list string.      (* files being parsed, [file] first *)

  Definition push_then (cur : frame) (ik : ikind) (name : string) (d : def) : res frame :=
    do f' <- push_member cur name d;
    do _ <- unsupported cur ik (def_loc d);
    Ok f'.

  (* [outer]: enclosing scopes of the current file, innermost first; [cur]: the scope the
     item is a member of.  Result: the updated current scope. *)
  Fixpoint proc_item (outer : list frame) (cur : frame) (it : item) {struct it} : res frame :=
    let st := cur :: outer in
    match it with
    | IProto l name =>
        match fk cur with
        | FProto _ => Ok (mkframe (FProto (Some name)) (fmem cur))
        | _ => Err KProtoNameOutOfScope file l
        end
    | IImport l asn g =>
        (* _check_parsing_file: os.path.samefile raises OSError on a missing file *)
        if negb (known_file g) then Err KIOError g 0 else
        if mem_s g fstack then Err KCyclicImport file l else
        let pf := last_frame cur outer in
        if mem_s g (imported_files (fmem pf)) then Err KDuplicatedImport file l else
        do child <- parse_child fstack g;
        let name := match asn, child with
                    | Some n, _ => n
                    | None, DProto _ n _ => n
                    | None, _ => EmptyString
                    end in
        if has_name name (fmem pf) then Err KDuplicatedDefinition file l else
        do f' <- push_member cur name child;
        match fk cur with
        | FProto _ => Ok f'
        | FMsg _ _ => Err KImportInMessage file l       (* fix 5271e56: cites the import statement *)
        | FEnum _ _ => Err KImportInEnum file l
        end
    | IOption l name v =>
        do cv <- eval_optx file st l v;
        push_then cur IKOption name (DOption (mkloc file l) cv)
    | IConst l name v =>
        do cv <- eval_cvalx file st l v;
        push_then cur IKConst name (DConst (mkloc file l) cv)
    | IAlias l name t =>
        do tr <- resolve_tyx file trad st l t;
        match t with
        | XSingle (SRef _) => Err KInvalidAliasedType file l      (* target is a Definition *)
        | _ => push_then cur IKAlias name (DAlias (mkloc file l) (fst tr) (snd tr))
        end
    | IEnum l name base body =>
        match base with
        | SUint n =>
            if GenFront.uint_cap_raises n then Err KInvalidUintCap file l else
            let a := mkloc file l in
            do fr <- (fix go (its : list item) (f : frame) : res frame :=
                        match its with
                        | [] => Ok f
                        | i :: r => do f' <- proc_item st f i; go r f'
                        end) body (mkframe (FEnum a n) []);
            push_then cur IKEnum name (close_enum a n fr)
        | _ => lex_then_grammar file l base
        end
    | IMsg l name ext body =>
        if ext && trad then Err KExtensibleInTraditional file l else
        let a := mkloc file l in
        do fr <- (fix go (its : list item) (f : frame) : res frame :=
                    match its with
                    | [] => Ok f
                    | i :: r => do f' <- proc_item st f i; go r f'
                    end) body (mkframe (FMsg a ext) []);
        do d <- close_msg a ext fr;
        push_then cur IKMsg name d
    | IField l t name num =>
        if is_proto_frame cur then lex_then_grammar file l (tyx_head t) else
        do tr <- resolve_tyx file trad st l t;
        if GenFront.field_number_raises num then Err KInvalidFieldNumber file l else
        push_then cur IKField name (DField (mkloc file l) num (fst tr) (snd tr))
    | IEnumField l name v =>
        if negb (is_enum_frame cur) then Err KGrammar file l else
        if GenFront.enum_value_raises v then Err KInvalidEnumFieldValue file l else
        push_member cur name (DEnumField (mkloc file l) v)
    end.

  Fixpoint proc_items (outer : list frame) (cur : frame) (its : list item) : res frame :=
    match its with
    | [] => Ok cur
    | i :: r => do f' <- proc_item outer cur i; proc_items outer f' r
    end.
End Proc.

(* ------------------------------------------------------------------------------------ *)
(* files                                                                                  *)
(* ------------------------------------------------------------------------------------ *)

Definition known (fs : files) (g : string) : bool :=
  match assoc g fs with Some _ => true | None => false end.

(* Parser.parse of one file; [fstack]: the files whose parse is in progress (importers) *)
Fixpoint parse_file (fuel : nat) (fs : files) (trad : bool) (fstack : list string) (f : string) : res def :=
  match fuel with
  | O => Err KFuel f 0
  | S n =>
      match assoc f fs with
      | None => Err KIOError f 0
      | Some its =>
          do fr <- proc_items (parse_file n fs trad) (known fs) trad f (f :: fstack) []
                              (mkframe (FProto None) []) its;
          match fk fr with
          | FProto (Some name) => Ok (DProto f name (rev (fmem fr)))
          | _ => Err KProtoNameUndefined f 0
          end
      end
  end.

(* bitproto.parser.parse(root, traditional_mode) *)
Definition check (fs : files) (root : string) (trad : bool) : res def :=
  parse_file (S (List.length fs)) fs trad [] root.

(* ------------------------------------------------------------------------------------ *)
(* observations compared with the real parser (T2)                                        *)
(* ------------------------------------------------------------------------------------ *)

Definition kind_code (k : kind) : Z :=
  match k with
  | KInvalidUintCap => 1 | KInvalidIntCap => 2 | KInvalidArrayCap => 3
  | KDuplicatedDefinition => 4 | KDuplicatedImport => 5 | KCyclicImport => 6
  | KRefConstNotDefined => 7 | KRefNotConst => 8 | KRefTypeNotDefined => 9 | KRefNotType => 10
  | KInvalidEnumFieldValue => 11 | KEnumValueOverflow => 12 | KDupEnumValue => 13
  | KInvalidAliasedType => 14 | KInvalidFieldNumber => 15 | KDupFieldNumber => 16
  | KUnsupportedOption => 17 | KInvalidOptionValue => 18 | KMessageSizeOverflows => 19
  | KAliasInMessage => 20 | KConstInMessage => 21 | KImportInMessage => 22
  | KProtoNameOutOfScope => 23
  | KAliasInEnum => 24 | KConstInEnum => 25 | KImportInEnum => 26 | KOptionInEnum => 27
  | KEnumInEnum => 28 | KMessageInEnum => 29 | KFieldInEnum => 30
  | KProtoNameUndefined => 31 | KExtensibleInTraditional => 32 | KCalcExpr => 33
  | KGrammar => 34 | KIOError => 35 | KFuel => 37
  end.

(* One row per definition, depth first in declaration order:
   (dotted name, [tag; line; a; b; c], resolved-to file).
   tag 1 const (a = int value or -1), 2 alias (a = nbits, b = resolved line or -1),
   3 enum (a = nbits, b = #members), 4 message (a = nbits, b = #fields, c = extensible),
   5 proto, 6 option, 7 field (a = number, b = nbits, c = resolved line or -1), 8 enum member (a = value) *)
Definition row : Type := (string * list Z * string)%type.

Definition dotted (pre n : string) : string :=
  match pre with EmptyString => n | _ => (pre ++ "." ++ n)%string end.

Definition res_line (r : option loc) : Z := match r with Some a => lline a | None => -1 end.
Definition res_file (r : option loc) : string := match r with Some a => lfile a | None => EmptyString end.
Definition b2z (b : bool) : Z := if b then 1 else 0.
Definition ty_ext (t : ty) : bool := match t with TMsg x _ => x | TArr x _ _ => x | _ => false end.

Fixpoint rows_of (pre : string) (n : string) (d : def) : list row :=
  let q := dotted pre n in
  let sub := fix go (l : list (string * def)) : list row :=
               match l with
               | [] => []
               | nd :: r => rows_of q (fst nd) (snd nd) ++ go r
               end in
  match d with
  | DConst a v => [(q, [1; lline a; match v with CVInt z => z | CVBool b => b2z b | CVStr _ => -1 end; 0; 0], EmptyString)]
  | DAlias a t r => [(q, [2; lline a; ty_nbits t; res_line r; 0], res_file r)]
  | DEnum a t m => (q, [3; lline a; ty_nbits t; Z.of_nat (List.length (enum_values m)); 0], EmptyString) :: sub m
  | DMsg a t m => (q, [4; lline a; ty_nbits t; Z.of_nat (List.length (msg_fields m)); b2z (ty_ext t)], EmptyString) :: sub m
  | DProto f nm m => (q, [5; 0; 0; 0; 0], f) :: sub m
  | DOption a v => [(q, [6; lline a; match v with CVInt z => z | CVBool b => b2z b | CVStr _ => -1 end; 0; 0], EmptyString)]
  | DField a num t r => [(q, [7; lline a; num; ty_nbits t; res_line r], res_file r)]
  | DEnumField a v => [(q, [8; lline a; v; 0; 0], EmptyString)]
  end.

Definition observe (r : res def) : Z * string * Z * list row :=
  match r with
  | Ok d => (0, EmptyString, 0, rows_of EmptyString EmptyString d)
  | Err k f l => (kind_code k, f, l, [])
  end.

Fixpoint zl_eqb (a b : list Z) : bool :=
  match a, b with
  | [], [] => true
  | x :: r, y :: s => (x =? y) && zl_eqb r s
  | _, _ => false
  end.

Definition row_eqb (a b : row) : bool :=
  String.eqb (fst (fst a)) (fst (fst b)) && zl_eqb (snd (fst a)) (snd (fst b)) && String.eqb (snd a) (snd b).

Fixpoint rows_eqb (a b : list row) : bool :=
  match a, b with
  | [], [] => true
  | x :: r, y :: s => row_eqb x y && rows_eqb r s
  | _, _ => false
  end.

Definition obs_eqb (a b : Z * string * Z * list row) : bool :=
  match a, b with
  | (k1, f1, l1, r1), (k2, f2, l2, r2) =>
      (k1 =? k2) && String.eqb f1 f2 && (l1 =? l2) && rows_eqb r1 r2
  end.

(* the message type at a dotted path of the checked root file (for C12 / wire comparisons) *)
Definition msg_ty_at (r : res def) (p : path) : option ty :=
  match r with
  | Ok (DProto _ _ m) => match get_member m p with
                         | Some (DMsg _ t _) => Some t
                         | _ => None
                         end
  | _ => None
  end.
