(* PyDecLeaf.v — what each kind of generated setter leaves in a leaf after
   process_base_type (decode) and bp_process_int: the unsigned n-bit field, its sign
   extension, or the boolean. *)
From Coq Require Import ZArith List Lia.
From BP Require Import Bits Schema Spec PyRt ByteStep PyDecStep.
From BPGen Require Import GenPy.
Import ListNotations.
Open Scope Z_scope.

Definition sext' (n u : Z) : Z := if u <? 2 ^ (n - 1) then u else u - 2 ^ n.

(* Spec.sext (by bit test) and sext' (by comparison) agree on n-bit values *)
Lemma sext_sext' n u : 1 <= n -> 0 <= u < 2 ^ n -> sext n u = sext' n u.
Proof.
  intros Hn Hu. unfold sext, sext'. pose proof (top_bit n u Hn Hu) as Hq.
  destruct (Z.testbit u (n - 1)) eqn:Tb; [apply Z.testbit_true in Tb|apply Z.testbit_false in Tb]; try lia;
    rewrite Hq in Tb; destruct (u <? 2 ^ (n - 1)); reflexivity || discriminate.
Qed.

Lemma sext'_mod n z : 1 <= n -> - 2 ^ (n - 1) <= z < 2 ^ (n - 1) -> sext' n (z mod 2 ^ n) = z.
Proof.
  intros Hn Hz. rewrite mod_pow2_signed by assumption. unfold sext'.
  pose proof (pow2_half n Hn) as Hp.
  destruct (Z.ltb_spec z 0); cbv iota.
  - destruct (Z.ltb_spec (z + 2 ^ n) (2 ^ (n - 1))); lia.
  - destruct (Z.ltb_spec z (2 ^ (n - 1))); lia.
Qed.

Lemma cast_w_spec w x :
  w = 8 \/ w = 16 \/ w = 32 \/ w = 64 ->
  cast_w w x = if x <? 2 ^ (w - 1) then x else x - 2 ^ w.
Proof. intros [H|[H|[H|H]]]; subst w; reflexivity. Qed.

Lemma sext'_small n v : 0 <= v < 2 ^ (n - 1) -> sext' n v = v.
Proof. intros H. unfold sext'. destruct (Z.ltb_spec v (2 ^ (n - 1))); lia. Qed.

Lemma ltb_pow2_high low m j k :
  0 <= j <= k -> 0 <= low < 2 ^ j -> (m * 2 ^ j <? 2 ^ k) = (low + m * 2 ^ j <? 2 ^ k).
Proof.
  intros Hjk Hlow.
  replace (2 ^ k) with (2 ^ (k - j) * 2 ^ j) by (rewrite <- Z.pow_add_r by lia; f_equal; lia).
  pose proof (pow2_pos j ltac:(lia)) as Hp. revert Hlow Hp.
  generalize (2 ^ j), (2 ^ (k - j)). intros p q Hlow Hp.
  destruct (Z.ltb_spec (m * p) (q * p)) as [H|H], (Z.ltb_spec (low + m * p) (q * p));
    try reflexivity; [|lia].
  apply Z.mul_lt_mono_pos_r in H; [|assumption].
  assert ((m + 1) * p <= q * p) by (apply Z.mul_le_mono_nonneg_r; lia). lia.
Qed.

(* bp.intW applied to a chunk placed above the j bits already there: the caster only acts
   when the chunk reaches bit w-1, and then it sign-extends the whole *)
Lemma lor_cast w low m j :
  w = 8 \/ w = 16 \/ w = 32 \/ w = 64 -> 0 <= j < w -> 0 <= low < 2 ^ j ->
  Z.lor low (cast_w w (m * 2 ^ j)) = sext' w (low + m * 2 ^ j).
Proof.
  intros Hw Hj Hlow. rewrite cast_w_spec by assumption. unfold sext'.
  rewrite <- (ltb_pow2_high low m j (w - 1)) by lia.
  destruct (m * 2 ^ j <? 2 ^ (w - 1)).
  - apply lor_disjoint_low; lia.
  - replace (m * 2 ^ j - 2 ^ w) with ((m - 2 ^ (w - j)) * 2 ^ j).
    2:{ rewrite Z.mul_sub_distr_r, <- Z.pow_add_r by lia. do 2 f_equal. lia. }
    rewrite lor_disjoint_low, Z.mul_sub_distr_r, <- Z.pow_add_r by lia.
    replace (w - j + j) with w by lia. lia.
Qed.

Lemma int_storage_bits_std n : 1 <= n <= 64 ->
  let w := int_storage_bits n in
  (w = 8 \/ w = 16 \/ w = 32 \/ w = 64) /\ n <= w /\ (is_std_width n = true -> w = n) /\
  (is_std_width n = false -> n < w).
Proof.
  intros Hn. unfold int_storage_bits, is_std_width.
  destruct (n <=? 8) eqn:E8; [|destruct (n <=? 16) eqn:E16; [|destruct (n <=? 32) eqn:E32]];
    cbn zeta; repeat split; try lia.
Qed.

(* what a chunk loop leaves in a leaf, by kind of setter; for every runtime *)
Section Kinds.
  Variable P : nat -> val -> Z -> ctx -> res (val * ctx).
  Variable setb : val -> Z -> Z -> res val.
  Variables (s : list Z) (i0 n : Z).
  Hypothesis HP : is_chunk_loop P setb n i0 s.
  Hypothesis Hs : bytes_ok s.
  Hypothesis Hi0 : 0 <= i0.
  Hypothesis Hn : 1 <= n.
  Variable leaf : val -> val.

  Let u := slice s i0 n.

  Lemma u_range : 0 <= u < 2 ^ n.
  Proof. apply slice_range. lia. Qed.

  Lemma chunk_of_u j cnt :
    0 <= j -> 0 <= cnt -> j + cnt <= n -> slice s (i0 + j) cnt = (u / 2 ^ j) mod 2 ^ cnt.
  Proof. intros Hj Hc Hle. symmetry. exact (chunk_chunk (bufZ s) i0 n j cnt Hi0 Hj Hc Hle). Qed.

  Lemma unsigned_step j cnt :
    0 <= j -> 1 <= cnt -> j + cnt <= n ->
    Z.lor (u mod 2 ^ j) (slice s (i0 + j) cnt * 2 ^ j) = u mod 2 ^ (j + cnt).
  Proof.
    intros Hj Hc Hle.
    rewrite chunk_of_u, lor_disjoint_low, mod_pow2_split by (try apply Z.mod_pos_bound, pow2_pos; lia).
    ring.
  Qed.

  (* x |= chunk: byte, uint, enum *)
  Lemma dec_unsigned :
    (forall z lshift d, 0 <= d < 256 -> 0 <= lshift < n -> lshift mod 8 = 0 ->
        setb (leaf (VZ z)) lshift d = Ok (leaf (VZ (Z.lor z (Z.shiftl d lshift))))) ->
    P (fuel_of n) (leaf (VZ 0)) 0 {| cs := s; ci := i0 |} =
    Ok (leaf (VZ u), {| cs := s; ci := i0 + n |}).
  Proof.
    intros Hset.
    pose proof (chunk_loop P setb n i0 s HP Hi0 Hs leaf Z.lor Hset (fun j => u mod 2 ^ j)
                           unsigned_step (fuel_of n) 0) as H.
    cbn beta in H. change (2 ^ 0) with 1 in H. rewrite Z.mod_1_r, Z.add_0_r in H.
    rewrite H; try lia; [|unfold fuel_of; lia].
    rewrite (Z.mod_small u) by apply u_range. reflexivity.
  Qed.

  (* x |= intW(chunk): signed fields.  The setter's operand is stated with Python's caster cast_w
     (bp.intW); a runtime that converts otherwise first shows its operand equal to that one
     (Go's typed shift at intW: GoDecStep.go_chunk_eq_py). *)
  Section Cast.
    Variable w : Z.
    Hypothesis Hw : w = 8 \/ w = 16 \/ w = 32 \/ w = 64.
    Hypothesis Hnw : n <= w.

    (* the leaf after the chunks below bit j; sext' w is the identity until bit w-1 is reached *)
    Lemma cast_step_sext j cnt :
      0 <= j -> 1 <= cnt -> j + cnt <= n ->
      Z.lor (sext' w (u mod 2 ^ j)) (cast_w w (slice s (i0 + j) cnt * 2 ^ j)) =
      sext' w (u mod 2 ^ (j + cnt)).
    Proof.
      intros Hj Hc Hle.
      pose proof (Z.mod_pos_bound u (2 ^ j) (pow2_pos j Hj)) as Hlow.
      assert (2 ^ j <= 2 ^ (w - 1)) by (apply Z.pow_le_mono_r; lia).
      rewrite sext'_small, chunk_of_u, lor_cast, mod_pow2_split by lia.
      f_equal. ring.
    Qed.

    Lemma dec_cast :
      (forall z lshift d, 0 <= d < 256 -> 0 <= lshift < n -> lshift mod 8 = 0 ->
          setb (leaf (VZ z)) lshift d = Ok (leaf (VZ (Z.lor z (cast_w w (Z.shiftl d lshift)))))) ->
      P (fuel_of n) (leaf (VZ 0)) 0 {| cs := s; ci := i0 |} =
      Ok (leaf (VZ (if n =? w then sext' w u else u)), {| cs := s; ci := i0 + n |}).
    Proof.
      intros Hset. pose proof u_range as Hu.
      pose proof (chunk_loop P setb n i0 s HP Hi0 Hs leaf (fun z ch => Z.lor z (cast_w w ch)) Hset
                             (fun j => sext' w (u mod 2 ^ j)) cast_step_sext (fuel_of n) 0) as H.
      cbn beta in H. change (2 ^ 0) with 1 in H.
      rewrite Z.mod_1_r, Z.add_0_r, (Z.mod_small u) in H by assumption.
      rewrite (sext'_small w 0) in H by (pose proof (pow2_pos (w - 1)); lia).
      rewrite H; try lia; [|unfold fuel_of; lia].
      destruct (Z.eqb_spec n w) as [->|Hne]; [reflexivity|].
      rewrite sext'_small; [reflexivity|].
      assert (2 ^ n <= 2 ^ (w - 1)) by (apply Z.pow_le_mono_r; lia). lia.
    Qed.
  End Cast.
End Kinds.

Section PyInt.
  Variables (c : cls) (vs : list (Z * val)) (fn : Z) (stk : list nat) (a : val).
  Hypothesis Hl : lookup fn vs = Some a.
  Variable cur0 : val.
  Hypothesis Hidx : index_val a stk = Ok cur0.
  Variables (s : list Z) (i0 n : Z).
  Hypothesis Hn : 1 <= n.

  Notation leaf := (at_leaf vs fn stk a).
  Let u := slice s i0 n.

  (* bp_process_int on a leaf holding the unsigned field *)
  Lemma process_int_sign :
    lookup fn (c_proxy c) = None ->
    lookup fn (c_int c) = Some {| i_depth := length stk; i_shift := n - 1;
                                  i_mask := Z.lnot (Z.shiftl 1 n - 1) |} ->
    process_int c (leaf (VZ u)) fn stk = Ok (leaf (VZ (sext' n u))).
  Proof.
    intros Hnp Hint. unfold process_int. rewrite Hint. cbn [i_depth i_shift i_mask].
    rewrite (read_ref_at c vs fn stk a Hl cur0 Hidx Hnp). cbn [bind int_of].
    pose proof (u_range s i0 n Hn) as Hu. fold u in Hu.
    pose proof (pow2_half n Hn) as Hhalf.
    assert (Hp1 : 0 < 2 ^ (n - 1)) by (apply pow2_pos; lia).
    replace (Z.land (Z.shiftr u (n - 1)) 1) with ((u / 2 ^ (n - 1)) mod 2).
    2:{ assert (Hl1 : forall x, Z.land x 1 = x mod 2).
        { intros x. change 1 with (Z.ones 1). rewrite Z.land_ones by lia. reflexivity. }
        rewrite Hl1, Z.shiftr_div_pow2 by lia. reflexivity. }
    rewrite (top_bit n u Hn Hu). unfold sext'.
    destruct (u <? 2 ^ (n - 1)) eqn:E; [reflexivity|].
    change (1 mod 2 =? 0) with false. cbv iota.
    rewrite (write_ref_at c vs fn stk a Hl cur0 Hidx Hnp). do 3 f_equal.
    rewrite Z.shiftl_1_l.
    replace (Z.lnot (2 ^ n - 1)) with ((-1) * 2 ^ n).
    2:{ unfold Z.lnot. lia. }
    rewrite lor_disjoint_low by lia. lia.
  Qed.

  Lemma process_int_none d :
    lookup fn (c_int c) = None -> process_int c (leaf d) fn stk = Ok (leaf d).
  Proof. intros H. unfold process_int. now rewrite H. Qed.
End PyInt.

(* bool: one chunk of one bit, assigned *)
Lemma dec_bool c vs fn stk a cur0 s i0 :
  lookup fn vs = Some a -> index_val a stk = Ok cur0 ->
  lookup fn (c_proxy c) = None ->
  lookup fn (c_set c) = Some {| s_depth := length stk; s_kind := SKBool |} ->
  bytes_ok s -> 0 <= i0 -> i0 + 1 <= 8 * Z.of_nat (length s) ->
  pbt_dec (fuel_of 1) 1 c (VM vs) fn stk 0 {| cs := s; ci := i0 |} =
  Ok (at_leaf vs fn stk a (VB (negb (slice s i0 1 =? 0))), {| cs := s; ci := i0 + 1 |}).
Proof.
  intros Hl Hidx Hnp Hset Hs Hi0 Hlen.
  change (fuel_of 1) with 1%nat. cbn [pbt_dec]. change (0 <? 1) with true. cbv iota. cbn [cs ci].
  pose proof (nbits_to_copy_range i0 0 1 ltac:(lia)) as (Hc1 & Hc2 & Hc3 & Hc4).
  assert (Hcnt : get_nbits_to_copy i0 0 1 = 1) by lia. rewrite Hcnt.
  rewrite dec_single_byte_spec by lia.
  destruct (dec_chunk_at s i0 0 1 Hs Hi0 ltac:(lia) ltac:(lia) ltac:(lia) ltac:(lia)) as (_ & Hd).
  change (dec_lshift 0) with 0 in *. rewrite Z.shiftl_0_r, Z.mul_1_r in Hd. rewrite Hd.
  unfold set_byte. rewrite Hset. cbn [s_kind s_depth].
  rewrite <- (at_leaf_id vs fn stk a Hl cur0 Hidx).
  now rewrite (write_ref_at c vs fn stk a Hl cur0 Hidx Hnp).
Qed.
