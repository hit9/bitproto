(* JsonProofs.v — the C walk of BpJsonFormat* over a stored value writes the compact print of the
   specified JSON value (dispatch_correct, c_text_correct), Python's to_dict() / json.dumps build the
   same value (asdict_correct, dumps_dict_spec), hence both languages write the same text. *)
From Coq Require Import ZArith List Bool String Lia.
(* WireEq: only for sort_fields_map *)
From BP Require Import ListFacts Schema SchemaFacts WireEq JsonBase Json.
From BPGen Require Import GenJson.
Import ListNotations.
Open Scope string_scope.
Open Scope Z_scope.

Section nty_ind'.
  Variable P : nty -> Prop.
  Hypothesis HBool : P NBool.
  Hypothesis HByte : P NByte.
  Hypothesis HUint : forall n, P (NUint n).
  Hypothesis HInt : forall n, P (NInt n).
  Hypothesis HEnum : forall n ms, P (NEnum n ms).
  Hypothesis HAlias : forall t, P t -> P (NAlias t).
  Hypothesis HArr : forall x c e, P e -> P (NArr x c e).
  Hypothesis HMsg : forall x fs, (forall f, In f fs -> P (ftype f)) -> P (NMsg x fs).

  Fixpoint nty_ind' (t : nty) : P t :=
    match t with
    | NBool => HBool
    | NByte => HByte
    | NUint n => HUint n
    | NInt n => HInt n
    | NEnum n ms => HEnum n ms
    | NAlias t => HAlias t (nty_ind' t)
    | NArr x c e => HArr x c e (nty_ind' e)
    | NMsg x fs =>
        HMsg x fs (proj1 (Forall_forall _ _)
          ((fix go (l : list (Z * (string * nty))) : Forall (fun f => P (ftype f)) l :=
              match l with
              | [] => Forall_nil _
              | f :: r => Forall_cons f (nty_ind' (ftype f)) (go r)
              end) fs))
    end.
End nty_ind'.

Section jtree_ind'.
  Variable P : jtree -> Prop.
  Hypothesis HNum : forall z, P (JNum z).
  Hypothesis HB : forall b, P (JBool b).
  Hypothesis HList : forall l, (forall x, In x l -> P x) -> P (JList l).
  Hypothesis HObj : forall fs, (forall kv, In kv fs -> P (snd kv)) -> P (JObj fs).

  Fixpoint jtree_ind' (j : jtree) : P j :=
    match j with
    | JNum z => HNum z
    | JBool b => HB b
    | JList l =>
        HList l (proj1 (Forall_forall _ _)
                   ((fix go (l : list jtree) : Forall P l :=
                       match l with
                       | [] => Forall_nil _
                       | x :: r => Forall_cons x (jtree_ind' x) (go r)
                       end) l))
    | JObj fs =>
        HObj fs (proj1 (Forall_forall _ _)
                   ((fix go (l : list (string * jtree)) : Forall (fun kv => P (snd kv)) l :=
                       match l with
                       | [] => Forall_nil _
                       | x :: r => Forall_cons x (jtree_ind' (snd x)) (go r)
                       end) fs))
    end.
End jtree_ind'.

Lemma prefix_app : forall p s, String.prefix p (p ++ s) = true.
Proof.
  induction p as [|c p IH]; intros s; cbn.
  - destruct s; reflexivity.
  - destruct (Ascii.ascii_dec c c) as [_|n]; [apply IH | now elim n].
Qed.

(* the fields themselves in number order: every sorted payload is a map over them *)
Definition sorted {F} (k : F -> Z) (fs : list F) : list F :=
  map snd (sort_fields (map (fun f => (k f, f)) fs)).

Lemma sorted_by : forall F B (k : F -> Z) (g : F -> B) (fs : list F),
  map snd (sort_fields (map (fun f => (k f, g f)) fs)) = map g (sorted k fs).
Proof.
  intros F B k g fs. unfold sorted.
  replace (map (fun f => (k f, g f)) fs)
    with (map (fun h => (fst h, (fun _ => g) (fst h) (snd h))) (map (fun f => (k f, f)) fs))
    by (rewrite map_map; reflexivity).
  rewrite (sort_fields_map (fun _ => g)), !map_map. reflexivity.
Qed.

Lemma sorted_in : forall F (k : F -> Z) fs f, In f (sorted k fs) -> In f fs.
Proof.
  intros F k fs f H. unfold sorted in H. apply in_map_iff in H as [[z f'] [<- H]].
  apply sort_fields_in, in_map_iff in H as [g [E Hin]]. injection E as _ <-. exact Hin.
Qed.

Lemma join_opt_some : forall sep (l : list string), join_opt sep (map Some l) = Some (join sep l).
Proof.
  intros sep l. induction l as [|x r IH]; [reflexivity|].
  cbn [map join_opt join]. destruct r as [|y r']; [reflexivity|].
  cbn [map] in *. rewrite IH. reflexivity.
Qed.

Lemma take_exact_all : forall A (l : list A), take_exact (List.length l) l = Some l.
Proof. induction l as [|x r IH]; cbn; [reflexivity | now rewrite IH]. Qed.

Lemma seq_res_ok : forall A (l : list A), seq_res (map POk l) = POk l.
Proof. induction l as [|x r IH]; cbn; [reflexivity | now rewrite IH]. Qed.

Lemma firstn_le_bytes : forall k x, firstn k (le_bytes k x) = le_bytes k x.
Proof.
  intros k x. rewrite <- (Bits.bytes_of_length k x) at 1. apply firstn_all.
Qed.

Definition reinterp (sg : bool) (sz u : Z) : Z :=
  if sg && (2 ^ (8 * sz - 1) <=? u) then u - 2 ^ (8 * sz) else u.

Lemma load_store : forall cty cast sz g1 sg z,
  ctype_info cty = Some (sz, g1) -> ctype_info cast = Some (sz, sg) -> 1 <= sz ->
  c_load cast (store_scalar cty z) =
  Some (AInt (Z.max 32 (8 * sz)) (reinterp sg sz (z mod 2 ^ (8 * sz)))).
Proof.
  intros cty cast sz g1 sg z H1 H2 Hsz. unfold store_scalar, c_load. rewrite H1, H2.
  rewrite (Bits.bytes_of_length _ _ : List.length (le_bytes _ _) = _), Z2Nat.id by lia. rewrite Z.leb_refl.
  rewrite firstn_le_bytes, (Bits.bufZ_bytes_of _ _ : load_le (le_bytes _ _) = _), Z2Nat.id by lia.
  rewrite (Bits.pow256 sz) by lia.
  rewrite Z.mod_mod by (apply Z.pow_nonzero; lia). reflexivity.
Qed.

Lemma unsigned_fits : forall w z, 0 <= z < 2 ^ w -> z mod 2 ^ w = z.
Proof. intros. apply Z.mod_small. assumption. Qed.

Lemma signed_roundtrip : forall w z, 1 <= w -> - 2 ^ (w - 1) <= z < 2 ^ (w - 1) ->
  (let u := z mod 2 ^ w in if 2 ^ (w - 1) <=? u then u - 2 ^ w else u) = z.
Proof.
  intros w z Hw Hz. cbv zeta. rewrite (Bits.mod_pow2_signed w z Hw Hz).
  pose proof (Bits.pow2_half w Hw).
  destruct (Z.ltb_spec z 0); [destruct (Z.leb_spec (2 ^ (w - 1)) (z + 2 ^ w)) | destruct (Z.leb_spec (2 ^ (w - 1)) z)]; lia.
Qed.

Definition conv_num (wc : Z) (sg : bool) (wa z : Z) : Z :=
  let raw := if wc <=? wa then z mod 2 ^ wc else z mod 2 ^ wa in
  if sg && (2 ^ (wc - 1) <=? raw) then raw - 2 ^ wc else raw.

Lemma conv_num_unsigned : forall wc wa z w,
  0 <= z < 2 ^ w -> w <= wa -> w <= wc -> conv_num wc false wa z = z.
Proof.
  intros wc wa z w Hz Ha Hc. unfold conv_num. cbn [andb].
  assert (2 ^ w <= 2 ^ wa) by (apply Z.pow_le_mono_r; lia).
  assert (2 ^ w <= 2 ^ wc) by (apply Z.pow_le_mono_r; lia).
  destruct (wc <=? wa); apply Z.mod_small; lia.
Qed.

Lemma conv_num_signed : forall wc z w,
  - 2 ^ (w - 1) <= z < 2 ^ (w - 1) -> 1 <= w -> w <= wc -> conv_num wc true wc z = z.
Proof.
  intros wc z w Hz Hw Hc. unfold conv_num. rewrite Z.leb_refl. cbn [andb].
  assert (2 ^ (w - 1) <= 2 ^ (wc - 1)) by (apply Z.pow_le_mono_r; lia).
  apply (signed_roundtrip wc z); lia.
Qed.

Definition fmt_class (fmt : string) : option (Z * bool) :=
  if (fmt =? "%d")%string then Some (32, true)
  else if (fmt =? "%u")%string then Some (32, false)
  else if (fmt =? "%ld")%string then Some (64, true)
  else if (fmt =? "%lu")%string then Some (64, false)
  else if (fmt =? "%llu")%string then Some (64, false)
  else if (fmt =? "%lld")%string then Some (64, true)
  else None.

Lemma fmt_class_printf : forall fmt wc sg, fmt_class fmt = Some (wc, sg) ->
  forall wa z, c_printf fmt [AInt wa z] = Some (dec_Z (conv_num wc sg wa z)).
Proof.
  intros fmt wc sg H wa z. rewrite <- (append_nil_r (dec_Z _)). unfold fmt_class in H.
  repeat match type of H with
         | (if (?a =? ?b)%string then _ else _) = _ =>
             destruct (String.eqb_spec a b) as [->|_]; [injection H as <- <-; reflexivity|]
         end.
  discriminate.
Qed.

(* one conversion group of BpJsonFormatBaseType against the storage type the renderer
   chose: a boolean condition on the TRANSLATED tables, then swept over the widths *)

Definition conv_ok (g : option bgroup) (n : Z) (cty : string) (sg : bool) : bool :=
  match g with
  | Some (GConv c) =>
      let fc := conv_eval c n in
      match ctype_info cty, ctype_info (snd fc), fmt_class (fst fc) with
      | Some (s1, _), Some (s2, g2), Some (wc, gf) =>
          (s1 =? s2) && (1 <=? s1) && (n <=? 8 * s1) && Bool.eqb g2 sg && Bool.eqb gf sg &&
          (8 * s1 <=? wc) && (if sg then wc =? Z.max 32 (8 * s1) else true)
      | _, _, _ => false
      end
  | _ => false
  end.

Definition in_range (sg : bool) (n z : Z) : Prop :=
  if sg then - 2 ^ (n - 1) <= z < 2 ^ (n - 1) else 0 <= z < 2 ^ n.

Lemma base_text_conv : forall flag n cty sg z,
  conv_ok (find_group flag base_groups) n cty sg = true -> 1 <= n -> in_range sg n z ->
  base_text flag n (store_scalar cty z) = Some (dec_Z z).
Proof.
  intros flag n cty sg z Hok Hn Hz. unfold base_text.
  destruct (find_group flag base_groups) as [[f c t e|c]|]; cbn [conv_ok] in Hok; try discriminate.
  cbv zeta in Hok |- *.
  destruct (ctype_info cty) as [[s1 g1]|] eqn:E1; [|discriminate].
  destruct (ctype_info (snd (conv_eval c n))) as [[s2 g2]|] eqn:E2; [|discriminate].
  destruct (fmt_class (fst (conv_eval c n))) as [[wc gf]|] eqn:E3; [|discriminate].
  repeat (apply andb_prop in Hok; destruct Hok as [Hok ?]).
  assert (s2 = s1) by lia. subst s2.
  assert (g2 = sg) by (now apply Bool.eqb_prop). subst g2.
  assert (gf = sg) by (now apply Bool.eqb_prop). subst gf.
  rewrite (load_store cty _ s1 g1 sg z E1 E2) by lia.
  rewrite (fmt_class_printf _ _ _ E3). do 2 f_equal.
  assert (Hp : 2 ^ n <= 2 ^ (8 * s1)) by (apply Z.pow_le_mono_r; lia).
  unfold in_range in Hz. destruct sg.
  - assert (Hq : 2 ^ (n - 1) <= 2 ^ (8 * s1 - 1)) by (apply Z.pow_le_mono_r; lia).
    assert (E : reinterp true s1 (z mod 2 ^ (8 * s1)) = z).
    { unfold reinterp. cbn [andb]. apply (signed_roundtrip (8 * s1) z); lia. }
    rewrite E. assert (wc = Z.max 32 (8 * s1)) by lia. subst wc.
    apply (conv_num_signed _ z n); lia.
  - unfold reinterp. cbn [andb]. rewrite Z.mod_small by lia.
    apply (conv_num_unsigned _ _ z n); lia.
Qed.

Definition width_ok (n : Z) : bool :=
  conv_ok (find_group BP_TYPE_UINT base_groups) n (c_uint_type n) false &&
  conv_ok (find_group BP_TYPE_ENUM base_groups) n (c_uint_type n) false &&
  conv_ok (find_group BP_TYPE_INT base_groups) n (c_int_type n) true.

(* finite sweep: every width the compiler admits (1..64) *)
Lemma widths_ok : forallb (fun k => width_ok (Z.of_nat k)) (seq 1 64) = true.
Proof. vm_compute. reflexivity. Qed.

Lemma width_ok_at : forall n, 1 <= n <= 64 -> width_ok n = true.
Proof.
  intros n H. rewrite <- (Z2Nat.id n) by lia.
  apply (proj1 (forallb_forall _ _) widths_ok). apply in_seq. lia.
Qed.

Lemma width_convs : forall n, 1 <= n <= 64 ->
  conv_ok (find_group BP_TYPE_UINT base_groups) n (c_uint_type n) false = true /\
  conv_ok (find_group BP_TYPE_ENUM base_groups) n (c_uint_type n) false = true /\
  conv_ok (find_group BP_TYPE_INT base_groups) n (c_int_type n) true = true.
Proof.
  intros n H. pose proof (width_ok_at n H) as W. unfold width_ok in W.
  apply andb_prop in W. destruct W as [W W3]. apply andb_prop in W. destruct W as [W1 W2]. auto.
Qed.

Lemma byte_ok : conv_ok (find_group BP_TYPE_BYTE base_groups) byte_desc_nbits c_byte_type false = true.
Proof. vm_compute. reflexivity. Qed.

Lemma byte_nbits : byte_desc_nbits = 8.
Proof. reflexivity. Qed.

Lemma bool_text : forall b,
  base_text BP_TYPE_BOOL bool_desc_nbits (store_scalar c_bool_type (Z.b2z b)) =
  Some (if b then "true" else "false").
Proof. destruct b; vm_compute; reflexivity. Qed.

Lemma erased_field (f : Z * (string * nty)) fs :
  In f fs -> In (fnum f, erase (ftype f)) (map (fun f => (fnum f, erase (ftype f))) fs).
Proof. apply (in_map (fun f => (fnum f, erase (ftype f)))). Qed.

Lemma has_ty_nmsg : forall x fs v, has_ty (erase (NMsg x fs)) v = true ->
  exists vs, v = VM vs /\
             forall f, In f fs -> has_ty (erase (ftype f)) (vfield (fnum f) v) = true.
Proof.
  intros x fs v H. cbn [erase] in H. destruct v as [b|z|l|vs]; try discriminate.
  exists vs. split; [reflexivity|]. intros f Hin.
  rewrite has_ty_msg, fields_has_ty_In in H.
  destruct (H _ _ (erased_field f fs Hin)) as (fv & E & Hf). cbn [vfield]. rewrite E. exact Hf.
Qed.

Lemma has_ty_arr : forall x cap e v, has_ty (erase (NArr x cap e)) v = true ->
  exists l, v = VL l /\ List.length l = cap /\ forall a, In a l -> has_ty (erase e) a = true.
Proof.
  intros x cap e v H. cbn [erase has_ty] in H. destruct v as [b|z|l|vs]; try discriminate.
  apply andb_prop in H. destruct H as [H1 H2]. exists l. split; [reflexivity|]. split.
  - now apply Nat.eqb_eq.
  - now apply forallb_forall.
Qed.

Lemma wf_nmsg : forall x fs, wf (erase (NMsg x fs)) = true ->
  keys_distinct (map fnum fs) = true /\ forall f, In f fs -> wf (erase (ftype f)) = true.
Proof.
  intros x fs H. split.
  - cbn [erase wf] in H. apply andb_prop in H. destruct H as [H _].
    apply andb_prop in H. destruct H as [H1 _]. rewrite map_map in H1. exact H1.
  - intros f Hin. exact (proj2 (wf_msg_In _ _ _ _ H (erased_field f fs Hin))).
Qed.

Lemma wf_msg : forall x fs, wf (erase (NMsg x fs)) = true ->
  keys_distinct (map fnum fs) = true /\ Forall (fun f => wf (erase (ftype f)) = true) fs.
Proof.
  intros x fs H. destruct (wf_nmsg x fs H) as [Hk Hf]. split; [exact Hk | apply Forall_forall, Hf].
Qed.

Lemma enum_member_range : forall n ms z,
  forallb (fun m => (0 <=? m) && (m <? 2 ^ n)) ms = true -> existsb (Z.eqb z) ms = true ->
  0 <= z < 2 ^ n.
Proof.
  intros n ms z Hf He. apply existsb_exists in He. destruct He as [m [Hin Hm]].
  apply Z.eqb_eq in Hm. subst m. pose proof (proj1 (forallb_forall _ _) Hf z Hin) as H. cbv beta in H. lia.
Qed.

Definition site_allows (s : site) (t : nty) : bool :=
  match s with
  | SField => true
  | SAlias => alias_target_ok t
  | SArr => negb (is_arr t)
  | STop => match t with NMsg _ _ => true | _ => false end
  end.

Definition is_base (t : nty) : bool :=
  match t with NBool | NByte | NUint _ | NInt _ | NEnum _ _ => true | _ => false end.

(* these two read the translated case-label groups: they hold because every flag the
   compiler can put at a site is listed in the switch of that site *)
Lemma dispatch_base : forall s t o, is_base t = true -> site_allows s t = true ->
  c_dispatch s t o = base_text (flag_of t) (base_nbits t) o.
Proof. intros [] [] o Hb Ha; try discriminate Hb; try discriminate Ha; reflexivity. Qed.

Lemma dispatch_fmt : forall s t, site_allows s t = true -> is_base t = false ->
  zmem (flag_of t) (site_base s) = false /\ zmem (flag_of t) (site_fmt s) = true.
Proof. intros [] [] Ha Hb; try discriminate Ha; try discriminate Hb; split; reflexivity. Qed.

Lemma key_text : forall name, c_printf key_fmt [AStr name] = Some (quote name ++ ":").
Proof.
  intros name. unfold quote. cbn. rewrite sapp_assoc. reflexivity.
Qed.

Definition piece_text (nj : string * jtree) : string :=
  quote (fst nj) ++ ":" ++ print_compact (snd nj).

Lemma base_correct : forall t v,
  is_base t = true -> wf (erase t) = true -> has_ty (erase t) v = true ->
  base_text (flag_of t) (base_nbits t) (store t v) = Some (print_compact (expected t v)).
Proof.
  intros t v Hb Hw Hv. destruct t as [| |n|n|n ms| | |]; try discriminate Hb;
    destruct v as [b|z| |]; try discriminate Hv; cbn [erase has_ty wf] in Hv, Hw;
    cbn [store vbool zof flag_of base_nbits expected].
  - rewrite bool_text. destruct b; reflexivity.
  - apply (base_text_conv _ _ _ false); [exact byte_ok | rewrite byte_nbits; lia |].
    unfold in_range. rewrite byte_nbits. change (2 ^ 8) with 256. lia.
  - apply (base_text_conv _ _ _ false); [apply width_convs; lia | lia | unfold in_range; lia].
  - apply (base_text_conv _ _ _ true); [apply width_convs; lia | lia | unfold in_range; lia].
  - apply andb_prop in Hw. destruct Hw as [Hw Hm].
    pose proof (enum_member_range n ms z Hm Hv) as Hr.
    apply (base_text_conv _ _ _ false); [apply width_convs; lia | lia | unfold in_range; lia].
Qed.

Theorem dispatch_correct : forall t,
  shape_ok t = true -> wf (erase t) = true ->
  forall s v, site_allows s t = true -> has_ty (erase t) v = true ->
  c_dispatch s t (store t v) = Some (print_compact (expected t v)).
Proof.
  induction t as [| |n|n|n ms|u IH|x cap e IH|x fs IH] using nty_ind'; intros Hs Hw s v Ha Hv.
  1-5: rewrite dispatch_base by auto; apply base_correct; auto.
  - (* alias *)
    cbn [c_dispatch]. destruct (dispatch_fmt s _ Ha eq_refl) as [-> ->]. cbn [shape_ok] in Hs. apply andb_prop in Hs. destruct Hs as [Hs1 Hs2].
    cbn [store expected]. apply IH; auto.
  - (* array *)
    cbn [c_dispatch]. destruct (dispatch_fmt s _ Ha eq_refl) as [-> ->]. cbn [shape_ok] in Hs. apply andb_prop in Hs. destruct Hs as [Hs1 Hs2].
    destruct (has_ty_arr _ _ _ _ Hv) as [l [-> [Hlen Hall]]].
    cbn [store vlist expected]. subst cap.
    replace (List.length l) with (List.length (map (store e) l)) by apply map_length.
    rewrite take_exact_all, map_map.
    cbn [erase wf] in Hw. apply andb_prop in Hw. destruct Hw as [_ Hwe].
    rewrite (map_ext_in _ (fun a => Some (print_compact (expected e a)))).
    2:{ intros a Hin. apply IH; auto. }
    rewrite <- (map_map (fun a => print_compact (expected e a)) Some), join_opt_some.
    unfold wrap, print_compact. cbn [print_sep]. rewrite map_map. reflexivity.
  - (* message *)
    cbn [c_dispatch]. destruct (dispatch_fmt s _ Ha eq_refl) as [-> ->].
    destruct (has_ty_nmsg _ _ _ Hv) as [vs [-> Hall]].
    destruct (wf_nmsg _ _ Hw) as [Hk Hwf].
    cbn [shape_ok] in Hs. cbn [store expected].
    rewrite (map_ext_in _ (fun f => (fnum f, Some (piece_text (fname f, expected (ftype f) (vfield (fnum f) (VM vs))))))).
    2:{ intros f Hin.
        rewrite (lookup_map_keyed fnum (fun f => store (ftype f) (vfield (fnum f) (VM vs))) fs f Hk Hin).
        f_equal. unfold field_piece. rewrite key_text.
        rewrite (IH f Hin); auto.
        - unfold piece_text. cbn [fst snd]. now rewrite sapp_assoc.
        - exact (proj1 (forallb_forall _ _) Hs f Hin). }
    rewrite !(sorted_by _ _ fnum).
    rewrite <- (map_map (fun f => piece_text (fname f, expected (ftype f) (vfield (fnum f) (VM vs)))) Some).
    rewrite join_opt_some. unfold wrap, print_compact. cbn [print_sep]. rewrite map_map. reflexivity.
Qed.

Theorem c_text_correct : forall t v,
  shape_ok t = true -> wf (erase t) = true -> has_ty (erase t) v = true ->
  (exists x fs, t = NMsg x fs) ->
  c_text t (store t v) = Some (print_compact (expected t v)).
Proof.
  intros t v Hs Hw Hv [x [fs ->]]. unfold c_text. apply dispatch_correct; auto.
Qed.

Fixpoint pyj_of (j : jtree) : pyj :=
  match j with
  | JNum z => PJInt z
  | JBool b => PJBool b
  | JList l => PJList (map pyj_of l)
  | JObj fs => PJDict (map (fun kv => (fst kv, pyj_of (snd kv))) fs)
  end.

Lemma dumps_pyj_of : forall j, py_dumps (pyj_of j) = POk j.
Proof.
  induction j as [z|b|l IH|fs IH] using jtree_ind'; try reflexivity.
  - cbn [pyj_of py_dumps]. rewrite map_map.
    rewrite (map_ext_in _ POk) by exact IH.
    now rewrite seq_res_ok.
  - cbn [pyj_of py_dumps]. rewrite map_map.
    rewrite (map_ext_in _ POk).
    2:{ intros kv Hin. cbn [fst snd]. now rewrite (IH kv Hin), <- surjective_pairing. }
    now rewrite seq_res_ok.
Qed.

Lemma drop_prefix_documented : dict_drop_prefix = documented_proxy_prefix.
Proof. reflexivity. Qed.
Lemma proxy_prefix_documented : proxy_prefix = documented_proxy_prefix.
Proof. reflexivity. Qed.

Lemma str_mem_app : forall s l1 l2, str_mem s (l1 ++ l2)%list = str_mem s l1 || str_mem s l2.
Proof.
  intros s l1 l2. induction l1 as [|x r IH]; [reflexivity|].
  cbn [str_mem app]. destruct (x =? s)%string; [reflexivity | exact IH].
Qed.

Lemma dict_set_fresh : forall A k (v : A) d, str_mem k (map fst d) = false ->
  dict_set k v d = (d ++ [(k, v)])%list.
Proof.
  intros A k v d. induction d as [|kv r IH]; intros H; [reflexivity|].
  cbn [map str_mem] in H. cbn [dict_set app]. destruct (fst kv =? k)%string; [discriminate|].
  now rewrite IH.
Qed.

Lemma str_mem_in : forall s l, str_mem s l = true <-> In s l.
Proof.
  intros s l. induction l as [|x r IH]; cbn [str_mem In]; [split; [discriminate | tauto]|].
  destruct (String.eqb_spec x s) as [->|N]; [tauto|]. rewrite IH. split; [tauto|]. intros [E|E]; [congruence | exact E].
Qed.

Lemma dict_fold : forall A (l acc : list (string * A)),
  str_nodup (map fst l) = true ->
  (forall k, In k (map fst l) -> str_mem k (map fst acc) = false) ->
  fold_left (fun d kv => dict_set (fst kv) (snd kv) d) l acc = (acc ++ l)%list.
Proof.
  intros A l. induction l as [|[k v] r IH]; intros acc Hn Hf.
  - cbn. now rewrite app_nil_r.
  - cbn [map fst str_nodup] in Hn. apply andb_prop in Hn. destruct Hn as [Hk Hr].
    cbn [fold_left fst snd]. rewrite dict_set_fresh by (apply Hf; left; reflexivity).
    rewrite IH; [now rewrite <- app_assoc | exact Hr |].
    intros k' Hin. rewrite map_app, str_mem_app. cbn [map fst str_mem].
    rewrite (Hf k') by (right; exact Hin). cbn [orb].
    destruct (String.eqb_spec k k') as [->|_]; [|reflexivity].
    apply negb_true_iff in Hk. apply str_mem_in in Hin. congruence.
Qed.

Lemma dict_of_pairs_nodup : forall A (l : list (string * A)),
  str_nodup (map fst l) = true -> dict_of_pairs l = l.
Proof.
  intros A l H. unfold dict_of_pairs. rewrite dict_fold; auto.
Qed.

Definition is_enum (t : nty) : bool := match t with NEnum _ _ => true | _ => false end.

(* what one dataclass field contributes to asdict's (name, value) list *)
Definition pairs_of (a : string * (bool * pyj)) : list (string * pyj) :=
  if fst (snd a)
  then [(fst a, snd (snd a)); (proxy_prefix ++ fst a, snd (snd a))]
  else [(fst a, snd (snd a))].

Lemma filter_pairs : forall (l : list (string * (bool * pyj))),
  Forall (fun a => String.prefix documented_proxy_prefix (fst a) = false) l ->
  filter (fun kv => negb (String.prefix dict_drop_prefix (fst kv))) (List.concat (map pairs_of l)) =
  map (fun a => (fst a, snd (snd a))) l.
Proof.
  intros l H. induction H as [|a r Ha Hr IH]; [reflexivity|].
  cbn [map List.concat]. rewrite filter_app, IH. rewrite drop_prefix_documented.
  unfold pairs_of. destruct (fst (snd a)); cbn [filter fst app].
  - rewrite Ha. cbn [negb]. rewrite proxy_prefix_documented, prefix_app. reflexivity.
  - rewrite Ha. reflexivity.
Qed.

(* to_dict() holds the value tree (byte arrays as bytearray objects) *)
Theorem asdict_correct : forall t,
  no_proxy_names t = true -> names_distinct t = true ->
  forall v, has_ty (erase t) v = true ->
  py_asdict t v = POk (dict_spec t v).
Proof.
  induction t as [| |n|n|n ms|u IH|x cap e IH|x fs IH] using nty_ind'; intros Hp Hd v Hv;
    try reflexivity.
  - (* alias *) cbn [py_asdict dict_spec]. apply IH; auto.
  - (* array *)
    destruct (has_ty_arr _ _ _ _ Hv) as [l [-> [_ Hall]]].
    cbn [py_asdict dict_spec vlist]. destruct (is_byte e); [reflexivity|].
    rewrite (map_ext_in _ (fun a => POk (dict_spec e a))).
    2:{ intros a Hin. apply IH; auto. }
    rewrite <- (map_map (dict_spec e) POk), seq_res_ok. reflexivity.
  - (* message *)
    destruct (has_ty_nmsg _ _ _ Hv) as [vs [-> Hall]].
    cbn [no_proxy_names names_distinct] in Hp, Hd.
    apply andb_prop in Hd. destruct Hd as [Hd1 Hd2].
    cbn [py_asdict dict_spec].
    set (V := VM vs) in *.
    set (a := fun f : Z * (string * nty) => (fname f, (is_enum (ftype f), dict_spec (ftype f) (vfield (fnum f) V)))).
    rewrite (map_ext_in _ (fun f => (fnum f, POk (pairs_of (a f))))).
    2:{ intros f Hin. f_equal.
        pose proof (Hall f Hin) as Hf.
        pose proof (proj1 (forallb_forall _ _) Hp f Hin) as Hpf. cbv beta in Hpf.
        apply andb_prop in Hpf. destruct Hpf as [_ Hpf].
        pose proof (proj1 (forallb_forall _ _) Hd2 f Hin) as Hdf. cbv beta in Hdf.
        pose proof (IH f Hin Hpf Hdf _ Hf) as E.
        unfold a, pairs_of, field_pairs. cbn [fst snd]. rewrite E.
        destruct (ftype f) as [| |n|n|n ms|u|x' c' e'|x' fs'] eqn:Et; cbn [is_enum]; try reflexivity.
        cbn [erase has_ty] in Hf. destruct (vfield (fnum f) V) as [|z| |]; try discriminate Hf.
        cbn [zof dict_spec]. unfold is_member. rewrite Hf. reflexivity. }
    rewrite !(sorted_by _ _ fnum).
    rewrite <- (map_map (fun f => pairs_of (a f)) POk), seq_res_ok, <- (map_map a pairs_of).
    rewrite filter_pairs.
    2:{ apply Forall_forall. intros y Hy. apply in_map_iff in Hy as [f [<- Hf]]. apply sorted_in in Hf.
        pose proof (proj1 (forallb_forall _ _) Hp f Hf) as Hpf. cbv beta in Hpf.
        apply andb_prop in Hpf. destruct Hpf as [Hpf _]. now apply negb_true_iff in Hpf. }
    rewrite map_map. unfold a. cbn [fst snd].
    rewrite dict_of_pairs_nodup; [reflexivity|].
    rewrite <- (map_map snd fst), (sorted_by _ _ fnum), map_map in Hd1. rewrite map_map. exact Hd1.
Qed.

(* json.dumps with the byte-array hook writes the specified value, for EVERY tree and value
   (the hook is GenJson.dumps_bytes_as_list = true, read from bp.py: /repo fix b3480f8) *)
Lemma dumps_hook : dumps_bytes_as_list = true.
Proof. reflexivity. Qed.

Theorem dumps_dict_spec : forall t v, py_dumps (dict_spec t v) = POk (expected t v).
Proof.
  induction t as [| |n|n|n ms|u IH|x cap e IH|x fs IH] using nty_ind'; intros v; try reflexivity.
  - apply IH.
  - cbn [dict_spec expected]. destruct e; cbn [is_byte];
      try (cbn [py_dumps]; rewrite map_map, (map_ext _ (fun a => POk (expected _ a))) by (intros; apply IH);
           rewrite <- (map_map (expected _) POk), seq_res_ok; reflexivity).
    cbn [py_dumps]. rewrite dumps_hook, !map_map. reflexivity.
  - cbn [dict_spec expected py_dumps]. rewrite !(sorted_by _ _ fnum), map_map. cbn [fst snd].
    rewrite (map_ext_in _ (fun f => POk (fname f, expected (ftype f) (vfield (fnum f) v)))).
    2:{ intros f Hf. apply sorted_in in Hf. now rewrite (IH f Hf). }
    rewrite <- (map_map (fun f => (fname f, expected (ftype f) (vfield (fnum f) v))) POk), seq_res_ok.
    reflexivity.
Qed.

Theorem py_tree_correct : forall t v,
  no_proxy_names t = true -> names_distinct t = true ->
  has_ty (erase t) v = true ->
  py_tree t v = POk (expected t v).
Proof.
  intros t v Hp Hd Hv. unfold py_tree. rewrite asdict_correct by auto. apply dumps_dict_spec.
Qed.

Theorem c_eq_py : forall t v,
  shape_ok t = true -> wf (erase t) = true -> has_ty (erase t) v = true ->
  (exists x fs, t = NMsg x fs) ->
  no_proxy_names t = true -> names_distinct t = true ->
  exists s, py_to_json "," ":" t v = POk s /\ c_text t (store t v) = Some s.
Proof.
  intros t v Hs Hw Hv Hm Hp Hd. exists (print_compact (expected t v)). split.
  - unfold py_to_json. rewrite py_tree_correct by auto. reflexivity.
  - apply c_text_correct; auto.
Qed.

(* the case of finding json-bytes (fixed in /repo by b3480f8): Python JSON, C JSON and the
   specified text agree, while to_dict() holds the bytearray object *)
Definition bytes_t : nty := NMsg false [(1, ("b", NArr false 1 NByte))].
Definition bytes_v : val := VM [(1, VL [VZ 7])].

Lemma py_bytearray_regression :
  py_asdict bytes_t bytes_v = POk (PJDict [("b", PJBytes [7])]) /\
  py_to_json "," ":" bytes_t bytes_v = POk "{""b"":[7]}" /\
  c_text bytes_t (store bytes_t bytes_v) = Some "{""b"":[7]}" /\
  print_compact (expected bytes_t bytes_v) = "{""b"":[7]}".
Proof. vm_compute. repeat split; reflexivity. Qed.

(* witness of the open finding json-proxy-name (the faithful model refutes the Python half) *)
Definition proxy_t : nty := NMsg false [(1, ("_enum_field_proxy__x", NBool))].
Definition proxy_v : val := VM [(1, VB true)].

Lemma py_proxy_name_refuted :
  exists t v, shape_ok t = true /\ wf (erase t) = true /\ has_ty (erase t) v = true /\
              names_distinct t = true /\ no_proxy_names t = false /\
              py_tree t v = POk (JObj []) /\
              expected t v = JObj [("_enum_field_proxy__x", JBool true)] /\
              c_text t (store t v) = Some (print_compact (expected t v)).
Proof. exists proxy_t, proxy_v. vm_compute. repeat split; reflexivity. Qed.
