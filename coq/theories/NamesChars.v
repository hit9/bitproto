(* NamesChars.v — facts about single characters.  Three are evaluated on all 256 characters
   (bound: the whole type [ascii]): the six classes are disjoint ([char_classP]), the case
   maps exchange small and capital letters ([case_maps]), '.' is everything but the newline
   ([b1_first_eq]); the rest follows from these.  The [*_eq] lemmas connect the character
   classes TRANSLATED from utils.py's regular expressions (gen/GenNames.v) with the classes
   the proofs reason about: if a pattern of utils.py changes, its lemma no longer holds and
   the build breaks. *)
From Coq Require Import List Bool NArith Ascii.
From BP Require Import ListFacts NamesBase Names NamesSpec.
From BPGen Require Import GenNames.
Import ListNotations.
Open Scope list_scope.

Definition is_nl (c : ascii) : bool := is_chr 10 c.
Definition is_letter (c : ascii) : bool := is_upper c || is_lower c.

(* the six classes the proofs distinguish are pairwise disjoint (ListFacts.char_class) *)
Lemma char_classP c :
  char_class (is_upper c) (is_lower c) (is_digit c) (is_us c) (is_nl c) (is_chr dash_char c).
Proof. apply one_of_class. revert c. apply ascii_sweep. vm_compute. reflexivity. Qed.

(* a class of gen/GenNames.v is a list of ranges; against the ranges of Names.v only the
   closing [|| false] of [existsb] is in the way *)
Lemma b1_first_eq c : in_class b1_first c = negb (is_nl c).
Proof. apply eqb_prop. revert c. apply ascii_sweep. vm_compute. reflexivity. Qed.
Lemma b1_head_eq c : in_class b1_head c = is_upper c. Proof. apply orb_false_r. Qed.
Lemma b1_run_eq c : in_class b1_run c = is_lower c. Proof. apply orb_false_r. Qed.
Lemma b2_left_eq c : in_class b2_left c = (is_lower c || is_digit c).
Proof. exact (f_equal (orb (is_lower c)) (orb_false_r (is_digit c))). Qed.
Lemma b2_right_eq c : in_class b2_right c = is_upper c. Proof. apply orb_false_r. Qed.
Lemma a2d_left_eq c : in_class a2d_left c = is_letter c.
Proof. exact (f_equal (orb (is_upper c)) (orb_false_r (is_lower c))). Qed.
Lemma a2d_right_eq c : in_class a2d_right c = is_digit c. Proof. apply orb_false_r. Qed.
Lemma d2a_left_eq c : in_class d2a_left c = is_digit c. Proof. apply orb_false_r. Qed.
Lemma d2a_right_eq c : in_class d2a_right c = is_letter c. Proof. apply a2d_left_eq. Qed.
Lemma leading_eq c : in_class leading_class c = is_us c.
Proof. etransitivity; [apply orb_false_r | apply range1]. Qed.
Lemma trailing_eq c : in_class trailing_class c = is_us c.
Proof. apply leading_eq. Qed.
Lemma multi_eq c : is_chr multi_char c = is_us c. Proof. reflexivity. Qed.
Lemma sep_eq c : is_chr sep_char c = is_us c. Proof. reflexivity. Qed.
Lemma cls_pascal_split : forall c, Bool.eqb (is_chr pascal_split_char c) (is_us c) = true.
Proof. intros c. apply eqb_reflx. Qed.
Lemma sepc_us : sepc = us.
Proof. reflexivity. Qed.
Lemma sep_char_95 : sep_char = 95%N.
Proof. reflexivity. Qed.
Lemma pascal_split_char_95 : pascal_split_char = 95%N.
Proof. reflexivity. Qed.

Lemma upper_not_lower c : is_upper c = true -> is_lower c = false.
Proof. now destruct (char_classP c). Qed.
Lemma upper_not_digit c : is_upper c = true -> is_digit c = false.
Proof. now destruct (char_classP c). Qed.
Lemma upper_not_us c : is_upper c = true -> is_us c = false.
Proof. now destruct (char_classP c). Qed.
Lemma upper_not_nl c : is_upper c = true -> is_nl c = false.
Proof. now destruct (char_classP c). Qed.
Lemma lower_not_upper c : is_lower c = true -> is_upper c = false.
Proof. now destruct (char_classP c). Qed.
Lemma lower_not_us c : is_lower c = true -> is_us c = false.
Proof. now destruct (char_classP c). Qed.
Lemma us_not_upper c : is_us c = true -> is_upper c = false.
Proof. now destruct (char_classP c). Qed.
Lemma us_not_lower c : is_us c = true -> is_lower c = false.
Proof. now destruct (char_classP c). Qed.
Lemma us_not_digit c : is_us c = true -> is_digit c = false.
Proof. now destruct (char_classP c). Qed.
Lemma us_not_dash c : is_us c = true -> is_chr dash_char c = false.
Proof. now destruct (char_classP c). Qed.
Lemma digit_not_us c : is_digit c = true -> is_us c = false.
Proof. now destruct (char_classP c). Qed.

Lemma letter_not_us c : is_letter c = true -> is_us c = false.
Proof. unfold is_letter. now destruct (char_classP c). Qed.
Lemma letter_not_digit c : is_letter c = true -> is_digit c = false.
Proof. unfold is_letter. now destruct (char_classP c). Qed.
Lemma letter_not_dash c : is_letter c = true -> is_chr dash_char c = false.
Proof. unfold is_letter. now destruct (char_classP c). Qed.
Lemma letter_not_nl c : is_letter c = true -> is_nl c = false.
Proof. unfold is_letter. now destruct (char_classP c). Qed.

Lemma is_us_eq c : is_us c = true -> c = us.
Proof. intros H. apply N.eqb_eq in H. rewrite <- (ascii_N_embedding c). fold (code c). rewrite H. reflexivity. Qed.
Lemma is_us_us : is_us us = true.
Proof. reflexivity. Qed.

Lemma ascii_eqb_eq a b : ascii_eqb a b = true -> a = b.
Proof. unfold ascii_eqb. intros H. apply Ascii.eqb_eq, H. Qed.
Lemma ascii_eqb_refl a : ascii_eqb a a = true.
Proof. unfold ascii_eqb. apply Ascii.eqb_refl. Qed.

Definition case_maps_ok (c : ascii) : bool :=
  implb (is_lower c) (is_upper (to_upper c) && ascii_eqb (to_lower (to_upper c)) c) &&
  implb (is_upper c) (is_lower (to_lower c) && ascii_eqb (to_upper (to_lower c)) c).

Lemma case_maps c :
  (is_lower c = true -> is_upper (to_upper c) = true /\ to_lower (to_upper c) = c) /\
  (is_upper c = true -> is_lower (to_lower c) = true /\ to_upper (to_lower c) = c).
Proof.
  assert (H : case_maps_ok c = true) by (revert c; apply ascii_sweep; vm_compute; reflexivity).
  apply andb_true_iff in H. destruct H as [H1 H2].
  split; intros E; rewrite E in *; [apply andb_true_iff in H1; destruct H1 as [A B]
                                   | apply andb_true_iff in H2; destruct H2 as [A B]];
    (split; [exact A | apply ascii_eqb_eq, B]).
Qed.

Lemma to_upper_lower_is_upper c : is_lower c = true -> is_upper (to_upper c) = true.
Proof. apply case_maps. Qed.
Lemma to_lower_upper_is_lower c : is_upper c = true -> is_lower (to_lower c) = true.
Proof. apply case_maps. Qed.
Lemma to_lower_to_upper_eq c : is_lower c = true -> to_lower (to_upper c) = c.
Proof. apply case_maps. Qed.
Lemma to_upper_to_lower_eq c : is_upper c = true -> to_upper (to_lower c) = c.
Proof. apply case_maps. Qed.

Lemma to_upper_id c : is_lower c = false -> to_upper c = c.
Proof. unfold to_upper. intros ->. reflexivity. Qed.
Lemma to_lower_id c : is_upper c = false -> to_lower c = c.
Proof. unfold to_lower. intros ->. reflexivity. Qed.

Lemma to_upper_us_iff c : is_us (to_upper c) = is_us c.
Proof.
  destruct (is_lower c) eqn:E; [|rewrite (to_upper_id c E); reflexivity].
  rewrite (lower_not_us c E). apply upper_not_us, to_upper_lower_is_upper, E.
Qed.
Lemma to_lower_us_iff c : is_us (to_lower c) = is_us c.
Proof.
  destruct (is_upper c) eqn:E; [|rewrite (to_lower_id c E); reflexivity].
  rewrite (upper_not_us c E). apply lower_not_us, to_lower_upper_is_lower, E.
Qed.
Lemma to_upper_not_us c : is_us c = false -> is_us (to_upper c) = false.
Proof. rewrite to_upper_us_iff. trivial. Qed.
Lemma to_lower_not_us c : is_us c = false -> is_us (to_lower c) = false.
Proof. rewrite to_lower_us_iff. trivial. Qed.
Lemma to_upper_not_lower c : is_lower (to_upper c) = false.
Proof.
  destruct (is_lower c) eqn:E; [|rewrite (to_upper_id c E); exact E].
  apply upper_not_lower, to_upper_lower_is_upper, E.
Qed.
Lemma to_lower_not_upper c : is_upper (to_lower c) = false.
Proof.
  destruct (is_upper c) eqn:E; [|rewrite (to_lower_id c E); exact E].
  apply lower_not_upper, to_lower_upper_is_lower, E.
Qed.
Lemma to_upper_after_lower c : to_upper (to_lower c) = to_upper c.
Proof.
  destruct (is_upper c) eqn:E; [|rewrite (to_lower_id c E); reflexivity].
  rewrite (to_upper_to_lower_eq c E). symmetry. apply to_upper_id, upper_not_lower, E.
Qed.
Lemma to_upper_after_upper c : to_upper (to_upper c) = to_upper c.
Proof. apply to_upper_id, to_upper_not_lower. Qed.

Lemma str_eqb_eq : forall a b, str_eqb a b = true -> a = b.
Proof.
  induction a as [|x a IH]; destruct b as [|y b]; cbn [str_eqb]; try congruence.
  intros H. apply andb_true_iff in H. destruct H as [H1 H2].
  f_equal; [apply ascii_eqb_eq, H1 | apply IH, H2].
Qed.
Lemma str_eqb_refl : forall a, str_eqb a a = true.
Proof. induction a as [|x a IH]; cbn [str_eqb]; [reflexivity|]. rewrite ascii_eqb_refl, IH. reflexivity. Qed.
