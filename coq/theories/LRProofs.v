(* LRProofs.v — generic theorems about the LR driver model, for ANY grammar / tables / hints
   accepted by the executable validator.  One case analysis of a driver step ([step_spec]: the invariant
   is kept and every validated ranking decreases, or the result is justified) and one induction over the
   run ([run_spec]) give
     lr_sound        accepted  =>  the reductions are a bottom-up derivation of the input
     lr_safe         no Python IndexError / KeyError out of the loop
     lr_terminates   fuel [lr_bound W R (length ts)] always suffices (validated ranking; W, R: at Section Ranked)
     lr_error_prefix a syntax error cites the first token after a correctly reduced prefix
   Before them: [sr] derivations are derivations and rightmost in reverse; [derives_followed].  After
   them, for any tables: iterated steps ([reach]) compose, and fuel beyond the end of a run changes nothing. *)
From Coq Require Import List Arith Bool Lia.
From BP Require Import ListFacts LR.
Import ListNotations.

Lemma symbol_eqb_eq : forall a b, symbol_eqb a b = true -> a = b.
Proof.
  intros [x|x] [y|y] E; cbn in E; try discriminate; apply Nat.eqb_eq in E; subst; reflexivity.
Qed.

Lemma osym_eqb_eq : forall a b, osym_eqb a b = true -> a = b.
Proof.
  intros [a|] [b|] E; cbn in E; try discriminate; try reflexivity.
  apply symbol_eqb_eq in E. subst. reflexivity.
Qed.

Lemma assoc_In : forall (A : Type) k (l : list (nat * A)) v, assoc k l = Some v -> In (k, v) l.
Proof.
  induction l as [|[k' v'] r IH]; cbn; intros v E; [discriminate|].
  destruct (Nat.eqb k k') eqn:K.
  - apply Nat.eqb_eq in K. inversion E. subst. left. reflexivity.
  - right. apply IH. exact E.
Qed.

Lemma mem_In : forall x l, mem x l = true -> In x l.
Proof.
  unfold mem. intros x l E. apply existsb_exists in E. destruct E as [y [I E]].
  apply Nat.eqb_eq in E. subst. exact I.
Qed.

Lemma subset_spec : forall a b, subset a b = true -> forall x, In x a -> In x b.
Proof.
  unfold subset. intros a b E x I. rewrite forallb_forall in E. apply mem_In. apply E. exact I.
Qed.

Fixpoint claims (lv : list (list nat)) (stk : list nat) : Prop :=
  match lv with
  | [] => True
  | l :: lv' => match stk with
                | [] => False
                | q :: stk' => In q l /\ claims lv' stk'
                end
  end.

Lemma claims_weaken : forall cl av stk, levels_ok cl av = true -> claims av stk -> claims cl stk.
Proof.
  induction cl as [|c cs IH]; intros av stk E C; cbn; [exact I|].
  destruct av as [|a avs]; cbn in E; [discriminate|].
  apply andb_true_iff in E. destruct E as [E1 E2].
  cbn in C. destruct stk as [|q stk']; [exact C|]. destruct C as [C1 C2].
  split; [eapply subset_spec; eauto | eapply IH; eauto].
Qed.

Lemma derives_app : forall G a w1, derives G a w1 -> forall b w2, derives G b w2 ->
  derives G (a ++ b) (w1 ++ w2).
Proof.
  induction 1; intros b wb Hb; cbn.
  - exact Hb.
  - constructor. apply IHderives. exact Hb.
  - rewrite <- app_assoc. econstructor; eauto.
Qed.

Lemma derives_split : forall G a b w, derives G (a ++ b) w ->
  exists w1 w2, w = w1 ++ w2 /\ derives G a w1 /\ derives G b w2.
Proof.
  induction a as [|X a IH]; cbn; intros b w D.
  - exists [], w. repeat split; [constructor | exact D].
  - inversion D; subst.
    + match goal with F : derives G (a ++ b) _ |- _ => destruct (IH _ _ F) as [u1 [u2 [E [D1 D2]]]] end. subst.
      exists (t :: u1), u2. repeat split; [constructor; exact D1 | exact D2].
    + match goal with F : derives G (a ++ b) _ |- _ => destruct (IH _ _ F) as [u1 [u2 [E [D1 D2]]]] end. subst.
      exists (w1 ++ u1), u2. repeat split; [apply app_assoc | econstructor; eauto | exact D2].
Qed.

Theorem sr_derives : forall G st w rs, sr G st w rs -> derives G (rev st) w.
Proof.
  induction 1; cbn.
  - constructor.
  - apply derives_app; [exact IHsr | repeat constructor].
  - rewrite rev_app_distr, rev_involutive in IHsr.
    destruct (derives_split _ _ _ _ IHsr) as [w1 [w2 [E [D1 D2]]]]. subst.
    apply derives_app; [exact D1|].
    rewrite <- (app_nil_r w2). econstructor; eauto. constructor.
Qed.

Lemma all_terms_map : forall v, all_terms (map T v) = Some v.
Proof. induction v as [|t v IH]; cbn; [reflexivity | rewrite IH; reflexivity]. Qed.

Lemma split_last_nt_terms : forall v, split_last_nt (map T v) = None.
Proof. induction v as [|t v IH]; cbn; [reflexivity | rewrite IH; reflexivity]. Qed.

Lemma split_last_nt_spec : forall pre A v, split_last_nt (pre ++ NT A :: map T v) = Some (pre, A, v).
Proof.
  induction pre as [|X pre IH]; intros A v.
  - cbn [app split_last_nt]. rewrite split_last_nt_terms, all_terms_map. reflexivity.
  - cbn [app split_last_nt]. rewrite IH. reflexivity.
Qed.

Lemma sr_rm_expand : forall G st w rs, sr G st w rs ->
  forall v, rm_expand G (rev rs) (rev st ++ map T v) = Some (map T (w ++ v)).
Proof.
  induction 1; intro v.
  - reflexivity.
  - cbn [rev]. rewrite <- !app_assoc. cbn [app]. exact (IHsr (t :: v)).
  - rewrite rev_app_distr. cbn [rev app rm_expand]. rewrite H.
    rewrite <- app_assoc. cbn [app]. rewrite split_last_nt_spec, Nat.eqb_refl.
    specialize (IHsr v). rewrite rev_app_distr, rev_involutive, <- app_assoc in IHsr. exact IHsr.
Qed.

Lemma list_nat_eqb_refl : forall l, list_nat_eqb l l = true.
Proof. induction l as [|x l IH]; cbn; [reflexivity | rewrite Nat.eqb_refl, IH; reflexivity]. Qed.

Theorem sr_rm_check : forall G start ts rs, sr G [NT start] ts rs -> rm_check G start rs ts = true.
Proof.
  intros G start ts rs D. unfold rm_check.
  pose proof (sr_rm_expand _ _ _ _ D []) as E. cbn [rev app map] in E. rewrite E.
  rewrite app_nil_r, all_terms_map. apply list_nat_eqb_refl.
Qed.

(* "every a is immediately followed by b": a property of all words of a grammar *)

Fixpoint followed (a b : nat) (w : list nat) : bool :=
  match w with
  | [] => true
  | x :: r => (if Nat.eqb x a then match r with y :: _ => Nat.eqb y b | [] => false end else true)
              && followed a b r
  end.

Fixpoint followed_form (a b : nat) (f : list symbol) : bool :=
  match f with
  | [] => true
  | X :: r => (match X with
               | T x => if Nat.eqb x a then match r with T y :: _ => Nat.eqb y b | _ => false end else true
               | NT _ => true
               end) && followed_form a b r
  end.

Definition grammar_followed (a b : nat) (G : grammar) : bool :=
  forallb (fun p => followed_form a b (snd p)) G.

Lemma followed_app : forall a b w1 w2, followed a b w1 = true -> followed a b w2 = true ->
  followed a b (w1 ++ w2) = true.
Proof.
  induction w1 as [|x r IH]; intros w2 F1 F2; [exact F2|].
  cbn [followed app] in *. apply andb_true_iff in F1. destruct F1 as [F1 F1'].
  apply andb_true_iff. split; [|apply IH; assumption].
  destruct (Nat.eqb x a); [|reflexivity]. destruct r as [|y r']; [discriminate|]. exact F1.
Qed.

Lemma followed_last : forall a b w, followed a b (w ++ [a]) = false.
Proof.
  induction w as [|x r IH]; cbn [app followed].
  - rewrite Nat.eqb_refl. reflexivity.
  - rewrite IH. apply andb_false_r.
Qed.

Lemma derives_tok_inv : forall G y ss w, derives G (T y :: ss) w -> exists w', w = y :: w' /\ derives G ss w'.
Proof. intros G y ss w D. inversion D; subst. eauto. Qed.

Theorem derives_followed : forall G a b, grammar_followed a b G = true ->
  forall form w, derives G form w -> followed_form a b form = true -> followed a b w = true.
Proof.
  intros G a b GF. induction 1 as [|t ss w D IH|A p rhs ss w1 w2 Hp D1 IH1 D2 IH2]; intro F.
  - reflexivity.
  - cbn [followed_form] in F. apply andb_true_iff in F. destruct F as [F1 F2].
    cbn [followed]. apply andb_true_iff. split; [|apply IH; exact F2].
    destruct (Nat.eqb t a); [|reflexivity].
    destruct ss as [|[y|y] ss']; try discriminate.
    destruct (derives_tok_inv _ _ _ _ D) as [w' [E _]]. subst w. exact F1.
  - cbn [followed_form] in F. apply followed_app.
    + apply IH1. unfold grammar_followed in GF. rewrite forallb_forall in GF.
      exact (GF _ (nth_error_In _ _ Hp)).
    + apply IH2. exact F.
Qed.

Section Validated.

Variable G : grammar.
Variable TB : tables.
Variable H : hints.
Hypothesis Hval : validate G TB H = true.

Let n := length (t_action TB).

Lemma validate_facts : exists start,
  start_of G = Some start /\ 0 < n /\ incoming H 0 = None /\ past H 0 = [] /\
  forall s, s < n -> state_ok G TB H n start s = true.
Proof.
  pose proof Hval as V. unfold validate in V. fold n in V.
  destruct (start_of G) as [start|]; [|discriminate]. exists start.
  repeat (apply andb_true_iff in V; destruct V as [V ?]).
  repeat split.
  - apply Nat.ltb_lt. assumption.
  - apply osym_eqb_eq. assumption.
  - destruct (past H 0); [reflexivity | discriminate].
  - intros s Hs. match goal with F : forallb _ _ = true |- _ => rewrite forallb_forall in F; apply F end.
    apply in_seq. lia.
Qed.

Inductive stack_rel : list nat -> list symbol -> Prop :=
| srel_bot : stack_rel [0] []
| srel_push : forall s X stk syms, incoming H s = Some X -> s <> 0 -> s < n ->
    claims (past H s) stk -> stack_rel stk syms -> stack_rel (s :: stk) (X :: syms).

Lemma stack_rel_top : forall s stk syms, stack_rel (s :: stk) syms -> s < n /\ claims (past H s) stk.
Proof.
  intros s stk syms R. destruct validate_facts as [st [_ [Hn [_ [P0 _]]]]].
  inversion R; subst.
  - rewrite P0. split; [exact Hn | exact I].
  - split; assumption.
Qed.

Lemma push_ok : forall s stk syms X s', stack_rel (s :: stk) syms ->
  target_ok n H s X s' = true -> stack_rel (s' :: s :: stk) (X :: syms).
Proof.
  intros s stk syms X s' R E. unfold target_ok in E.
  repeat (apply andb_true_iff in E; destruct E as [E ?]).
  destruct (stack_rel_top _ _ _ R) as [Hs Hc].
  constructor.
  - apply osym_eqb_eq. assumption.
  - match goal with F : negb _ = true |- _ => apply negb_true_iff in F; apply Nat.eqb_neq in F; exact F end.
  - apply Nat.ltb_lt. assumption.
  - eapply claims_weaken; [eassumption|]. cbn. split; [left; reflexivity | exact Hc].
  - exact R.
Qed.

Lemma reduce_pop : forall A rrhs lv stk syms,
  stack_rel stk syms -> claims lv stk -> reduce_ok TB H A rrhs lv = true ->
  exists syms' q below,
    skipn (length rrhs) stk = q :: below /\ syms = rrhs ++ syms' /\
    stack_rel (q :: below) syms' /\
    (exists l, nth_error lv (length rrhs) = Some l /\ In q l) /\
    has_goto TB A q = true.
Proof.
  destruct validate_facts as [st [_ [_ [I0 _]]]].
  intros A. induction rrhs as [|X rr IH]; intros lv stk syms R C E.
  - destruct lv as [|l lv']; cbn in E; [discriminate|].
    cbn in C. destruct stk as [|q below]; [contradiction|]. destruct C as [C1 _].
    exists syms, q, below. cbn. repeat split; try assumption.
    + exists l. split; [reflexivity | exact C1].
    + rewrite forallb_forall in E. apply E. exact C1.
  - destruct lv as [|l lv']; cbn in E; [discriminate|].
    apply andb_true_iff in E. destruct E as [E1 E2].
    cbn in C. destruct stk as [|q below]; [contradiction|]. destruct C as [C1 C2].
    rewrite forallb_forall in E1. specialize (E1 _ C1). apply osym_eqb_eq in E1.
    inversion R; subst.
    + rewrite I0 in E1. discriminate.
    + match goal with F : incoming H q = Some _ |- _ => rewrite F in E1; inversion E1; subst end.
      match goal with F : stack_rel below _ |- _ => destruct (IH _ _ _ F C2 E2) as [syms' [q' [below' [S1 [S2 [S3 [[l' [S4 S5]] S6]]]]]]] end.
      exists syms', q', below'. cbn [length skipn nth_error]. subst.
      repeat split; try assumption. exists l'. split; assumption.
Qed.

Lemma do_reduce_ok : forall s stk syms t p la rest pos out,
  stack_rel (s :: stk) syms -> In (t, Reduce p) (row TB s) ->
  exists A rhs syms0 q below s',
    nth_error G p = Some (A, rhs) /\ nth_error (t_prod TB) p = Some (A, length rhs) /\
    syms = rev rhs ++ syms0 /\ skipn (length rhs) (s :: stk) = q :: below /\
    goto_of TB q A = Some s' /\
    (exists l, nth_error ([s] :: past H s) (length rhs) = Some l /\ In q l) /\
    stack_rel (s' :: q :: below) (NT A :: syms0) /\
    do_reduce TB p (s :: stk) la rest pos out = inl (mk_conf (s' :: q :: below) la rest pos (p :: out)).
Proof.
  intros s stk syms t p la rest pos out R I.
  destruct validate_facts as [st [_ [_ [_ [_ SO]]]]].
  destruct (stack_rel_top _ _ _ R) as [Hs Hc].
  pose proof (SO _ Hs) as S. unfold state_ok in S. apply andb_true_iff in S. destruct S as [S _].
  rewrite forallb_forall in S. specialize (S _ I). cbn in S.
  destruct (nth_error G p) as [[A rhs]|] eqn:EG; [|discriminate].
  destruct (nth_error (t_prod TB) p) as [[A' k]|] eqn:EP; [|discriminate].
  repeat (apply andb_true_iff in S; destruct S as [S ?]).
  apply Nat.eqb_eq in S. match goal with F : (k =? _) = true |- _ => apply Nat.eqb_eq in F; subst k end. subst A'.
  assert (C : claims ([s] :: past H s) (s :: stk)) by (cbn; split; [left; reflexivity | exact Hc]).
  match goal with F : reduce_ok _ _ _ _ _ = true |- _ =>
    destruct (reduce_pop _ _ _ _ _ R C F) as [syms0 [q [below [S1 [S2 [S3 [S4 S5]]]]]]] end.
  rewrite rev_length in S1, S4.
  unfold has_goto in S5. destruct (goto_of TB q A) as [s'|] eqn:EGo; [|discriminate].
  exists A, rhs, syms0, q, below, s'.
  assert (Rn : stack_rel (s' :: q :: below) (NT A :: syms0)).
  { destruct (stack_rel_top _ _ _ S3) as [Hq _].
    pose proof (SO _ Hq) as Sq. unfold state_ok in Sq. apply andb_true_iff in Sq. destruct Sq as [_ Sq].
    rewrite forallb_forall in Sq. specialize (Sq _ (assoc_In _ _ _ _ EGo)). cbn in Sq.
    apply push_ok; assumption. }
  repeat split; try assumption.
  unfold do_reduce. rewrite EP, S1, EGo. reflexivity.
Qed.

Lemma defaulted_In : forall s p, defaulted TB s = Some p -> exists t, row TB s = [(t, Reduce p)].
Proof.
  unfold defaulted. intros s p E. destruct (row TB s) as [|[t [s'|p'|]] [|x r]]; try discriminate.
  inversion E. subst. exists t. reflexivity.
Qed.

(* tokens not yet shifted *)
Definition pend (la : look) (rest : list nat) : list nat :=
  match la with Tok t => t :: rest | _ => rest end.

Definition fetched (la : look) : nat := match la with Tok _ => 1 | _ => 0 end.

Definition Inv (ts : list nat) (c : conf) : Prop :=
  exists syms consumed,
    stack_rel (c_stack c) syms /\ sr G syms consumed (rev (c_out c)) /\
    ts = consumed ++ pend (c_look c) (c_rest c) /\
    (c_look c = Eof -> c_rest c = []) /\
    c_pos c = length consumed + fetched (c_look c).

Lemma fetch_spec : forall la rest pos la' rest' pos',
  fetch la rest pos = (la', rest', pos') -> (la = Eof -> rest = []) ->
  pend la' rest' = pend la rest /\ la' <> NoLook /\ (la' = Eof -> rest' = []) /\
  pos' + fetched la = pos + fetched la'.
Proof.
  intros la rest pos la' rest' pos' F E. destruct la; cbn in F.
  - destruct rest as [|t r]; inversion F; subst; cbn; repeat split; try discriminate; try reflexivity; lia.
  - inversion F; subst. repeat split; try discriminate; try reflexivity.
  - inversion F; subst. repeat split; try discriminate; try reflexivity. exact E.
Qed.

Lemma init_inv : forall ts, Inv ts (init ts).
Proof.
  intro ts. exists [], []. cbn. repeat split; try discriminate; constructor.
Qed.

Definition peek (la : look) (rest : list nat) : nat :=
  match la with
  | Tok t => t
  | Eof => eof
  | NoLook => match rest with t :: _ => t | [] => eof end
  end.

Lemma fetch_peek : forall la rest pos la' rest' pos',
  fetch la rest pos = (la', rest', pos') ->
  peek la' rest' = peek la rest /\ look_type la' = peek la rest.
Proof.
  intros la rest pos la' rest' pos' F. destruct la; cbn in F.
  - destruct rest as [|t r]; inversion F; subst; cbn; split; reflexivity.
  - inversion F; subst. split; reflexivity.
  - inversion F; subst. split; reflexivity.
Qed.

(* [RT] ranks each state under each lookahead ([nterm] terminals, one more row for any other token)
   below the bound [R]; the certificate says that a reduction of k symbols lands in a state whose rank
   exceeds the old one by less than k*W - W, so with W per stack entry every reduction lowers the sum
   (k entries go, one comes).  A shift may raise the rank by up to R and adds one entry: it is paid by
   the R + W that each token not yet shifted carries. *)
Section Ranked.

Variable RT : list (list nat).
Variables nterm W R : nat.
Hypothesis Hrank : validate_rank TB H RT nterm W R = true.

Lemma rank_lt : forall s t, rank RT nterm s t < R.
Proof.
  pose proof Hrank as V. unfold validate_rank in V.
  repeat (apply andb_true_iff in V; destruct V as [V ?]).
  apply Nat.ltb_lt in V.
  intros s t. unfold rank.
  destruct (nth_in_or_default (Nat.min t nterm) RT []) as [I|E].
  - match goal with F : forallb _ RT = true |- _ => rewrite forallb_forall in F; specialize (F _ I); rename F into Fr end.
    destruct (nth_in_or_default s (nth (Nat.min t nterm) RT []) 0) as [I2|E2].
    + rewrite forallb_forall in Fr. specialize (Fr _ I2). apply Nat.ltb_lt in Fr. exact Fr.
    + rewrite E2. exact V.
  - rewrite E. destruct s; cbn; exact V.
Qed.

(* the reduction the driver makes in state s with t next in the input is one the certificate has ranked,
   under a lookahead of t's row: a defaulted state reduces without looking, and is ranked under every row *)
Lemma red_ranked : forall s t p, s < n ->
  match defaulted TB s with Some p' => p' = p | None => In (t, Reduce p) (row TB s) end ->
  exists t', Nat.min t' nterm = Nat.min t nterm /\ red_rank_ok TB H RT nterm W s t' p = true.
Proof.
  pose proof Hrank as V. unfold validate_rank in V. apply andb_true_iff in V. destruct V as [_ V].
  rewrite forallb_forall in V. intros s t p Hs Hd.
  assert (S : state_rank_ok TB H RT nterm W s = true) by (apply V, in_seq; fold n; lia).
  unfold state_rank_ok in S. destruct (defaulted TB s) as [p'|]; rewrite forallb_forall in S.
  - subst p'. exists (Nat.min t nterm). split; [rewrite <- Nat.min_assoc, Nat.min_id; reflexivity|].
    apply S, in_seq. lia.
  - exists t. split; [reflexivity | exact (S _ Hd)].
Qed.

Definition measure (c : conf) : nat :=
  rank RT nterm (hd 0 (c_stack c)) (peek (c_look c) (c_rest c))
  + W * length (c_stack c) + (R + W) * length (pend (c_look c) (c_rest c)).

Lemma reduce_measure : forall s stk t t' p q below s' A k l,
  red_rank_ok TB H RT nterm W s t' p = true -> Nat.min t' nterm = Nat.min t nterm ->
  nth_error (t_prod TB) p = Some (A, k) ->
  nth_error ([s] :: past H s) k = Some l -> In q l ->
  goto_of TB q A = Some s' ->
  skipn k (s :: stk) = q :: below ->
  rank RT nterm s' t + W * length (s' :: q :: below) < rank RT nterm s t + W * length (s :: stk).
Proof.
  intros s stk t t' p q below s' A k l E Et EP EL IQ EG ES.
  unfold red_rank_ok in E. rewrite EP, EL in E. rewrite forallb_forall in E. specialize (E _ IQ).
  rewrite EG in E. apply Nat.leb_le in E. unfold rank in *. rewrite Et in E.
  assert (L : length (s :: stk) = k + length (q :: below)).
  { rewrite <- ES, skipn_length.
    assert (length (skipn k (s :: stk)) <> 0) by (rewrite ES; discriminate).
    rewrite skipn_length in *. lia. }
  rewrite L. cbn [length]. rewrite !Nat.mul_add_distr_l, !Nat.mul_succ_r.
  rewrite (Nat.mul_comm k W) in E. lia.
Qed.

End Ranked.

Definition decreases (c' c : conf) : Prop :=
  forall RT nterm W R, validate_rank TB H RT nterm W R = true ->
  measure RT nterm W R c' < measure RT nterm W R c.

Definition res_ok (ts : list nat) (r : result) : Prop :=
  match r with
  | Accept rs => forall start, start_of G = Some start -> ~ In eof ts -> sr G [NT start] ts rs
  | SyntaxError idx tok rs =>
      (exists syms, sr G syms (firstn idx ts) rs) /\
      (nth_error ts idx = Some tok \/ (idx = length ts /\ tok = eof))
  | Crash _ _ | OutOfFuel => False
  end.

Lemma step_spec : forall ts c, Inv ts c ->
  match step TB c with
  | inl c' => Inv ts c' /\ decreases c' c
  | inr r => res_ok ts r
  end.
Proof.
  intros ts c [syms [consumed [R [D [E [Ee Ep]]]]]].
  destruct validate_facts as [st [Hst [_ [_ [_ SO]]]]].
  unfold step. destruct (c_stack c) as [|s stk] eqn:Es; [inversion R|].
  destruct (stack_rel_top _ _ _ R) as [Hs Hc].
  pose proof (SO _ Hs) as So. unfold state_ok in So. apply andb_true_iff in So. destruct So as [So _].
  rewrite forallb_forall in So.
  assert (Red : forall t p la rest pos, In (t, Reduce p) (row TB s) ->
            match defaulted TB s with
            | Some p' => p' = p
            | None => In (peek (c_look c) (c_rest c), Reduce p) (row TB s)
            end ->
            peek la rest = peek (c_look c) (c_rest c) -> pend la rest = pend (c_look c) (c_rest c) ->
            (la = Eof -> rest = []) -> pos = length consumed + fetched la ->
            match do_reduce TB p (s :: stk) la rest pos (c_out c) with
            | inl c' => Inv ts c' /\ decreases c' c
            | inr r => res_ok ts r
            end).
  { intros t p la rest pos I Hd Hpk Hpd Hee Hp.
    destruct (do_reduce_ok _ _ _ _ _ la rest pos (c_out c) R I)
      as [A [rhs [syms0 [q [below [s' [G1 [G2 [G3 [G4 [G5 [[l [G6 G6']] [G7 G8]]]]]]]]]]]]].
    rewrite G8. split.
    - exists (NT A :: syms0), consumed. cbn. repeat split; try assumption.
      + subst syms. econstructor; eassumption.
      + rewrite Hpd. exact E.
    - intros RT nterm W R0 Hrank.
      destruct (red_ranked _ _ _ _ Hrank s _ p Hs Hd) as (t' & Et & RK).
      pose proof (reduce_measure _ _ _ _ stk _ _ _ _ _ _ _ _ _ RK Et G2 G6 G6' G5 G4) as M.
      unfold measure. cbn [c_stack c_look c_rest hd]. rewrite Es, Hpk, Hpd. cbn [hd]. lia. }
  destruct (defaulted TB s) as [p|] eqn:Ed.
  - destruct (defaulted_In _ _ Ed) as [t Er]. apply (Red t); auto. rewrite Er. left. reflexivity.
  - destruct (fetch (c_look c) (c_rest c) (c_pos c)) as [[la rest] pos] eqn:Ef.
    destruct (fetch_spec _ _ _ _ _ _ Ef Ee) as [F1 [F2 [F3 F4]]].
    destruct (fetch_peek _ _ _ _ _ _ Ef) as [P1 P2].
    destruct (action_of TB s (look_type la)) as [[s'|p|]|] eqn:Ea; cbn [res_ok].
    + (* shift: the validator allows it on a real token only *)
      specialize (So _ (assoc_In _ _ _ _ Ea)). cbn in So.
      apply andb_true_iff in So. destruct So as [So1 So2].
      apply negb_true_iff in So1. apply Nat.eqb_neq in So1.
      destruct la as [|t|]; [contradiction | | cbn in So1; contradiction].
      cbn [look_type pend] in *. split.
      * exists (T t :: syms), (consumed ++ [t]). cbn. repeat split; try discriminate.
        -- apply push_ok; assumption.
        -- constructor. exact D.
        -- rewrite <- app_assoc. cbn. rewrite E, <- F1. reflexivity.
        -- rewrite app_length. cbn in *. lia.
      * intros RT nterm W R0 Hrank. pose proof (rank_lt _ _ _ _ Hrank s' (peek NoLook rest)) as B.
        unfold measure. cbn [c_stack c_look c_rest hd pend length]. rewrite Es, <- F1.
        cbn [hd length]. rewrite !Nat.mul_succ_r. lia.
    + apply (Red (look_type la)); auto; try lia.
      * exact (assoc_In _ _ _ _ Ea).
      * rewrite <- P2. exact (assoc_In _ _ _ _ Ea).
    + (* accept: the stack is [s; 0], s entered by the start symbol, and the lookahead is $end *)
      intros start Hst' N0. rewrite Hst in Hst'. inversion Hst'; subst st.
      specialize (So _ (assoc_In _ _ _ _ Ea)). cbn in So.
      repeat (apply andb_true_iff in So; destruct So as [So ?]).
      apply Nat.eqb_eq in So.
      match goal with F : osym_eqb _ _ = true |- _ => apply osym_eqb_eq in F; rename F into Inc end.
      destruct (past H s) as [|[|z l0] lv]; try discriminate.
      destruct z; [|discriminate]. destruct l0; [|discriminate].
      cbn in Hc. destruct stk as [|q stk']; [contradiction|]. destruct Hc as [[Hq|[]] _]. subst q.
      subst ts.
      inversion R; subst.
      match goal with F : stack_rel (0 :: stk') _ |- _ => inversion F; subst end;
        [| match goal with F : 0 <> 0 |- _ => contradiction F; reflexivity end].
      match goal with F : incoming H s = Some _ |- _ => rewrite F in Inc; inversion Inc; subst end.
      assert (P : pend la rest = []).
      { destruct la as [|t|]; [contradiction | | cbn; apply F3; reflexivity].
        cbn [look_type] in So. subst t. exfalso. apply N0. rewrite <- F1. cbn.
        apply in_or_app. right. left. reflexivity. }
      rewrite <- F1, P, app_nil_r. exact D.
    + (* error: everything before the offending token is consumed and reduced *)
      assert (Hi : err_index la pos = length consumed).
      { destruct la; [contradiction | |]; cbn in *; lia. }
      rewrite Hi. split.
      * exists syms. rewrite E, firstn_app_l. exact D.
      * rewrite E, <- F1. destruct la as [|t|]; [contradiction | |].
        -- left. cbn. rewrite nth_error_app2, Nat.sub_diag by lia. reflexivity.
        -- right. cbn. rewrite (F3 eq_refl), app_nil_r. split; reflexivity.
Qed.

Lemma run_spec : forall ts fuel c, Inv ts c ->
  match run TB fuel c with
  | OutOfFuel => forall RT nterm W R, validate_rank TB H RT nterm W R = true -> fuel <= measure RT nterm W R c
  | r => res_ok ts r
  end.
Proof.
  intros ts. induction fuel as [|f IH]; intros c I; cbn [run]; [intros; apply Nat.le_0_l|].
  pose proof (step_spec ts c I) as S. destruct (step TB c) as [c'|r].
  - destruct S as [I' Dc]. specialize (IH c' I'). destruct (run TB f c'); try exact IH.
    intros RT nterm W R Hrank. specialize (IH _ _ _ _ Hrank). specialize (Dc _ _ _ _ Hrank). lia.
  - destruct r; solve [exact S | destruct S].
Qed.

Theorem lr_sound : forall start fuel ts rs, start_of G = Some start -> ~ In eof ts ->
  lr_run TB fuel ts = Accept rs -> sr G [NT start] ts rs.
Proof.
  intros start fuel ts rs Hst N0 Rn. pose proof (run_spec ts fuel _ (init_inv ts)) as S.
  unfold lr_run in Rn. rewrite Rn in S. exact (S _ Hst N0).
Qed.

Theorem lr_safe : forall fuel ts e rs, lr_run TB fuel ts <> Crash e rs.
Proof.
  intros fuel ts e rs Rn. pose proof (run_spec ts fuel _ (init_inv ts)) as S.
  unfold lr_run in Rn. rewrite Rn in S. exact S.
Qed.

Theorem lr_error_prefix : forall fuel ts idx tok rs, lr_run TB fuel ts = SyntaxError idx tok rs ->
  (exists syms, sr G syms (firstn idx ts) rs) /\
  (nth_error ts idx = Some tok \/ (idx = length ts /\ tok = eof)).
Proof.
  intros fuel ts idx tok rs Rn. pose proof (run_spec ts fuel _ (init_inv ts)) as S.
  unfold lr_run in Rn. rewrite Rn in S. exact S.
Qed.

Variable RT : list (list nat).
Variables nterm W R : nat.
Hypothesis Hrank : validate_rank TB H RT nterm W R = true.

Theorem lr_terminates : forall ts, lr_run TB (lr_bound W R (length ts)) ts <> OutOfFuel.
Proof.
  intros ts Rn. pose proof (run_spec ts (lr_bound W R (length ts)) _ (init_inv ts)) as S.
  unfold lr_run in Rn. rewrite Rn in S. specialize (S _ _ _ _ Hrank).
  pose proof (rank_lt _ _ _ _ Hrank 0 (peek NoLook ts)). revert S.
  unfold measure, init, lr_bound. cbn [c_stack c_look c_rest hd pend length]. rewrite Nat.mul_add_distr_l. lia.
Qed.

Theorem lr_total : forall ts,
  (exists rs, lr_run TB (lr_bound W R (length ts)) ts = Accept rs) \/
  (exists idx tok rs, lr_run TB (lr_bound W R (length ts)) ts = SyntaxError idx tok rs).
Proof.
  intro ts. destruct (lr_run TB (lr_bound W R (length ts)) ts) as [rs|idx tok rs|e rs|] eqn:E.
  - left. eauto.
  - right. eauto.
  - exfalso. eapply lr_safe. exact E.
  - exfalso. eapply lr_terminates. exact E.
Qed.

End Validated.

(* iterated steps, for any tables: a run is [steps] read at the end, and steps add up; so [reach c c'] composes,
   a run from [c] is the run from [c'], and fuel beyond the end of a run changes nothing *)

Fixpoint steps (TB : tables) (k : nat) (c : conf) : conf + result :=
  match k with
  | O => inl c
  | S k' => match step TB c with inl c' => steps TB k' c' | inr r => inr r end
  end.

Lemma run_steps TB f c : run TB f c = match steps TB f c with inl _ => OutOfFuel | inr r => r end.
Proof. revert c. induction f as [|f IH]; intro c; cbn; [reflexivity|]. destruct (step TB c); [apply IH|reflexivity]. Qed.

Lemma steps_add TB a b c :
  steps TB (a + b) c = match steps TB a c with inl c' => steps TB b c' | inr r => inr r end.
Proof. revert c. induction a as [|a IH]; intro c; cbn; [reflexivity|]. destruct (step TB c); [apply IH|reflexivity]. Qed.

Definition reach (TB : tables) (c c' : conf) : Prop := exists k, steps TB k c = inl c'.

Lemma reach_trans TB a b c : reach TB a b -> reach TB b c -> reach TB a c.
Proof. intros [k1 H1] [k2 H2]. exists (k1 + k2). rewrite steps_add, H1. exact H2. Qed.

Lemma reach_run TB a b f r : reach TB a b -> run TB f b = r -> exists f', run TB f' a = r.
Proof. intros [k H] E. exists (k + f). rewrite run_steps, steps_add, H, <- run_steps. exact E. Qed.

Lemma run_more_fuel : forall TB f c r, run TB f c = r -> r <> OutOfFuel -> forall f', f <= f' -> run TB f' c = r.
Proof.
  intros TB f c r E N f' L. replace f' with (f + (f' - f)) by lia. rewrite run_steps in *. rewrite steps_add.
  destruct (steps TB f c); [contradiction N; symmetry; exact E | exact E].
Qed.

Lemma run_agree TB c f r f' r' :
  run TB f c = r -> r <> OutOfFuel -> run TB f' c = r' -> r' <> OutOfFuel -> r = r'.
Proof.
  intros E N E' N'. destruct (Nat.le_ge_cases f f') as [L|L].
  - rewrite <- E'. symmetry. exact (run_more_fuel _ _ _ _ E N _ L).
  - rewrite <- E. exact (run_more_fuel _ _ _ _ E' N' _ L).
Qed.
