(* LexActions.v — the rule bodies are total on every lexeme their regex admits, under exact guards:
     * int() of more than py_int_max_str_digits (4300) DECIMAL digits raises ValueError
       (t_INT_LITERAL, the width of t_UINT_TYPE / t_INT_TYPE) — known finding huge-literal;
       base 16 has no limit;
     * the only ParserErrors raised inside the tokenizer are InvalidUintCap, InvalidIntCap
       (width outside 1..64) and InvalidEscapingChar;
     * the escape loop never indexes outside the string body and never misses a table key.
   Consequence for the whole loop: the end of a run is LDone, the LexerError of t_error, one of
   those three ParserErrors, or ValueError exactly at a decimal run of more than 4300 digits. *)
From Coq Require Import String ZArith List Bool Lia.
From BP Require Import TotalBase EscapeLoop LexBase Lex LexSpec LexProofs LexMunch.
From BPGen Require Import GenLexer.
Import ListNotations.

Definition is_some {A} (o : option A) : bool := match o with Some _ => true | None => false end.
Definition dig10 (c : N) : bool := is_some (ndigit_of 10 c).
Definition dig16 (c : N) : bool := is_some (ndigit_of 16 c).

Lemma ndigits_total base : forall ds acc,
  forallb (fun c => is_some (ndigit_of base c)) ds = true -> exists z, ndigits_value base acc ds = Some z.
Proof.
  induction ds as [|c ds IH]; intros acc H; cbn [ndigits_value]; [eauto|].
  cbn [forallb] in H. apply andb_true_iff in H. destruct H as [H1 H2].
  destruct (ndigit_of base c) as [d|]; [|discriminate]. apply IH. exact H2.
Qed.

Lemma nstrip_10 s : nstrip_0x 10 s = s.
Proof. destruct s as [|z [|x r]]; reflexivity. Qed.

Lemma npy_int_dec maxd ds :
  ds <> [] -> forallb dig10 ds = true ->
  exists z, npy_int 10 maxd ds = if (maxd <? zlen ds)%Z then Crash ValueError else Ok z.
Proof.
  intros Hne Hd. unfold npy_int. rewrite nstrip_10. destruct ds as [|c r]; [contradiction|].
  change (negb (is_pow2_base 10)) with true. cbn [andb].
  destruct (ndigits_total 10 (c :: r) 0%Z Hd) as (z & Hz). exists z. rewrite Hz.
  destruct (maxd <? zlen (c :: r))%Z; reflexivity.
Qed.

Lemma npy_int_hex maxd hs :
  hs <> [] -> forallb dig16 hs = true -> exists z, npy_int 16 maxd (48 :: 120 :: hs)%N = Ok z.
Proof.
  intros Hne Hd. unfold npy_int. cbn [nstrip_0x]. change ((16 =? 16)%Z && (48 =? 48)%N && ((120 =? 120)%N || (120 =? 88)%N)) with true.
  cbv iota. destruct hs as [|c r]; [contradiction|].
  change (negb (is_pow2_base 16)) with false. cbn [andb].
  destruct (ndigits_total 16 (c :: r) 0%Z Hd) as (z & Hz). rewrite Hz. eauto.
Qed.

Definition is_bslash (c : N) : bool := N.eqb c 92.
Definition loop_good := EscapeLoop.loop_good N.

Section Act.
Variable uw : N -> bool.

Lemma body_units g p body post : dm uw (XStar g str_unit) p body post -> units N is_bslash body.
Proof.
  intro H. pattern p, body, post. eapply dm_star_ind; [| |exact H]; clear H p body post.
  - constructor.
  - intros p w1 w2 post H1 _ IH. unfold str_unit in H1. apply dm_alt_inv in H1. destruct H1 as [H1|H1].
    + apply dm_atom_inv in H1; [|reflexivity]. destruct H1 as (c & -> & Hok).
      cbn [atom_ok in_ranges existsb fst snd] in Hok. apply UChar; [|exact IH].
      unfold is_bslash. destruct (N.eqb_spec c 92) as [E|E]; [|reflexivity]. subst c. discriminate Hok.
    + apply dm_seq_inv in H1. destruct H1 as (a & b & -> & Ha & Hb).
      apply dm_char_inv in Ha. subst a. apply dm_atom_inv in Hb; [|reflexivity]. destruct Hb as (d & -> & _).
      apply UPair; [reflexivity|exact IH].
Qed.

Definition unescaped (body val : list N) : outcome (list N) :=
  match unescape body with Some v => Ok (val ++ v) | None => ParserError "InvalidEscapingChar"%string end.

Lemma escapes_get d : ntable_get escaping_chars d = option_map (fun v => [v]) (ntable_get S_escapes d).
Proof.
  unfold escaping_chars, S_escapes. cbn [ntable_get].
  repeat match goal with |- context [N.eqb d ?k] => destruct (N.eqb d k); [reflexivity|] end. reflexivity.
Qed.

Lemma unesc_unescaped body : units N is_bslash body -> forall val,
  unesc N is_bslash (ntable_mem escaping_chars) (npy_dict_get escaping_chars) body val = unescaped body val.
Proof.
  unfold unescaped, is_bslash.
  induction 1 as [|c r Hc _ IH|b d r Hb _ IH]; intro val; cbn [unesc unescape].
  - rewrite app_nil_r. reflexivity.
  - rewrite Hc, IH. destruct (unescape r); [rewrite <- app_assoc|]; reflexivity.
  - rewrite Hb. unfold ntable_mem, npy_dict_get. rewrite escapes_get.
    destruct (ntable_get S_escapes d) as [v|]; cbn [option_map bind]; [|reflexivity].
    rewrite IH. destruct (unescape r); [rewrite <- app_assoc|]; reflexivity.
Qed.

(* the escape loop of t_STRING_LITERAL computes LexSpec.unescape on every body the rule's regex admits *)
Lemma unescape_token_value g p body post (q1 q2 : N) :
  dm uw (XStar g str_unit) p body post -> unescape_token (q1 :: body ++ [q2]) = unescaped body [].
Proof.
  intro Hb. unfold unescape_token, token_body. rewrite py_slice_inner. cbv zeta.
  exact (eq_trans (loop_unesc N is_bslash _ _ escape_loop (fun _ _ _ _ => eq_refl) (length body) body (le_n _) [] []
                    _ (Nat.lt_succ_diag_r _))
                  (unesc_unescaped body (body_units _ _ _ _ Hb) [])).
Qed.

Lemma lexeme_unescape_total p w post : dm uw rx_t_STRING_LITERAL p w post -> loop_good (unescape_token w).
Proof.
  unfold rx_t_STRING_LITERAL. intro H.
  apply dm_seq_inv in H. destruct H as (q1 & r1 & -> & Hq1 & H). apply dm_char_inv in Hq1. subst q1.
  apply dm_seq_inv in H. destruct H as (body & q2 & -> & Hb & Hq2). apply dm_char_inv in Hq2. subst q2.
  cbn [app]. rewrite (unescape_token_value _ _ _ _ _ _ Hb). unfold unescaped, loop_good, EscapeLoop.loop_good.
  destruct (unescape body); eauto.
Qed.

Definition crash_guard (rem : list N) : Prop :=
  exists pre ds post, rem = pre ++ ds ++ post /\ (pre = [] \/ pre = W_uint \/ pre = W_int)
                      /\ forallb dig10 ds = true /\ (py_int_max_str_digits < zlen ds)%Z.

Definition lexer_error_kinds : list string := ["InvalidUintCap"; "InvalidIntCap"; "InvalidEscapingChar"]%string.

Definition act_good (o : outcome (list N * tvalue * Z)) (w post : list N) : Prop :=
  match o with
  | Ok _ => True
  | ParserError k => In k lexer_error_kinds
  | Crash e => e = ValueError /\ crash_guard (w ++ post)
  end.

Lemma digits_of_plus p w post :
  dm uw (XPlus true (XIn false [(48, 57)]%N)) p w post -> w <> [] /\ forallb dig10 w = true.
Proof.
  intro H. split.
  - eapply dm_consumes; [exact H|reflexivity].
  - eapply dm_atoms_sat; [exact H|vm_compute; reflexivity].
Qed.

Lemma cap_node_good cls k pre ds post line name :
  ds <> [] -> forallb dig10 ds = true -> length pre = k -> (pre = W_uint \/ pre = W_int) ->
  (cls = "Uint" \/ cls = "Int")%string ->
  act_good (run_action name (Some (mkAct 0 None (CvCapNode cls k) false)) (pre ++ ds) line) (pre ++ ds) post.
Proof.
  intros Hne Hd Hk Hpre Hcls. unfold run_action. cbn [a_settype a_kw a_conv a_lineinc andb run_conv].
  unfold py_slice_from. rewrite <- Hk, skipn_app, Nat.sub_diag, skipn_all. cbn [skipn app].
  destruct (npy_int_dec py_int_max_str_digits ds Hne Hd) as [z E]. rewrite E.
  destruct (py_int_max_str_digits <? zlen ds)%Z eqn:G; cbn [bind act_good].
  - apply Z.ltb_lt in G. split; [reflexivity|]. exists pre, ds, post. rewrite <- app_assoc. repeat split; auto.
  - unfold node_cap_check, uint_cap_check, int_cap_check.
    destruct Hcls as [-> | ->]; cbn [String.eqb Ascii.eqb Bool.eqb];
      match goal with |- context [if ?c then Ok _ else ParserError _] => destruct c end; cbn [bind act_good lexer_error_kinds In]; auto.
Qed.

Lemma action_good r p w post line :
  In r lex_rules -> dm uw (r_rx r) p w post -> act_good (run_action (r_name r) (r_act r) w line) w post.
Proof.
  intros Hin Hd. unfold lex_rules in Hin. cbn [In] in Hin.
  repeat (destruct Hin as [<-|Hin]; [cbn [r_rx r_name r_act] in *|]); try contradiction;
    try (unfold run_action; cbn [a_settype a_kw a_conv a_lineinc andb run_conv bind act_good]; exact I).
  - (* t_UINT_TYPE *)
    unfold rx_t_UINT_TYPE in Hd. dm_inv.
    match goal with H : dm _ (XPlus _ _) _ _ _ |- _ => apply digits_of_plus in H; destruct H as [Hne Hdg] end.
    cbn [app]. rewrite app_nil_r.
    match goal with |- context [117%N :: 105%N :: 110%N :: 116%N :: ?ds] =>
      change (117%N :: 105%N :: 110%N :: 116%N :: ds) with (W_uint ++ ds) end.
    apply cap_node_good; auto.
  - (* t_INT_TYPE *)
    unfold rx_t_INT_TYPE in Hd. dm_inv.
    match goal with H : dm _ (XPlus _ _) _ _ _ |- _ => apply digits_of_plus in H; destruct H as [Hne Hdg] end.
    cbn [app]. rewrite app_nil_r.
    match goal with |- context [105%N :: 110%N :: 116%N :: ?ds] =>
      change (105%N :: 110%N :: 116%N :: ds) with (W_int ++ ds) end.
    apply cap_node_good; auto.
  - (* t_HEX_LITERAL *)
    unfold rx_t_HEX_LITERAL in Hd. dm_inv. cbn [app].
    match goal with H : dm _ (XPlus _ _) _ _ _ |- _ =>
      pose proof (dm_consumes _ _ _ _ _ H eq_refl) as Hne;
      pose proof (dm_atoms_sat uw dig16 _ _ _ _ H ltac:(vm_compute; reflexivity)) as Hdg end.
    unfold run_action. cbn [a_settype a_kw a_conv a_lineinc andb run_conv].
    match goal with |- context [npy_int 16 ?m (48%N :: 120%N :: ?hs)] =>
      destruct (npy_int_hex m hs Hne Hdg) as (z & Hz); rewrite Hz end.
    cbn [bind act_good]. exact I.
  - (* t_INT_LITERAL *)
    unfold rx_t_INT_LITERAL in Hd. apply digits_of_plus in Hd. destruct Hd as [Hne Hdg].
    unfold run_action. cbn [a_settype a_kw a_conv a_lineinc andb run_conv].
    destruct (npy_int_dec py_int_max_str_digits w Hne Hdg) as [z E]. rewrite E.
    destruct (py_int_max_str_digits <? zlen w)%Z eqn:G; cbn [bind act_good]; [|exact I].
    apply Z.ltb_lt in G. split; [reflexivity|]. exists [], w, post. cbn [app]. repeat split; auto.
  - (* t_STRING_LITERAL *)
    apply lexeme_unescape_total in Hd. unfold run_action. cbn [a_settype a_kw a_conv a_lineinc andb run_conv].
    destruct Hd as [[v Hv]|Hv]; rewrite Hv; cbn [bind act_good lexer_error_kinds In]; auto.
Qed.

Definition end_good (e : lexend) (rem : list N) : Prop :=
  match e with
  | LDone | LError _ _ _ => True
  | LActErr k _ => In k lexer_error_kinds
  | LCrash ex => ex = ValueError /\ crash_guard rem
  | LFuel => False
  end.

Lemma lex_items_end : forall fuel prev rest pos line, (length rest < fuel)%nat ->
  end_good (snd (fst (lex_items uw fuel prev rest pos line))) (snd (lex_items uw fuel prev rest pos line)).
Proof.
  apply (lex_items_ind uw (fun _ _ _ _ x => end_good (snd (fst x)) (snd x))); cbn [fst snd end_good]; auto.
  intros p w post pos line r fuel _ _ Hin Dw _ _. pose proof (action_good r p w post line Hin Dw) as HA.
  destruct (run_action (r_name r) (r_act r) w line) as [[[ty v] l']|k|ex]; auto.
Qed.

(* C09: how a run of the tokenizer can end *)
Theorem lex_end_good s its e rem : lex_run uw s = (its, e, rem) -> end_good e rem.
Proof.
  unfold lex_run. intro H.
  pose proof (lex_items_end (S (length s)) None s 0%Z lexer_initial_lineno (Nat.lt_succ_diag_r _)) as I.
  rewrite H in I. exact I.
Qed.

End Act.

(* a run of digits "1" *)
Lemma first_rule_digits uw fuel n : (n <= fuel)%nat ->
  first_rule uw fuel lex_rules (None, 49%N :: repeat 49%N n)
  = Some (mkRule T_INT_LITERAL rx_t_INT_LITERAL (Some (mkAct 0%Z None (CvInt 10%Z) false)),
          (lastc (Some 49%N) (repeat 49%N n), [])).
Proof.
  intro Hf. rewrite first_rule_dispatch.
  let d := eval vm_compute in (dispatch 49) in change (dispatch 49) with d. cbn [first_rule r_rx].
  change (XSeq (XIn false [(48, 57)]%N) (XStar true (XIn false [(48, 57)]%N))) with rx_t_INT_LITERAL.
  rewrite int_literal_maximal by (cbn [length]; rewrite repeat_length; lia).
  assert (Hs : span ok_digit (repeat 49%N n) = (repeat 49%N n, [])).
  { rewrite <- (app_nil_r (repeat 49%N n)) at 1. apply span_app_stop; [|exact I].
    apply forallb_forall. intros c Hc. apply repeat_spec in Hc. subst c. reflexivity. }
  rewrite Hs. reflexivity.
Qed.

Lemma lex_digit_run uw n :
  snd (lex uw (repeat 49%N (S n)))
  = if (py_int_max_str_digits <? Z.of_nat (S n))%Z then LCrash ValueError else LDone.
Proof.
  assert (Hd : forallb dig10 (repeat 49%N (S n)) = true).
  { apply forallb_forall. intros c Hc. apply repeat_spec in Hc. subst c. reflexivity. }
  destruct (npy_int_dec py_int_max_str_digits (repeat 49%N (S n)) ltac:(discriminate) Hd) as [z E].
  unfold zlen in E. rewrite repeat_length in E.
  unfold lex, lex_run. rewrite repeat_length. cbn [repeat] in *. cbn [lex_items].
  change (cp_mem 49 lex_ignore) with false. cbv iota.
  rewrite (first_rule_digits uw (S n) n) by lia. cbv iota. cbn [length firstn]. rewrite Nat.sub_0_r. cbn [firstn].
  rewrite firstn_all.
  unfold run_action. cbn [r_name r_act a_settype a_kw a_conv a_lineinc andb run_conv]. rewrite E.
  destruct (py_int_max_str_digits <? Z.of_nat (S n))%Z; reflexivity.
Qed.

(* the guard is exact: a run of 4301 digits does crash the decimal conversion (the witness is replayed on
   the implementation on every run: boundary catalogue `long-digits-4301`) *)
Lemma huge_literal_witness uw :
  snd (lex uw (repeat 49%N 4301)) = LCrash ValueError /\ snd (lex uw (repeat 49%N 4300)) = LDone.
Proof. split; [exact (lex_digit_run uw 4300)|exact (lex_digit_run uw 4299)]. Qed.
