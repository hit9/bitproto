(* CBatchProofs.v — the contiguous batch copy of BpEndecodeArray (arrays of 8/16/32/64-bit
   integers, little-endian build) gives exactly what the per-element loop gives. *)
From Coq Require Import ZArith List Bool Lia.
From BP Require Import Bits Schema Spec CMem CRt PyEncProofs CBaseProofs CEncProofs CDecProofs CWalk CEvolveProofs RdSpec.
From BPGen Require Import GenC.
Import ListNotations.
Open Scope Z_scope.

(* BpEndecodeArray with the batch branch deleted: always the per-element loop (L210-228) *)
Definition endecode_array_loop_only (B E : endian) (cp : desc -> cctx -> obj -> cres (cctx * obj))
           (enc ext : bool) (cap : Z) (elem : desc) (x : cctx) (o : obj) : cres (cctx * obj) :=
  let i := xi x in
  xa <-- (if ext then
            if enc then x' <-- encode_ahead B E (ah_arr_val cap) x ;; COk (x', 0)
            else decode_ahead B E x
          else COk (x, 0)) ;;
  r <-- elems_loop B E cp enc elem (Z.to_nat cap) O (fst xa) o ;;
  if ext && negb enc then
    let ito := ar_ito i (snd xa) (xi (fst r)) cap in
    if ar_ito_taken ito (xi (fst r)) then COk ({| xs := xs (fst r); xi := ito |}, snd r)
    else COk r
  else COk r.

Section Batch.
  Let cpe := call_processor LE LE true.
  Let cpd := call_processor LE LE false.

  (* both bodies move the cursor over the same segment of the finished stream and leave the object *)
  Theorem batch_eq_loop_encode ext cap e o x :
    wf (TArr ext cap e) = true -> cwf (TArr ext cap e) = true ->
    batch_pred LE (nbits e) (d_flag (render e)) (d_to_flag (render e)) = true ->
    shape_ok (TArr ext cap e) o -> cenc_pre x (nbits (TArr ext cap e)) ->
    endecode_array LE LE cpe true ext (Z.of_nat cap) (render e) x o
    = endecode_array_loop_only LE LE cpe true ext (Z.of_nat cap) (render e) x o.
  Proof.
    intros Hw Hc Hbp Hs Hpre.
    destruct (cenc_ok_all LE LE eq_refl (TArr ext cap e) o Hw Hc Hs) as [Hlen Hnode].
    destruct (cenc_pre_at x _ _ Hpre Hlen) as (sf & Hsf & Hl & Hx & Hseg).
    destruct Hpre as (_ & Hi & _ & Hr). rewrite <- Hl in Hr. rewrite <- Hlen in Hr, Hseg.
    specialize (Hnode sf Hsf (xi x) Hi Hr Hseg). cbn [core] in Hnode. rewrite Hx. fold cpe in Hnode. rewrite Hnode.
    symmetry. clear Hnode.
    cbn [wf] in Hw. rewrite !andb_true_iff in Hw. destruct Hw as [[Hc1 Hc2] Hwe].
    cbn [cwf] in Hc. apply andb_true_iff in Hc. destruct Hc as [Hel Hce].
    assert (Hcap : 0 <= Z.of_nat cap < 65536) by lia. pose proof (nbits_nonneg e Hwe) as Hn.
    destruct (enc_array_loop LE LE ext cap e o (cenc_ok_all LE LE eq_refl e) Hwe Hce Hel Hs) as [Hlb Hloop].
    pose proof (ext_prefix_length ext (Z.of_nat cap)) as Hlp.
    cbn [enc_bits] in *. rewrite app_length, Nat2Z.inj_add, Hlp in *.
    destruct (chunk_ext ext (bufZ sf) (xi x) _ _ _ Hi (Nat2Z.is_nonneg _) Hcap Hseg) as [H1 H2].
    unfold endecode_array_loop_only. rewrite andb_false_r, (proj1 (ah_val_facts _ Hcap)).
    rewrite (ahead_at LE LE true eq_refl ext (Z.of_nat cap) sf (xi x) Hcap Hsf Hi ltac:(lia) H1).
    cbn [cbind fst snd]. rewrite cbind_ret, Z.add_assoc, Nat2Z.id. apply Hloop; try assumption; lia.
  Qed.

  Theorem batch_eq_loop_decode ext cap e v x :
    wf (TArr ext cap e) = true -> cwf (TArr ext cap e) = true ->
    batch_pred LE (nbits e) (d_flag (render e)) (d_to_flag (render e)) = true ->
    has_ty (TArr ext cap e) v = true -> dec_pre x (nbits (TArr ext cap e)) ->
    seg (xs x) (xi x) (nbits (TArr ext cap e)) = Z_of_bits (enc_bits (TArr ext cap e) v) ->
    endecode_array LE LE cpd false ext (Z.of_nat cap) (render e) x (zero_obj (TArr ext cap e))
    = endecode_array_loop_only LE LE cpd false ext (Z.of_nat cap) (render e) x (zero_obj (TArr ext cap e)).
  Proof.
    intros Hw Hc Hbp Ht (Hs & Hi & Hr) Hseg. destruct x as [sf i]. cbn [xs xi] in *.
    (* the buffer reaches to where the reader ends: the end of the encoded array; both sides are then
       BpEndecodeArray around a body that stores what the reader finds *)
    assert (Hlen : snd (rd (TArr ext cap e) sf i) <= 8 * Z.of_nat (length sf))
      by (now rewrite (rd_own _ v sf i Hw Ht Hi Hseg)).
    transitivity (COk (ctx_at false sf (snd (rd (TArr ext cap e) sf i)),
                       store LE (TArr ext cap e) (fst (rd (TArr ext cap e) sf i)))).
    - exact (crd_ok_all LE LE eq_refl (TArr ext cap e) sf i Hw Hc Hs Hi Hlen).
    - symmetry. unfold endecode_array_loop_only. cbn [negb]. rewrite andb_true_r.
      apply (crd_array_frame LE LE eq_refl ext cap e sf i _ Hw Hs Hi Hlen).
      intros j a Hj Hrj. cbn [fst]. rewrite Nat2Z.id.
      cbn [wf] in Hw. rewrite !andb_true_iff in Hw. cbn [cwf] in Hc. apply andb_true_iff in Hc.
      apply (crd_array_loop LE LE ext cap e sf j (crd_ok_all LE LE eq_refl e)); tauto.
  Qed.
End Batch.
