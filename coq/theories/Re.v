(* Re.v — regular expressions over bytes: abstract syntax (the fragment of Python's `re`
   that bitproto's token rules use, as produced by `re._parser.parse`), the usual
   denotational semantics [matches], and an executable matcher by Brzozowski derivatives
   proved equivalent to it.  Used by C09 (Total.v): the token languages are GENERATED from
   the docstrings of lexer.py (coq/gen/GenC09.v), never retyped. *)
From Coq Require Import List Ascii Bool.
Import ListNotations.

(* character classes: items of a [...] set *)
Inductive citem : Type :=
| CLit (c : nat)
| CRange (lo hi : nat).

Inductive re : Type :=
| RNull                                  (* matches nothing *)
| REps                                   (* matches the empty string *)
| RChar (c : nat)                        (* LITERAL c *)
| RNotChar (c : nat)                     (* NOT_LITERAL c *)
| RAny                                   (* `.` without DOTALL: anything but "\n" (10) *)
| RIn (neg : bool) (items : list citem)  (* [...] / [^...] *)
| RSeq (a b : re)
| RAlt (a b : re)
| RStar (a : re).

Definition RPlus (a : re) : re := RSeq a (RStar a).

Definition citem_has (n : nat) (i : citem) : bool :=
  match i with
  | CLit c => Nat.eqb n c
  | CRange lo hi => Nat.leb lo n && Nat.leb n hi
  end.

Definition in_class (neg : bool) (items : list citem) (n : nat) : bool :=
  xorb neg (existsb (citem_has n) items).

Definition atom_ok (r : re) (c : ascii) : bool :=
  let n := nat_of_ascii c in
  match r with
  | RChar k => Nat.eqb n k
  | RNotChar k => negb (Nat.eqb n k)
  | RAny => negb (Nat.eqb n 10)
  | RIn neg items => in_class neg items n
  | _ => false
  end.

Definition is_atom (r : re) : bool :=
  match r with RChar _ | RNotChar _ | RAny | RIn _ _ => true | _ => false end.

Inductive matches : re -> list ascii -> Prop :=
| MEps : matches REps []
| MAtom r c : is_atom r = true -> atom_ok r c = true -> matches r [c]
| MSeq a b s1 s2 : matches a s1 -> matches b s2 -> matches (RSeq a b) (s1 ++ s2)
| MAltL a b s : matches a s -> matches (RAlt a b) s
| MAltR a b s : matches b s -> matches (RAlt a b) s
| MStar0 a : matches (RStar a) []
| MStarS a s1 s2 : matches a s1 -> matches (RStar a) s2 -> matches (RStar a) (s1 ++ s2).

Fixpoint nullable (r : re) : bool :=
  match r with
  | REps => true
  | RStar _ => true
  | RSeq a b => nullable a && nullable b
  | RAlt a b => nullable a || nullable b
  | _ => false
  end.

Definition mk_seq (a b : re) : re :=
  match a, b with
  | RNull, _ => RNull
  | _, RNull => RNull
  | REps, _ => b
  | _, _ => RSeq a b
  end.

Definition mk_alt (a b : re) : re :=
  match a, b with
  | RNull, _ => b
  | _, RNull => a
  | _, _ => RAlt a b
  end.

Fixpoint deriv (c : ascii) (r : re) : re :=
  match r with
  | RNull | REps => RNull
  | RChar _ | RNotChar _ | RAny | RIn _ _ => if atom_ok r c then REps else RNull
  | RSeq a b =>
      if nullable a then mk_alt (mk_seq (deriv c a) b) (deriv c b)
      else mk_seq (deriv c a) b
  | RAlt a b => mk_alt (deriv c a) (deriv c b)
  | RStar a => mk_seq (deriv c a) (RStar a)
  end.

Fixpoint derivs (s : list ascii) (r : re) : re :=
  match s with
  | [] => r
  | c :: s' => derivs s' (deriv c r)
  end.

Definition re_matchb (r : re) (s : list ascii) : bool := nullable (derivs s r).


Lemma matches_null_inv s : ~ matches RNull s.
Proof. intro H. inversion H; subst. discriminate. Qed.

Lemma matches_eps_inv s : matches REps s -> s = [].
Proof. intro H. inversion H; subst; [reflexivity|discriminate]. Qed.

Lemma matches_seq_inv a b s :
  matches (RSeq a b) s -> exists s1 s2, s = s1 ++ s2 /\ matches a s1 /\ matches b s2.
Proof.
  intro H. inversion H; subst; try discriminate. eexists _, _. eauto.
Qed.

Lemma matches_alt_inv a b s : matches (RAlt a b) s -> matches a s \/ matches b s.
Proof. intro H. inversion H; subst; try discriminate; [left|right]; assumption. Qed.

Lemma matches_atom_inv r s :
  is_atom r = true -> matches r s -> exists c, s = [c] /\ atom_ok r c = true.
Proof.
  intros Hat H. inversion H; subst; try discriminate. eexists; split; [reflexivity|assumption].
Qed.

Lemma matches_atom_nil r : is_atom r = true -> ~ matches r [].
Proof. intros Hat H. apply matches_atom_inv in H; [|assumption]. destruct H as (c & E & _). discriminate. Qed.

Lemma nullable_spec r : nullable r = true <-> matches r [].
Proof.
  induction r as [| | k | k | | ng it | a IHa b IHb | a IHa b IHb | a IHa]; cbn [nullable].
  - split; [discriminate|]. intro H. exfalso. eapply matches_null_inv; eauto.
  - split; [constructor|reflexivity].
  - split; [discriminate|]. intro H. exfalso. revert H. apply matches_atom_nil. reflexivity.
  - split; [discriminate|]. intro H. exfalso. revert H. apply matches_atom_nil. reflexivity.
  - split; [discriminate|]. intro H. exfalso. revert H. apply matches_atom_nil. reflexivity.
  - split; [discriminate|]. intro H. exfalso. revert H. apply matches_atom_nil. reflexivity.
  - rewrite andb_true_iff, IHa, IHb. split.
    + intros [H1 H2]. change (@nil ascii) with (@nil ascii ++ []). constructor; assumption.
    + intro H. apply matches_seq_inv in H. destruct H as (s1 & s2 & E & H1 & H2).
      symmetry in E. apply app_eq_nil in E. destruct E; subst. split; assumption.
  - rewrite orb_true_iff, IHa, IHb. split.
    + intros [H|H]; [apply MAltL|apply MAltR]; assumption.
    + apply matches_alt_inv.
  - split; [constructor|reflexivity].
Qed.

Lemma seq_null_l b s : ~ matches (RSeq RNull b) s.
Proof.
  intro H. apply matches_seq_inv in H. destruct H as (s1 & s2 & _ & H1 & _).
  eapply matches_null_inv; eauto.
Qed.

Lemma seq_null_r a s : ~ matches (RSeq a RNull) s.
Proof.
  intro H. apply matches_seq_inv in H. destruct H as (s1 & s2 & _ & _ & H2).
  eapply matches_null_inv; eauto.
Qed.

Lemma seq_eps_l b s : matches (RSeq REps b) s <-> matches b s.
Proof.
  split; intro H.
  - apply matches_seq_inv in H. destruct H as (s1 & s2 & E & H1 & H2).
    apply matches_eps_inv in H1. subst. assumption.
  - change s with ([] ++ s). constructor; [constructor|assumption].
Qed.

Lemma mk_seq_spec a b s : matches (mk_seq a b) s <-> matches (RSeq a b) s.
Proof.
  unfold mk_seq.
  destruct a; destruct b; try reflexivity;
    try (split; intro H; exfalso;
         solve [ eapply matches_null_inv; eassumption
               | eapply seq_null_l; eassumption
               | eapply seq_null_r; eassumption ]);
    try (symmetry; apply seq_eps_l).
Qed.

Lemma alt_null_l b s : matches (RAlt RNull b) s <-> matches b s.
Proof.
  split; intro H; [|apply MAltR; assumption].
  apply matches_alt_inv in H. destruct H as [H|H]; [|assumption].
  exfalso. eapply matches_null_inv; eauto.
Qed.

Lemma alt_null_r a s : matches (RAlt a RNull) s <-> matches a s.
Proof.
  split; intro H; [|apply MAltL; assumption].
  apply matches_alt_inv in H. destruct H as [H|H]; [assumption|].
  exfalso. eapply matches_null_inv; eauto.
Qed.

Lemma mk_alt_spec a b s : matches (mk_alt a b) s <-> matches (RAlt a b) s.
Proof.
  unfold mk_alt.
  destruct a; destruct b; try reflexivity;
    try (symmetry; apply alt_null_l); try (symmetry; apply alt_null_r).
Qed.

Lemma star_cons_inv a c s :
  matches (RStar a) (c :: s) ->
  exists s1 s2, s = s1 ++ s2 /\ matches a (c :: s1) /\ matches (RStar a) s2.
Proof.
  intro H. remember (RStar a) as r eqn:Er. remember (c :: s) as t eqn:Et.
  revert c s Et.
  induction H as [| r0 c0 Hat Hok | | | | a0 | a0 s1 s2 H1 _ H2 IH2]; intros c' s' Et;
    try discriminate.
  - subst. discriminate.
  - inversion Er; subst a0. destruct s1 as [|x s1'].
    + cbn in Et. apply IH2; [reflexivity | assumption].
    + cbn in Et. inversion Et; subst. exists s1', s2. auto.
Qed.

Lemma atom_deriv r c s :
  is_atom r = true ->
  (matches (if atom_ok r c then REps else RNull) s <-> matches r (c :: s)).
Proof.
  intro Hat. split.
  - destruct (atom_ok r c) eqn:E; intro H.
    + apply matches_eps_inv in H. subst. constructor; assumption.
    + exfalso. eapply matches_null_inv; eauto.
  - intro H. apply matches_atom_inv in H; [|assumption]. destruct H as (c0 & E & Hok).
    inversion E; subst. rewrite Hok. constructor.
Qed.

Lemma deriv_spec r : forall c s, matches (deriv c r) s <-> matches r (c :: s).
Proof.
  induction r as [| | k | k | | ng it | a IHa b IHb | a IHa b IHb | a IHa]; intros c s.
  - cbn [deriv]. split; intro H; exfalso; eapply matches_null_inv; eauto.
  - cbn [deriv]. split; intro H; [exfalso; eapply matches_null_inv; eauto|].
    apply matches_eps_inv in H. discriminate.
  - apply (atom_deriv (RChar k)); reflexivity.
  - apply (atom_deriv (RNotChar k)); reflexivity.
  - apply (atom_deriv RAny); reflexivity.
  - apply (atom_deriv (RIn ng it)); reflexivity.
  - cbn [deriv]. destruct (nullable a) eqn:Na.
    + rewrite mk_alt_spec. split.
      * intro H. apply matches_alt_inv in H. destruct H as [H|H].
        -- apply mk_seq_spec in H. apply matches_seq_inv in H.
           destruct H as (s1 & s2 & E & H1 & H2). subst s.
           apply IHa in H1. change (c :: s1 ++ s2) with ((c :: s1) ++ s2). constructor; assumption.
        -- apply IHb in H.
           change (c :: s) with ([] ++ c :: s). constructor; [apply nullable_spec; assumption|assumption].
      * intro H. apply matches_seq_inv in H. destruct H as (s1 & s2 & E & H1 & H2).
        destruct s1 as [|x s1'].
        -- cbn in E. subst s2. apply MAltR. apply IHb. assumption.
        -- cbn in E. inversion E; subst. apply MAltL. apply mk_seq_spec. constructor; [|assumption].
           apply IHa. assumption.
    + rewrite mk_seq_spec. split.
      * intro H. apply matches_seq_inv in H. destruct H as (s1 & s2 & E & H1 & H2). subst s.
        apply IHa in H1. change (c :: s1 ++ s2) with ((c :: s1) ++ s2). constructor; assumption.
      * intro H. apply matches_seq_inv in H. destruct H as (s1 & s2 & E & H1 & H2).
        destruct s1 as [|x s1'].
        -- apply nullable_spec in H1. congruence.
        -- cbn in E. inversion E; subst. constructor; [|assumption]. apply IHa. assumption.
  - cbn [deriv]. rewrite mk_alt_spec. split; intro H; apply matches_alt_inv in H;
      (destruct H as [H|H]; [apply MAltL; apply IHa | apply MAltR; apply IHb]; assumption).
  - cbn [deriv]. rewrite mk_seq_spec. split.
    + intro H. apply matches_seq_inv in H. destruct H as (s1 & s2 & E & H1 & H2). subst s.
      apply IHa in H1. change (c :: s1 ++ s2) with ((c :: s1) ++ s2). constructor; assumption.
    + intro H. apply star_cons_inv in H. destruct H as (s1 & s2 & E & H1 & H2). subst s.
      constructor; [apply IHa|]; assumption.
Qed.

Theorem re_matchb_spec r s : re_matchb r s = true <-> matches r s.
Proof.
  unfold re_matchb. revert r. induction s as [|c s IH]; intro r; cbn [derivs].
  - apply nullable_spec.
  - rewrite IH. apply deriv_spec.
Qed.

Lemma matches_star_ind (a : re) (P : list ascii -> Prop) :
  P [] ->
  (forall s1 s2, matches a s1 -> matches (RStar a) s2 -> P s2 -> P (s1 ++ s2)) ->
  forall s, matches (RStar a) s -> P s.
Proof.
  intros H0 HS s H. remember (RStar a) as r eqn:Er.
  induction H as [| r0 c0 Hat Hok | | | | a0 | a0 s1 s2 H1 _ H2 IH2]; try discriminate.
  - subst. discriminate.
  - assumption.
  - inversion Er; subst a0. apply HS; auto.
Qed.
