(* EmitStr.v — string facts used by the name-uniqueness proof: stripping literal prefixes,
   [starts_with], decimal suffixes. *)
From Coq Require Import String Ascii List Bool Arith DecimalNat DecimalString.
From BP Require Import EmitNames EmitSpec.
Import ListNotations.
Open Scope string_scope.

Inductive strip_res := SMismatch | SSame | SLeft (r : string) | SRight (r : string).

Fixpoint strip (p1 p2 : string) : strip_res :=
  match p1, p2 with
  | EmptyString, EmptyString => SSame
  | EmptyString, _ => SRight p2
  | _, EmptyString => SLeft p1
  | String a r1, String b r2 => if Ascii.eqb a b then strip r1 r2 else SMismatch
  end.

Lemma strip_spec p1 : forall p2 a b, (p1 ++ a = p2 ++ b)%string ->
  match strip p1 p2 with
  | SMismatch => False
  | SSame => a = b
  | SLeft r => (r ++ a)%string = b
  | SRight r => a = (r ++ b)%string
  end.
Proof.
  induction p1 as [|c p1 IH]; intros [|d p2] a b H; cbn [strip].
  - exact H.
  - exact H.
  - exact H.
  - cbn in H. injection H as Hc H. subst d. rewrite Ascii.eqb_refl. apply IH. exact H.
Qed.

Lemma starts_with_app p r : starts_with p (p ++ r) = true.
Proof. induction p as [|c p IH]; [destruct r; reflexivity|]. cbn. rewrite Ascii.eqb_refl. exact IH. Qed.

Definition all_digits (x : string) : bool := forallb is_digit (chars x).

Lemma chars_app a b : chars (a ++ b) = (chars a ++ chars b)%list.
Proof. induction a as [|c a IH]; [reflexivity|]. cbn. rewrite IH. reflexivity. Qed.

Lemma all_digits_app a b : all_digits (a ++ b) = all_digits a && all_digits b.
Proof. unfold all_digits. rewrite chars_app. apply forallb_app. Qed.

Lemma string_of_uint_digits d : all_digits (NilEmpty.string_of_uint d) = true.
Proof. induction d; cbn [NilEmpty.string_of_uint]; try reflexivity; unfold all_digits in *; cbn [chars forallb]; rewrite IHd; reflexivity. Qed.

Lemma dec_digits n : all_digits (dec n) = true.
Proof. apply string_of_uint_digits. Qed.

Lemma dec_inj a b : dec a = dec b -> a = b.
Proof.
  unfold dec. intros H.
  assert (E : Some (Nat.to_uint a) = Some (Nat.to_uint b)).
  { rewrite <- (NilEmpty.usu (Nat.to_uint a)), <- (NilEmpty.usu (Nat.to_uint b)), H. reflexivity. }
  injection E as E. rewrite <- (Unsigned.of_to a), <- (Unsigned.of_to b), E. reflexivity.
Qed.

Lemma dec_nonempty n : dec n <> "".
Proof.
  unfold dec. destruct (Nat.to_uint n) eqn:E; cbn [NilEmpty.string_of_uint]; try discriminate.
  exfalso. pose proof (Unsigned.of_to n) as H. rewrite E in H. cbn in H. subst n. cbn in E. discriminate.
Qed.

Lemma digit_tail_cons c x : x <> "" -> digit_tail (String c x) = digit_tail x.
Proof. destruct x; [contradiction | reflexivity]. Qed.

Lemma all_digits_tail x : x <> "" -> all_digits x = true -> digit_tail x = true.
Proof.
  induction x as [|c x IH]; intros Hne H; [contradiction|].
  unfold all_digits in H. cbn [chars forallb] in H. apply andb_true_iff in H. destruct H as [Hc Hx].
  destruct x as [|c' x']; [unfold digit_tail; cbn; exact Hc|].
  rewrite digit_tail_cons by discriminate. apply IH; [discriminate | exact Hx].
Qed.

Lemma split_digit_suffix m1 : forall m2 d1 d2,
  digit_tail m1 = false -> digit_tail m2 = false ->
  all_digits d1 = true -> all_digits d2 = true ->
  (m1 ++ d1 = m2 ++ d2)%string -> m1 = m2 /\ d1 = d2.
Proof.
  induction m1 as [|c m1 IH]; intros m2 d1 d2 H1 H2 A1 A2 E.
  - destruct m2 as [|c2 m2]; [split; [reflexivity | exact E]|]. exfalso.
    change (d1 = (String c2 m2 ++ d2)%string) in E. rewrite E in A1. rewrite all_digits_app in A1. apply andb_true_iff in A1.
    destruct A1 as [A1 _]. rewrite (all_digits_tail (String c2 m2)) in H2; [discriminate | discriminate | exact A1].
  - destruct m2 as [|c2 m2].
    + exfalso. change ((String c m1 ++ d1)%string = d2) in E. rewrite <- E in A2. rewrite all_digits_app in A2. apply andb_true_iff in A2.
      destruct A2 as [A2 _]. rewrite (all_digits_tail (String c m1)) in H1; [discriminate | discriminate | exact A2].
    + cbn [String.append] in E. injection E as Ec E. subst c2.
      assert (T1 : digit_tail m1 = false). { destruct m1; [reflexivity|]. rewrite digit_tail_cons in H1 by discriminate. exact H1. }
      assert (T2 : digit_tail m2 = false). { destruct m2; [reflexivity|]. rewrite digit_tail_cons in H2 by discriminate. exact H2. }
      destruct (IH m2 d1 d2 T1 T2 A1 A2 E) as [-> ->]. split; reflexivity.
Qed.

Lemma digit_tail_app_dec m n : digit_tail (m ++ dec n) = true.
Proof.
  assert (H : forall d, d <> "" -> all_digits d = true -> digit_tail (m ++ d) = true).
  { induction m as [|c m IH]; intros d Hne Hd; [apply all_digits_tail; assumption|].
    cbn [String.append]. rewrite digit_tail_cons; [apply IH; assumption|]. destruct m; [exact Hne | discriminate]. }
  apply H; [apply dec_nonempty | apply dec_digits].
Qed.
