(* LexRe.v — bridge to Re.v (the declarative `matches` over bytes used by the C09 module): erasing the
   context conditions (\b) and the greedy/lazy distinction from a rule regex gives a Re.re whose
   language contains every Latin-1 lexeme the backtracking matcher can choose for that rule.  The
   erased regexes of t_STRING_LITERAL, t_INT_LITERAL and t_HEX_LITERAL are syntactically THE SAME terms as
   coq/gen/GenC09.v has for them (checked by reflexivity), so the C09 theorems stated over `matches string_literal_re` etc. apply to
   the lexemes of the tokenizer model. *)
From Coq Require Import Ascii NArith ZArith List Bool Lia.
From BP Require Import ListFacts Re LexBase Lex LexProofs.
From BPGen Require Import GenLexer GenC09.
Import ListNotations.

Definition erase_item (it : N * N) : citem :=
  if N.eqb (fst it) (snd it) then CLit (N.to_nat (fst it)) else CRange (N.to_nat (fst it)) (N.to_nat (snd it)).

Fixpoint erase (r : rx) : re :=
  match r with
  | XEps | XBound => REps
  | XChar c => RChar (N.to_nat c)
  | XNotChar c => RNotChar (N.to_nat c)
  | XAny => RAny
  | XIn neg items => RIn neg (map erase_item items)
  | XSeq a b => RSeq (erase a) (erase b)
  | XAlt a b => RAlt (erase a) (erase b)
  | XStar _ a => RStar (erase a)
  end.

Lemma nat_of_ascii_of_N c : (c < 256)%N -> nat_of_ascii (ascii_of_N c) = N.to_nat c.
Proof. intro H. unfold nat_of_ascii. rewrite N_ascii_embedding by exact H. reflexivity. Qed.

Lemma nat_eqb_N a b : Nat.eqb (N.to_nat a) (N.to_nat b) = N.eqb a b.
Proof.
  destruct (N.eqb_spec a b) as [->|H]; [apply Nat.eqb_refl|].
  apply Nat.eqb_neq. intro K. apply H. apply N2Nat.inj. exact K.
Qed.

Lemma nat_leb_N a b : Nat.leb (N.to_nat a) (N.to_nat b) = N.leb a b.
Proof.
  destruct (N.leb_spec a b) as [H|H].
  - apply Nat.leb_le. lia.
  - apply Nat.leb_gt. lia.
Qed.

Lemma erase_item_has c it :
  citem_has (N.to_nat c) (erase_item it) = (N.leb (fst it) c && N.leb c (snd it)).
Proof.
  unfold erase_item. destruct it as [a b]. cbn [fst snd]. destruct (N.eqb_spec a b) as [->|H]; cbn [citem_has].
  - rewrite nat_eqb_N, range1. reflexivity.
  - rewrite !nat_leb_N. reflexivity.
Qed.

Lemma erase_in_class neg items c :
  in_class neg (map erase_item items) (N.to_nat c) = xorb neg (in_ranges items c).
Proof.
  unfold in_class, in_ranges. f_equal. induction items as [|it l IH]; [reflexivity|].
  cbn [map existsb]. rewrite erase_item_has, IH. reflexivity.
Qed.

Lemma erase_atom r c :
  LexBase.is_atom r = true -> (c < 256)%N ->
  Re.is_atom (erase r) = true /\ Re.atom_ok (erase r) (ascii_of_N c) = LexBase.atom_ok r c.
Proof.
  intros Hat Hc. destruct r; try discriminate; cbn [erase Re.is_atom Re.atom_ok LexBase.atom_ok];
    (split; [reflexivity|]); rewrite (nat_of_ascii_of_N c Hc).
  - apply nat_eqb_N.
  - rewrite nat_eqb_N. reflexivity.
  - change 10%nat with (N.to_nat 10). rewrite nat_eqb_N. reflexivity.
  - apply erase_in_class.
Qed.

Theorem dm_matches uw r p w post :
  dm uw r p w post -> Forall (fun c => (c < 256)%N) w -> matches (erase r) (map ascii_of_N w).
Proof.
  induction 1 as [| r c p post Hat Hok | | a b p w1 w2 post _ IH1 _ IH2 | a b p w post _ IH | a b p w post _ IH
                  | | g a p w1 w2 post _ IH1 _ IH2]; intro HF; cbn [erase map].
  - constructor.
  - inversion HF; subst. destruct (erase_atom r c Hat H1) as [E1 E2]. constructor; [exact E1|]. rewrite E2. exact Hok.
  - constructor.
  - rewrite map_app. apply Forall_app in HF. destruct HF. constructor; auto.
  - apply MAltL. auto.
  - apply MAltR. auto.
  - constructor.
  - rewrite map_app. apply Forall_app in HF. destruct HF. apply MStarS; auto.
Qed.

Lemma erase_string_literal : erase rx_t_STRING_LITERAL = BPGen.GenC09.string_literal_re.
Proof. reflexivity. Qed.
Lemma erase_int_literal : erase rx_t_INT_LITERAL = BPGen.GenC09.int_literal_re.
Proof. reflexivity. Qed.
Lemma erase_hex_literal : erase rx_t_HEX_LITERAL = BPGen.GenC09.hex_literal_re.
Proof. reflexivity. Qed.

(* a Latin-1 lexeme chosen by the tokenizer for t_STRING_LITERAL is in the language over which the C09
   module proves its escape loop total (TotalProofs.escape_loop_total) *)
Corollary chosen_string_matches uw fuel s s' r :
  first_rule uw fuel lex_rules s = Some (r, s') -> r_rx r = rx_t_STRING_LITERAL ->
  exists w, snd s = w ++ snd s' /\
            (Forall (fun c => (c < 256)%N) w -> matches BPGen.GenC09.string_literal_re (map ascii_of_N w)).
Proof.
  intros H Hr. apply first_rule_sound in H. destruct H as [_ (w & E & _ & D)]. exists w. split; [exact E|].
  intro HF. rewrite <- erase_string_literal, <- Hr. eapply dm_matches; eassumption.
Qed.
