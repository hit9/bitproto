(* FrontRenumber.v — C12, front end + wire: renumbering the fields of one or more messages
   order-preservingly (anywhere in the schema: any file, any nesting depth) keeps the schema
   accepted, and every message elaborates to a type with the same wire format (value mapped
   through the rewrite); a rejected schema stays rejected, with the same error.  Instance of
   FrontRewrite.check_rel with R := wire equivalence itself (wsim), names and lines kept. *)
From Coq Require Import ZArith List Bool String Lia.
From BP Require Import Schema Spec Front FrontProofs FrontValid FrontValidProofs FrontWf WireEq FrontSim FrontRewrite.
Import ListNotations.
Open Scope Z_scope.

Lemma range_reflected (g : Z -> Z) :
  (forall a b, g a = g b -> a = b) -> (forall k, number_ok k -> number_ok (g k)) ->
  forall k, number_ok (g k) -> number_ok k.
Proof.
  intros Hinj Hr k Hk. set (L := map Z.of_nat (seq 1 255)).
  assert (HL : forall z, In z L <-> number_ok z).
  { intros z. unfold L, number_ok. rewrite in_map_iff. split.
    - intros [n [<- Hn]]. apply in_seq in Hn. lia.
    - intros Hz. exists (Z.to_nat z). split; [lia|]. apply in_seq. lia. }
  assert (Hnd : NoDup (map g L)).
  { apply FinFun.Injective_map_NoDup; [exact Hinj|]. apply FinFun.Injective_map_NoDup; [intros a b; lia|apply seq_NoDup]. }
  assert (Hin : incl L (map g L)).   (* pigeonhole: g maps 1..255 onto itself *)
  { apply NoDup_length_incl; [exact Hnd|now rewrite map_length|].
    intros z Hz. apply in_map_iff in Hz. destruct Hz as [j [<- Hj]]. now apply HL, Hr, HL. }
  apply HL in Hk. apply Hin, in_map_iff in Hk. destruct Hk as [j [E Hj]]. apply Hinj in E. subst j. now apply HL.
Qed.

Section Renum.
  Variable g0 : Z -> Z.

  Definition wsim (t t' : ty) : Prop := nbits t = nbits t' /\ (wf t = true -> exists m, weq t t' m).

  Lemma wsim_refl t : wsim t t.
  Proof. split; [reflexivity|]. intros _. eexists. apply weq_refl. Qed.

  Lemma wsim_alias t t' : wsim t t' -> wsim (TAlias t) (TAlias t').
  Proof. intros [Hn Hw]. split; [exact Hn|]. intros W. destruct (Hw W) as [m Hm]. exists m. now apply weq_alias_cong. Qed.

  Lemma wsim_arr x c t t' : wsim t t' -> wsim (TArr x c t) (TArr x c t').
  Proof.
    intros [Hn Hw]. split; [cbn [nbits]; now rewrite Hn|]. intros W. cbn [wf] in W. rewrite !andb_true_iff in W.
    destruct (Hw (proj2 W)) as [m Hm]. eexists. apply weq_arr_cong. exact Hm.
  Qed.

  Lemma mono_on_idz keys : mono_on idz keys.
  Proof. intros a b _ _ H. exact H. Qed.

  Lemma wsim_msg gb x fs fs' :
    gcond g0 gb (map fst fs) -> Forall2 (nrel gb wsim) fs fs' -> wsim (TMsg x fs) (TMsg x fs').
  Proof.
    intros Hg Hr. split.
    { rewrite !nbits_msg. f_equal. unfold fields_nbits. clear Hg.
      induction Hr as [|a b r r' [_ [Hab _]] _ IHr]; [reflexivity|]. cbn [fold_right]. now rewrite Hab, IHr. }
    intros Hw. rewrite wf_msg, !andb_true_iff in Hw. destruct Hw as [[Hkd _] Hfw].
    apply keys_distinct_NoDup in Hkd. rewrite fields_wf_forall in Hfw.
    (* fsm: the children rewritten under the old numbers; then one renumbering of the field list *)
    set (fsm := map (fun ab : (Z * ty) * (Z * ty) => (fst (fst ab), snd (snd ab))) (combine fs fs')).
    assert (HA : Forall2 (fun a b : Z * ty => fst a = fst b /\ exists m, weq (snd a) (snd b) m) fs fsm /\
                 fs' = renumber_fields gb fsm /\ map fst fsm = map fst fs).
    { subst fsm. clear Hkd Hg. induction Hr as [|a b r r' [E [_ Hab]] _ IHr]; [repeat split; constructor|].
      destruct IHr as [I1 [I2 I3]]; [intros kf0 Hin; apply Hfw; now right|].
      cbn [combine map fst snd]. repeat split.
      - constructor; [|exact I1]. cbn [fst snd]. split; [reflexivity|]. apply Hab, (Hfw a). now left.
      - unfold renumber_fields in *. cbn [map fst snd]. rewrite <- I2. f_equal. destruct b; cbn [fst snd] in *. now rewrite E.
      - cbn [map fst]. now rewrite I3. }
    destruct HA as [HA1 [HA2 HA3]].
    destruct (weq_msg_fields x fs fsm [] HA1 Hkd) as [M1 H1]. cbn [app] in H1.
    assert (Hm : mono_on gb (map fst fsm)).
    { rewrite HA3. destruct Hg as [->|[-> Hm]]; [apply mono_on_idz|exact Hm]. }
    pose proof (weq_msg_renumber x fsm gb Hm) as H2. rewrite <- HA2 in H2.
    eexists. eapply weq_trans; [exact H1|exact H2].
  Qed.

  Hypothesis g0_inj : forall a b, g0 a = g0 b -> a = b.
  Hypothesis g0_range : forall k, number_ok k -> number_ok (g0 k).

  Definition rid (s : string) : string := s.
  Definition lid (_ : string) (l : Z) : Z := l.

  Lemma g0_num k : GenFront.field_number_raises (g0 k) = GenFront.field_number_raises k.
  Proof.
    pose proof (field_number_bridge k) as Hk. pose proof (field_number_bridge (g0 k)) as Hg.
    pose proof (g0_range k) as H1. pose proof (range_reflected g0 g0_inj g0_range k) as H2.
    destruct (GenFront.field_number_raises k), (GenFront.field_number_raises (g0 k)); intuition congruence.
  Qed.

  Lemma rn_path_id p : rn_path rid p = p.
  Proof. apply map_id. Qed.
  Lemma rn_sty_id s : rn_sty rid s = s.
  Proof. destruct s; cbn [rn_sty]; now rewrite ?rn_path_id. Qed.
  Lemma rn_tyx_id t : rn_tyx rid t = t.
  Proof. destruct t as [s|s [z|p] x]; cbn [rn_tyx rn_capx]; now rewrite ?rn_sty_id, ?rn_path_id. Qed.
  Lemma rn_cexpr_id e : rn_cexpr rid e = e.
  Proof. induction e; cbn [rn_cexpr]; now rewrite ?rn_path_id, ?IHe1, ?IHe2. Qed.
  Lemma rn_cvalx_id v : rn_cvalx rid v = v.
  Proof. destruct v; cbn [rn_cvalx]; now rewrite ?rn_path_id, ?rn_cexpr_id. Qed.
  Lemma rn_optx_id v : rn_optx rid v = v.
  Proof. destruct v; cbn [rn_optx]; now rewrite ?rn_path_id. Qed.

  Notation itrelG := (itrel rid lid g0).
  Notation itsrelG := (itsrel rid lid g0).

  Lemma trel_same file :
    (forall it g, itrelG file g it (renum_item g it)) /\ (forall its, itsrelG file idz its its).
  Proof.
    apply item_list_ind; cbn [renum_item itrel]; intros;
      rewrite ?rn_optx_id, ?rn_cvalx_id, ?rn_tyx_id, ?rn_sty_id; try (now repeat split).
    - destruct a; now repeat split.
    - repeat split. now apply itsrel_fix.
    - repeat split. exists idz. split; [now left|now apply itsrel_fix].
    - split; [|assumption]. specialize (H idz). now rewrite renum_item_id in H.
  Qed.

  Lemma trel_conv file :
    (forall it it' g, trel g0 g it it' -> itrelG file g it it') /\
    (forall its its' g, lrel g0 g its its' -> itsrelG file g its its').
  Proof.
    apply item_list_ind; cbn [trel];
      try (intros; match goal with H : _ \/ False |- _ => destruct H as [->|[]]; apply trel_same end).
    - intros l n b body IH it' g [->|H]; [apply trel_same|]. destruct it'; try contradiction.
      destruct H as [<- [<- [<- H]]]. cbn [itrel]. rewrite rn_sty_id. repeat split. now apply itsrel_fix, IH, lrel_fix.
    - intros l n x body IH it' g [->|H]; [apply trel_same|]. destruct it'; try contradiction.
      destruct H as [<- [<- [<- [gb [Hg H]]]]]. cbn [itrel]. repeat split. exists gb. split; [exact Hg|].
      now apply itsrel_fix, IH, lrel_fix.
    - intros [|? ?] g H; [exact I|contradiction].
    - intros i r Hi Hr [|i' r'] g H; [contradiction|]. destruct H as [H1 H2]. split; [now apply Hi|now apply Hr].
  Qed.

  Lemma filesrel_conv fs : forall fs', frelT g0 fs fs' -> filesrel rid lid g0 fs fs'.
  Proof.
    induction fs as [|a r IH]; intros [|a' r'] H; try contradiction; constructor.
    - destruct H as [E [Hl _]]. split; [now symmetry|now apply trel_conv].
    - apply IH, H.
  Qed.

  (* [renumbered fs fs']: fs' is fs with the fields of some messages renumbered by g0, which is
     monotone on the numbers of each such message *)
  Definition renumbered : files -> files -> Prop := frelT g0.

  Lemma check_rel_renum fs fs' root trad :
    renumbered fs fs' -> rrel lid (drel rid lid wsim g0) (check fs root trad) (check fs' root trad).
  Proof.
    intros Hr.
    exact (check_rel rid lid wsim g0 (fun a b H => H) (fun _ => eq_refl) eq_refl g0_inj g0_num
             wsim_refl (fun t t' H => proj1 H) wsim_alias wsim_arr wsim_msg fs fs' root trad (filesrel_conv fs fs' Hr)).
  Qed.

  Theorem renumber_check fs fs' root trad e :
    renumbered fs fs' -> check fs root trad = Ok e ->
    exists e', check fs' root trad = Ok e' /\
      forall p t, msg_ty_at (Ok e) p = Some t ->
        exists t' m, msg_ty_at (Ok e') p = Some t' /\ nbits t = nbits t' /\ forall v, wire t v = wire t' (m v).
  Proof.
    intros Hr Ec. pose proof (check_rel_renum fs fs' root trad Hr) as H. rewrite Ec in H.
    destruct (check fs' root trad) as [e'|]; [|contradiction].
    exists e'. split; [reflexivity|]. intros p t Hp.
    pose proof (msg_ty_at_rel rid lid wsim g0 (fun a b H => H) e e' p H) as Hm.
    rewrite Hp, rn_path_id in Hm. destruct (msg_ty_at (Ok e') p) as [t'|]; cbn in Hm; [|contradiction].
    destruct (accepted_types_wf fs root trad e p t Ec Hp) as [Hw _].
    destruct (proj2 Hm Hw) as [m Hwm].
    exists t', m. split; [reflexivity|]. split; [apply Hm|]. now apply weq_wire.
  Qed.
End Renum.
