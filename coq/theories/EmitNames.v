(* EmitNames.v — string model of bitproto/utils.py case converters (C10's own copy).

   pascal_case / snake_case / upper_case over Coq [string]s, written as scanners that follow
   the regular-expression substitutions of utils.py:341-415 left to right (non-overlapping
   matches, greedy runs).  Tie T2 compares them with the real functions on a sweep of short
   strings and on every identifier of every run.  The C10 theorems reason about none of them
   except that upper_case distributes over concatenation (EmitUnique2.upper_case_app): the
   property's precondition speaks about the converted names.  *)
From Coq Require Import String Ascii List Bool Arith DecimalNat DecimalString.
Import ListNotations.
Open Scope string_scope.
Open Scope nat_scope.

Definition acode (c : ascii) : nat := nat_of_ascii c.
Definition is_upper (c : ascii) : bool := (65 <=? acode c) && (acode c <=? 90).
Definition is_lower (c : ascii) : bool := (97 <=? acode c) && (acode c <=? 122).
Definition is_digit (c : ascii) : bool := (48 <=? acode c) && (acode c <=? 57).
Definition is_alpha (c : ascii) : bool := is_upper c || is_lower c.
Definition to_upper (c : ascii) : ascii := if is_lower c then ascii_of_nat (acode c - 32) else c.
Definition to_lower (c : ascii) : ascii := if is_upper c then ascii_of_nat (acode c + 32) else c.
Definition us : ascii := "_"%char.
Definition is_us (c : ascii) : bool := Ascii.eqb c us.

Fixpoint chars (s : string) : list ascii :=
  match s with EmptyString => [] | String c r => c :: chars r end.
Fixpoint unchars (l : list ascii) : string :=
  match l with [] => EmptyString | c :: r => String c (unchars r) end.

Definition upper_case (s : string) : string := unchars (map to_upper (chars s)).
Definition lower_l (l : list ascii) : list ascii := map to_lower l.

(* str.split("_") *)
Fixpoint split_us_aux (l cur : list ascii) : list (list ascii) :=
  match l with
  | [] => [rev cur]
  | c :: r => if is_us c then rev cur :: split_us_aux r [] else split_us_aux r (c :: cur)
  end.
Definition split_us (l : list ascii) : list (list ascii) := split_us_aux l [].

(* str.isupper(): at least one cased character and no lowercase one *)
Definition py_isupper (l : list ascii) : bool := existsb is_upper l && negb (existsb is_lower l).

Definition pascal_part (p : list ascii) : list ascii :=
  match p with
  | [] => []
  | c :: r => to_upper c :: (if py_isupper r then lower_l r else r)
  end.

Definition pascal_case (s : string) : string :=
  unchars (flat_map pascal_part (split_us (chars s))).

(* re.sub(r"(.)([A-Z][a-z]+)", r"\1_\2"): [run]=true while copying the greedy [a-z]+ tail *)
Fixpoint camel_b1 (run : bool) (l : list ascii) : list ascii :=
  match l with
  | [] => []
  | c :: l1 =>
      if run && is_lower c then c :: camel_b1 true l1
      else match l1 with
           | u :: l2 =>
               match l2 with
               | w :: l3 =>
                   if is_upper u && is_lower w then c :: us :: u :: w :: camel_b1 true l3
                   else c :: camel_b1 false l1
               | [] => c :: camel_b1 false l1
               end
           | [] => [c]
           end
  end.

(* a substitution that inserts "_" between two adjacent characters when [p a b] holds; the
   second character of a match can never start another match for the three patterns used *)
Fixpoint between (p : ascii -> ascii -> bool) (l : list ascii) : list ascii :=
  match l with
  | [] => []
  | a :: l1 =>
      match l1 with
      | b :: _ => if p a b then a :: us :: between p l1 else a :: between p l1
      | [] => [a]
      end
  end.

Definition camel_b2 := between (fun a b => (is_lower a || is_digit a) && is_upper b).
Definition alpha_digit := between (fun a b => is_alpha a && is_digit b).
Definition digit_alpha := between (fun a b => is_digit a && is_alpha b).

Definition all_upper_or_digit (l : list ascii) : bool :=
  negb (match l with [] => true | _ => false end) && forallb (fun c => is_upper c || is_digit c) l.

Definition snake_token (respect : bool) (t : list ascii) : list ascii :=
  let t1 := camel_b2 (camel_b1 false t) in
  if negb respect && negb (all_upper_or_digit t1) then digit_alpha (alpha_digit t1) else t1.

Fixpoint join_us_l (ps : list (list ascii)) : list ascii :=
  match ps with
  | [] => []
  | [p] => p
  | p :: r => p ++ us :: join_us_l r
  end.

Fixpoint collapse_us (l : list ascii) : list ascii :=
  match l with
  | [] => []
  | a :: l1 =>
      match l1 with
      | b :: _ => if is_us a && is_us b then collapse_us l1 else a :: collapse_us l1
      | [] => [a]
      end
  end.

Fixpoint drop_us (l : list ascii) : list ascii :=
  match l with c :: r => if is_us c then drop_us r else l | [] => [] end.
Fixpoint take_us (l : list ascii) : list ascii :=
  match l with c :: r => if is_us c then c :: take_us r else [] | [] => [] end.
Definition strip_us (l : list ascii) : list ascii := rev (drop_us (rev (drop_us l))).

Definition snake_case (s : string) : string :=
  let w := chars s in
  match w with
  | [] => EmptyString
  | _ =>
      let pre := take_us w in
      let rest := drop_us w in
      let suf := take_us (rev rest) in
      let core := rev (drop_us (rev rest)) in
      let respect := existsb is_us w && existsb is_upper w && existsb is_lower w in
      let parts := map (snake_token respect)
                       (filter (fun t => negb (match t with [] => true | _ => false end)) (split_us core)) in
      unchars (pre ++ lower_l (strip_us (collapse_us (join_us_l parts))) ++ suf)
  end.

Definition keep_case (s : string) : string := s.

Fixpoint join_with (sep : string) (l : list string) : string :=
  match l with
  | [] => EmptyString
  | [x] => x
  | x :: r => (x ++ sep ++ join_with sep r)%string
  end.

(* "{0}".format(n) for n >= 0 (Coq's own decimal printer: its injectivity comes with the library) *)
Definition dec (n : nat) : string := NilEmpty.string_of_uint (Nat.to_uint n).

Example snake_ex1 : snake_case "COLOR_RGB2HSV" = "color_rgb_2_hsv". Proof. reflexivity. Qed.
Example snake_ex2 : snake_case "someWord2Go" = "some_word_2_go". Proof. reflexivity. Qed.
Example snake_ex3 : snake_case "AB1C" = "ab_1_c". Proof. reflexivity. Qed.
Example snake_ex4 : snake_case "LbOuterInner" = "lb_outer_inner". Proof. reflexivity. Qed.
Example pascal_ex1 : pascal_case "my_prefix_someWord" = "MyPrefixSomeWord". Proof. reflexivity. Qed.
Example pascal_ex2 : pascal_case "AB" = "Ab". Proof. reflexivity. Qed.
Example dec_ex : dec 120 = "120" /\ dec 0 = "0" /\ dec 7 = "7". Proof. repeat split. Qed.
