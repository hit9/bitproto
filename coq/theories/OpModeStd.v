(* OpModeStd.v — optimization mode produces what standard mode produces: both the emitted
   -O statements (OpMode) and the C runtime driven by the standard-mode descriptors (CRt)
   encode to Spec.wire, and both decoders consume Spec.wire. *)
From Coq Require Import ZArith List.
From BP Require Import Schema Spec.
(* qualified: OpMode and CMem / CRt each have an [endian], [rd], [wr], [store] of their own *)
From BP Require OpMode OpModeProofs CMem CRt CTop.
Import ListNotations.
Open Scope Z_scope.

Lemma opmode_eq_standard_enc t v :
  OpMode.opmode_ok (norm t) = true -> CTop.c_schema t -> has_ty (norm t) v = true ->
  exists bs,
    OpMode.run_encode (OpMode.c_le_body true t) t v = Some bs /\
    OpMode.run_encode (OpMode.c_be_body true t) t v = Some bs /\
    OpMode.run_encode (OpMode.go_body true t) t v = Some bs /\
    CRt.c_encode_ty CMem.LE CMem.LE t (CRt.store CMem.LE (norm t) v) = CMem.COk bs.
Proof.
  intros Ho Hs Ht. pose proof Hs as (_ & Hw & _). exists (wire t v). repeat split.
  - now apply OpModeProofs.c_le_encode.
  - now apply OpModeProofs.c_be_encode.
  - now apply OpModeProofs.go_encode.
  - now apply CTop.c_encode_le.
Qed.

Lemma opmode_eq_standard_dec t v :
  OpMode.opmode_ok (norm t) = true -> CTop.c_schema t -> has_ty (norm t) v = true ->
  forall bs, CRt.c_encode_ty CMem.LE CMem.LE t (CRt.store CMem.LE (norm t) v) = CMem.COk bs ->
    OpMode.run_decode (OpMode.c_le_body false t) t bs = Some (OpMode.store (norm t) v) /\
    OpMode.run_decode (OpMode.c_be_body false t) t bs = Some (OpMode.store (norm t) v) /\
    OpMode.run_decode (OpMode.go_body false t) t bs = Some (OpMode.store (norm t) v) /\
    CRt.c_decode_ty CMem.LE CMem.LE t bs = CMem.COk (CRt.store CMem.LE (norm t) v).
Proof.
  intros Ho Hs Ht bs Hb. pose proof Hs as (_ & Hw & _).
  rewrite (CTop.c_encode_le t v Hs Ht) in Hb. inversion Hb; subst bs. repeat split.
  - now apply OpModeProofs.c_le_decode.
  - now apply OpModeProofs.c_be_decode.
  - now apply OpModeProofs.go_decode.
  - now apply CTop.c_decode_le.
Qed.
