(* MemoWitness — what props/C18.v takes beside the theorems of MemoProofs:
     * concrete histories, evaluated by vm_compute: h_ex / th_ex meet the hypotheses of the
       transparency / interleaving theorem and exercise every branch of the machine (hit, miss,
       direct, exception, rejected mutation, reclamation, ADDRESS RE-USE); the counter-histories
       (1)-(4) show that each hypothesis is NEEDED (the decorators alone are not transparent);
     * the theorems of MemoProofs at the real decorators (the *_real instances: cond := real_cond,
       pin := real_pin) and source_decisions, the facts about the translated source. *)
From Coq Require Import ZArith List.
From BP Require Import Memo MemoProofs.
Import ListNotations.
Open Scope Z_scope.

Definition DW : nat := 8.
Definition run_c (cond : bool -> bool) (pin : bool) (h : list op) : list out :=
  map fst (crun F_test always_test cond pin DW c0 h).
Definition run_aux (h : list op) : list aux :=
  map snd (crun F_test always_test real_cond real_pin DW c0 h).
Definition run_r (h : list op) : list out := rrun F_test DW r0 h.

Definition h_ex : list op := [
  alloc 0 100 1 4 [];      freeze 0;                       (* a leaf, frozen at creation *)
  alloc 1 200 2 7 [0];     call 0 1 5;                     (* unfrozen parent: direct call *)
  push 1 0;  setval 1 8;   freeze 1;
  call 0 1 5;  call 0 1 5;                                 (* miss, then hit *)
  setval 1 9;  push 1 0;   freeze 1;                       (* all three rejected: frozen *)
  call 1 1 1;  call 1 1 1;                                 (* (8+1) mod 3 = 0: raises twice, never cached *)
  call 2 1 3;  call 3 0 2;  call 3 1 2;                    (* class-level method; nested method, child first *)
  alloc 2 300 1 1 [];  freeze 2;  drop 2;  reclaim 300;    (* never a key: reclaimed *)
  alloc 3 300 1 2 [];  freeze 3;  call 0 3 0;              (* same address, another node: miss *)
  drop 1;  reclaim 200;                                    (* a key: the table keeps it alive *)
  drop 0;  reclaim 100;                                    (* referenced by node 1 *)
  call 0 1 5                                               (* dropped name *)
].

Lemma h_ex_ok :
  disciplined F_test DW r0 h_ex = true /\
  env_ok F_test always_test real_cond real_pin DW c0 h_ex = true /\
  outs_eqb (run_c real_cond real_pin h_ex) (run_r h_ex) = true /\
  run_aux h_ex =
    [ANone; ANone; ANone; ADirect; ANone; ANone; ANone; AMiss; AHit; ANone; ANone; ANone;
     AMiss; AMiss; AMiss; AMiss; AMiss; ANone; ANone; ANone; AReclaimed; ANone; ANone; AMiss;
     ANone; ARefused; ANone; ARefused; ANone] /\
  run_r h_ex =
    [OOk; OOk; OOk; ORes (Some (digest (Nd 2 7 false [Nd 1 4 true []]) + 5)); OOk; OOk; OOk;
     ORes (Some ((digest (Nd 2 8 true [Nd 1 4 true []; Nd 1 4 true []]) + 5) mod PM));
     ORes (Some ((digest (Nd 2 8 true [Nd 1 4 true []; Nd 1 4 true []]) + 5) mod PM));
     OErr; OErr; OErr; ORes None; ORes None; ORes (Some 17); ORes (Some 8); ORes (Some 32);
     OOk; OOk; OOk; OOk; OOk; OOk; ORes (Some (digest (Nd 1 2 true []))); OOk; OOk; OOk; OOk; OBad].
Proof. vm_compute. repeat split; reflexivity. Qed.

(* two compilations interleaved: names 0-9 / 10-19 *)
Definition th_ex : list (bool * op) := [
  (true,  alloc 0 100 1 4 []);   (false, alloc 10 500 1 6 []);
  (true,  freeze 0);             (false, alloc 11 600 2 1 [10]);
  (true,  alloc 1 200 2 7 [0]);  (false, freeze 10);
  (false, freeze 11);            (true,  freeze 1);
  (false, call 0 11 3);          (true,  call 0 1 3);
  (true,  call 0 1 3);           (false, call 3 11 2);
  (true,  drop 1);               (false, call 0 11 3)
].
Definition P_ex (n : name) : bool := Nat.ltb n 10.

Lemma th_ex_ok :
  separated P_ex th_ex = true /\
  disciplined F_test DW r0 (map snd th_ex) = true /\
  env_ok F_test always_test real_cond real_pin DW c0 (map snd th_ex) = true /\
  env_ok F_test always_test real_cond real_pin DW c0 (sel true th_ex) = true /\
  env_ok F_test always_test real_cond real_pin DW c0 (sel false th_ex) = true /\
  outs_eqb (sel_out true th_ex (run_c real_cond real_pin (map snd th_ex)))
           (run_c real_cond real_pin (sel true th_ex)) = true /\
  outs_eqb (sel_out false th_ex (run_c real_cond real_pin (map snd th_ex)))
           (run_c real_cond real_pin (sel false th_ex)) = true /\
  length (sel true th_ex) = 7%nat.
Proof. vm_compute. repeat split; reflexivity. Qed.

(* (1) the parent is frozen while its child is not: the cached digest of the parent goes stale
       when the child is mutated.  Replayed on the real decorators by tools/props/c18.py
       (corpus/C18/undisciplined.json): the real cache_if_frozen behaves exactly like this. *)
Definition h_undisciplined : list op := [
  alloc 0 100 1 1 [];  alloc 1 200 2 5 [0];  freeze 1;
  call 0 1 0;  setval 0 9;  call 0 1 0 ].

Lemma undisciplined_refuted :
  exists h, env_ok F_test always_test real_cond real_pin DW c0 h = true /\
            disciplined F_test DW r0 h = false /\
            outs_eqb (run_c real_cond real_pin h) (run_r h) = false.
Proof. exists h_undisciplined. vm_compute. repeat split; reflexivity. Qed.

(* (2) a key that does not keep the node alive (e.g. keyed by id(self)): the address is handed
       out again and the new node receives the old node's value *)
Definition h_weak : list op := [
  alloc 0 100 1 1 [];  freeze 0;  call 0 0 0;  drop 0;  reclaim 100;
  alloc 1 100 1 2 [];  freeze 1;  call 0 1 0 ].

Lemma weak_key_refuted :
  exists h, env_ok F_test always_test real_cond false DW c0 h = true /\
            disciplined F_test DW r0 h = true /\
            outs_eqb (run_c real_cond false h) (run_r h) = false.
Proof. exists h_weak. vm_compute. repeat split; reflexivity. Qed.

(* with the real key (the object itself) the same history is transparent: the collector's
   request is refused, so the allocator cannot return that address (the alloc is a clash,
   i.e. not a possible history) *)
Lemma weak_history_impossible_with_real_key :
  env_ok F_test always_test real_cond real_pin DW c0 h_weak = false.
Proof. vm_compute. reflexivity. Qed.

(* (3) caching on unfrozen nodes *)
Definition h_unfrozen : list op := [
  alloc 0 100 1 1 [];  call 0 0 0;  setval 0 2;  call 0 0 0 ].

Lemma cache_unfrozen_refuted :
  exists h, env_ok F_test always_test (fun _ => true) real_pin DW c0 h = true /\
            disciplined F_test DW r0 h = true /\
            outs_eqb (run_c (fun _ => true) real_pin h) (run_r h) = false.
Proof. exists h_unfrozen. vm_compute. repeat split; reflexivity. Qed.

(* (4) a method under the unconditional cache that reads the node's value *)
Lemma always_reads_state_refuted :
  exists h, env_ok F_test (fun _ => true) real_cond real_pin DW c0 h = true /\
            disciplined F_test DW r0 h = true /\
            outs_eqb (map fst (crun F_test (fun _ => true) real_cond real_pin DW c0 h)) (run_r h) = false.
Proof. exists h_unfrozen. vm_compute. repeat split; reflexivity. Qed.

(* the concrete methods used by the correspondence harness satisfy the theorem's hypothesis *)
Lemma F_test_always : forall f, always_test f = true ->
  forall t t' x, root_tag t = root_tag t' -> F_test f t x = F_test f t' x.
Proof.
  intros f Hf t t' x Ht. unfold always_test in Hf. apply Nat.eqb_eq in Hf. subst f.
  cbn [F_test]. rewrite Ht. reflexivity.
Qed.

Definition memo_transparent_real F always D :=
  memo_transparent F always real_cond real_pin D real_cond_frozen real_pin_true.
Definition memo_table_sound_real F always D :=
  memo_table_sound F always real_cond real_pin D real_cond_frozen real_pin_true.
Definition discipline_keeps_frozen_closed_real F always D :=
  discipline_keeps_frozen_closed F always real_cond real_pin D real_cond_frozen real_pin_true.
Definition interleaving_real F always D :=
  interleaving F always real_cond real_pin D real_cond_frozen real_pin_true.

Lemma source_decisions :
  (forall fr, real_cond fr = true -> fr = true) /\ real_cond true = true /\
  BPGen.GenMemo.frozen_setattr_raises true = true /\ BPGen.GenMemo.frozen_delattr_raises true = true /\
  BPGen.GenMemo.push_member_raises true = true /\ BPGen.GenMemo.frozen_freeze_raises true = true /\
  BPGen.GenMemo.frozen_setattr_raises false = false /\ BPGen.GenMemo.push_member_raises false = false /\
  BPGen.GenMemo.frozen_freeze_raises false = false /\
  real_pin = true /\ (forall a b, BPGen.GenMemo.safe_hash_key a = BPGen.GenMemo.safe_hash_key b -> a = b).
Proof.
  split; [exact real_cond_frozen|].
  repeat split; try reflexivity. exact safe_hash_key_inj.
Qed.
