(* CEncProofs.v — what the two walks of the C model (CWalk.v the encoder, CEvolveProofs.v the
   decoder) share: the switch on the type flag read per schema type
   ([core]), the storage an encoder can be handed ([shape_ok]: ARBITRARY contents of the right
   sizes), the anonymous field fixpoints under names, the written 16-bit prefix
   ([encode_ahead_cut]), slices of an array object, and the element types for which
   BpEndecodeArray takes the batch copy.  Both coherent configurations (B,E) = (LE,LE), (BE,BE). *)
From Coq Require Import ZArith List Bool Lia.
From BP Require Import ListFacts Bits Schema Spec CMem CMemProofs CRt PyEncProofs PyEncTop CBaseProofs.
From BPGen Require Import GenC.
Import ListNotations.
Open Scope Z_scope.

Definition render_fields :=
  fix go (l : list (Z * ty)) : list (Z * desc) :=
    match l with
    | [] => []
    | kf :: r => (fst kf, render (snd kf)) :: go r
    end.

Lemma render_msg x fs :
  render (TMsg x fs) =
  DMsg (nbits (TMsg x fs)) x (Z.of_nat (length fs)) (nbits (TMsg x fs)) (render_fields fs).
Proof. reflexivity. Qed.

Definition cwf_fields :=
  fix go (l : list (Z * ty)) : bool :=
    match l with
    | [] => true
    | kf :: r => cwf (snd kf) && go r
    end.

Lemma cwf_msg x fs : cwf (TMsg x fs) = cwf_fields fs.
Proof. reflexivity. Qed.

Definition bytes_shape (o : obj) (n : Z) : Prop :=
  exists bs, o = OB bs /\ bytes_ok bs /\ Z.of_nat (length bs) = n.

Fixpoint shape_ok (t : ty) (o : obj) : Prop :=
  match t with
  | TAlias u => shape_ok u o
  | TArr _ cap e =>
      if flat e then bytes_shape o (Z.of_nat cap * csize e)
      else exists l, o = OL l /\ length l = cap /\ Forall (shape_ok e) l
  | TMsg _ fs =>
      exists ofs, o = OS ofs /\
        (fix go (l : list (Z * ty)) : Prop :=
           match l with
           | [] => True
           | kf :: r => (exists fo, lookup (fst kf) ofs = Some fo /\ shape_ok (snd kf) fo) /\ go r
           end) fs
  | _ => bytes_shape o (csize t)
  end.

Definition shape_fields (ofs : list (Z * obj)) :=
  fix go (l : list (Z * ty)) : Prop :=
    match l with
    | [] => True
    | kf :: r => (exists fo, lookup (fst kf) ofs = Some fo /\ shape_ok (snd kf) fo) /\ go r
    end.

Lemma shape_msg x fs o : shape_ok (TMsg x fs) o = (exists ofs, o = OS ofs /\ shape_fields ofs fs).
Proof. reflexivity. Qed.

Lemma shape_fields_In ofs fs :
  shape_fields ofs fs <-> forall k ft, In (k, ft) fs -> exists fo, lookup k ofs = Some fo /\ shape_ok ft fo.
Proof.
  induction fs as [|[k ft] r IH]; cbn [shape_fields fst snd].
  - split; [intros _ ? ? []|trivial].
  - rewrite IH. split.
    + intros [H Hr] k' ft' [E|Hin]; [inversion E; subst; exact H|now apply Hr].
    + intros H. split; [apply H; now left|intros k' ft' Hin; apply H; now right].
Qed.

Lemma flat_shape t : forall o, flat t = true -> (shape_ok t o <-> bytes_shape o (csize t)).
Proof.
  induction t as [| | n | n | n ms | t IH | x c e IH | x fs IH] using ty_ind'; intros o Hf;
    try (cbn [shape_ok]; tauto).
  - cbn [shape_ok flat csize] in *. apply IH, Hf.
  - cbn [shape_ok flat csize] in *. rewrite Hf. tauto.
  - discriminate Hf.
Qed.

Section Core.
  Variables (B E : endian) (enc : bool).
  Let cp := call_processor B E enc.

  Definition core (t : ty) (x : cctx) (o : obj) : cres (cctx * obj) :=
    match t with
    | TBool => on_bytes o (base_type B E enc BpBool_nbits x)
    | TByte => on_bytes o (base_type B E enc BpByte_nbits x)
    | TUint n => on_bytes o (base_type B E enc n x)
    | TEnum n _ => on_bytes o (base_type B E enc n x)
    | TInt n => on_bytes o (endecode_int B E enc (int_size n) n x)
    | TAlias u => endecode_alias B E cp enc (render u) x o
    | TArr xx cap e => endecode_array B E cp enc xx (Z.of_nat cap) (render e) x o
    | TMsg xx fs =>
        endecode_message B E cp enc xx (Z.of_nat (length fs)) (nbits (TMsg xx fs)) (render_fields fs) x o
    end.

  (* as a message field (BpEndecodeMessageField) *)
  Lemma field_step_core t x o : field_step B E cp enc (render t) x o = core t x o.
  Proof. destruct t; reflexivity. Qed.

  (* as an array element (switch in BpEndecodeArray) *)
  Lemma elem_step_core t x o : elem_ok t = true -> elem_step B E cp enc (render t) x o = core t x o.
  Proof. destruct t; intros H; try discriminate H; reflexivity. Qed.

  (* as the target of an alias (BpEndecodeAlias) *)
  Lemma alias_core u x o : alias_target_ok u = true -> endecode_alias B E cp enc (render u) x o = core u x o.
  Proof. destruct u; intros H; try discriminate H; reflexivity. Qed.

  (* as the top-level message (Encode<Msg> / Decode<Msg>) *)
  Lemma top_core t x o : PyEncTop.is_msg t = true -> cp (render (norm t)) x o = core (norm t) x o.
  Proof. destruct t; intros H; try discriminate H. reflexivity. Qed.
End Core.

Lemma native_val_single E b : native_val E [b] = b.
Proof. destruct E; cbn; lia. Qed.

Section Scalars.
  Variables (B E : endian).
  Hypothesis HBE : B = E.

  (* encoding, BpEndecodeInt is BpEndecodeBaseType: the sign fix-up returns at once *)
  Lemma endecode_int_enc size n x o :
    on_bytes o (endecode_int B E true size n x) = on_bytes o (base_type B E true n x).
  Proof.
    destruct o; try reflexivity. unfold on_bytes, endecode_int.
    destruct (base_type B E true n x bs) as [[? ?]| | |]; reflexivity.
  Qed.

  (* sf is the finished stream (Bits.cut) *)
  Lemma encode_ahead_cut v sf i :
    0 <= v < 65536 -> 0 <= i -> i + 16 <= 8 * Z.of_nat (length sf) -> chunk (bufZ sf) i 16 = v ->
    encode_ahead B E v {| xs := cut sf i; xi := i |} = COk {| xs := cut sf (i + 16); xi := i + 16 |}.
  Proof.
    intros Hv Hi Hr Hch. unfold encode_ahead.
    rewrite ah_size_2, ah_nbits_16. change (Z.to_nat 2) with 2%nat.
    pose proof (st_whole E (zeros 2) v) as Hst. cbn [length zeros] in Hst.
    change (zeros 2) with [0; 0]. rewrite Hst. cbn [cbind].
    rewrite (base_enc B E 16 sf i (native_bytes E 2 v) HBE ltac:(lia) Hi Hr (native_bytes_ok _ _ _)); [reflexivity|..].
    - rewrite native_bytes_length. lia.
    - intros _. split; [lia|]. rewrite native_bytes_length. reflexivity.
    - rewrite native_val_bytes, Hch. change (256 ^ Z.of_nat 2) with 65536. change (2 ^ 16) with 65536.
      rewrite Z.mod_mod by lia. symmetry. apply Z.mod_small, Hv.
  Qed.
End Scalars.

Lemma set_assoc_same k fo (ofs : list (Z * obj)) : lookup k ofs = Some fo -> set_assoc k fo ofs = ofs.
Proof.
  induction ofs as [|h r IH]; intros H; [reflexivity|].
  cbn [lookup set_assoc] in *. destruct (fst h =? k) eqn:Ek.
  - apply Z.eqb_eq in Ek. injection H as <-. destruct h; cbn in *; subst; reflexivity.
  - f_equal. apply IH, H.
Qed.

Lemma slice_ok m off len :
  0 <= off -> 0 <= len -> off + len <= Z.of_nat (length m) ->
  slice m off len = COk (firstn (Z.to_nat len) (skipn (Z.to_nat off) m)).
Proof.
  intros. unfold slice.
  replace ((0 <=? off) && (0 <=? len) && (off + len <=? Z.of_nat (length m))) with true by lia. reflexivity.
Qed.

Lemma splice_same m (off len : nat) :
  (off + len <= length m)%nat ->
  splice m (Z.of_nat off) (firstn len (skipn off m)) = COk m.
Proof.
  intros H. unfold splice.
  assert (Hl : length (firstn len (skipn off m)) = len) by (rewrite firstn_length_le; [reflexivity|rewrite skipn_length; lia]).
  rewrite Hl.
  replace ((0 <=? Z.of_nat off) && (Z.of_nat off + Z.of_nat len <=? Z.of_nat (length m))) with true by lia.
  f_equal. rewrite Nat2Z.id.
  destruct (split3 m off len H) as (E & _ & _). symmetry. exact E.
Qed.

Lemma d_size_render t : d_size (render t) = csize t.
Proof. destruct t; reflexivity. Qed.

Lemma d_nbits_render t : d_nbits (render t) = nbits t.
Proof. destruct t; reflexivity. Qed.

Definition abs_fields (E : endian) (o : obj) :=
  fix go (l : list (Z * ty)) : list (Z * val) :=
    match l with
    | [] => []
    | kf :: r =>
        (fst kf, abs_val E (snd kf)
                   (match o with
                    | OS ofs => match lookup (fst kf) ofs with Some x => x | None => OB [] end
                    | _ => OB []
                    end)) :: go r
    end.

Lemma abs_val_msg E x fs o : abs_val E (TMsg x fs) o = VM (abs_fields E o fs).
Proof. reflexivity. Qed.

Lemma lookup_abs_fields E ofs fs k ft fo :
  keys_distinct (map fst fs) = true -> In (k, ft) fs -> lookup k ofs = Some fo ->
  lookup k (abs_fields E (OS ofs) fs) = Some (abs_val E ft fo).
Proof.
  intros Hd Hin Hl.
  pose proof (lookup_map_fields
                (fun k t => abs_val E t (match lookup k ofs with Some x => x | None => OB [] end)) fs k ft Hd Hin) as H.
  cbv beta in H. rewrite Hl in H. exact H.
Qed.

Lemma csize_nonneg t : wf t = true -> 0 <= csize t.
Proof.
  induction t as [| | n | n | n ms | t IH | x c e IH | x fs IH] using ty_ind'; intros H;
    cbn [csize wf] in *.
  - lia.
  - lia.
  - destruct (width_facts n ltac:(lia)). lia.
  - destruct (width_facts n ltac:(lia)). lia.
  - rewrite !andb_true_iff in H. destruct (width_facts n ltac:(lia)). lia.
  - exact (IH H).
  - rewrite !andb_true_iff in H. destruct H as [_ He]. specialize (IH He). nia.
  - lia.
Qed.

Lemma nth_error_app_mid {A} (pre : list A) a r : nth_error (pre ++ a :: r) (length pre) = Some a.
Proof. induction pre; cbn; auto. Qed.

Lemma chunks_length cnt sz bs : length (chunks cnt sz bs) = cnt.
Proof. revert bs; induction cnt; intros; cbn [chunks length]; [reflexivity|now rewrite IHcnt]. Qed.

Lemma concat_chunks cnt sz : forall bs, length bs = (cnt * sz)%nat -> flat_map (fun c => c) (chunks cnt sz bs) = bs.
Proof.
  induction cnt as [|c IH]; intros bs Hl; [now destruct bs|].
  cbn [chunks flat_map]. rewrite IH by (rewrite skipn_length; lia). apply firstn_skipn.
Qed.

Lemma chunks_In cnt sz : forall bs c, length bs = (cnt * sz)%nat -> bytes_ok bs -> In c (chunks cnt sz bs) ->
  bytes_ok c /\ length c = sz.
Proof.
  induction cnt as [|n IH]; intros bs c Hl Hb Hin; [destruct Hin|].
  cbn [chunks] in Hin. destruct Hin as [<-|Hin].
  - split; [apply bytes_ok_firstn, Hb|]. apply firstn_length_le. lia.
  - apply (IH (skipn sz bs)); [rewrite skipn_length; lia|apply bytes_ok_skipn, Hb|exact Hin].
Qed.

Lemma chunks_flat_map {A} (f : A -> list Z) (sz : nat) (l : list A) :
  (forall a, In a l -> length (f a) = sz) ->
  chunks (length l) sz (flat_map f l) = map f l.
Proof.
  induction l as [|a r IH]; intros H; [reflexivity|].
  cbn [length chunks flat_map map].
  assert (Ha : length (f a) = sz) by (apply H; now left).
  rewrite <- Ha, firstn_app_l, skipn_app_l, Ha. f_equal. apply IH. intros b Hb. apply H. now right.
Qed.

(* the sign loop of the batch path changes nothing where the fix-up returns at once: when
   encoding, and when decoding 8/16/32/64-bit elements *)
Lemma batch_sign_id E enc esize enbits :
  (forall s, sign_after E enc esize enbits s = COk s) -> 0 <= esize ->
  forall cnt k bs, (Z.of_nat k + Z.of_nat cnt) * esize <= Z.of_nat (length bs) ->
  batch_sign E enc cnt k esize enbits bs = COk bs.
Proof.
  intros Hid He. induction cnt as [|c IH]; intros k bs Hl; [reflexivity|].
  cbn [batch_sign]. rewrite slice_ok by nia. cbn [cbind]. rewrite Hid. cbn [cbind].
  assert (Hoff : Z.to_nat (Z.of_nat k * esize) = (k * Z.to_nat esize)%nat).
  { rewrite Z2Nat.inj_mul, Nat2Z.id by lia. reflexivity. }
  rewrite Hoff.
  replace (Z.of_nat k * esize) with (Z.of_nat (k * Z.to_nat esize)).
  2:{ rewrite Nat2Z.inj_mul, Z2Nat.id by lia. reflexivity. }
  rewrite splice_same.
  2:{ apply Nat2Z.inj_le. rewrite Nat2Z.inj_add, Nat2Z.inj_mul, Z2Nat.id by lia. nia. }
  cbn [cbind]. apply IH. lia.
Qed.

Lemma batch_class e : cwf e = true ->
  ar_batch_le_build (nbits e) (d_flag (render e)) (d_to_flag (render e)) = true ->
  exists l, (e = l \/ e = TAlias l) /\ is_leaf l = true /\ BpIsNbitsStandard (nbits l) = true.
Proof.
  intros Hc Hb. unfold ar_batch_le_build in Hb. apply andb_true_iff in Hb. destruct Hb as [Hs Hf].
  (* Hf: the flag, or the alias target's flag, is one of byte / uint / enum / int *)
  destruct e as [| | n | n | n ms | u | xx cap e' | xx fs]; cbn [render d_flag d_to_flag] in Hf.
  - now vm_compute in Hf.
  - exists TByte. now split; [left|split].
  - exists (TUint n). now split; [left|split].
  - exists (TInt n). now split; [left|split].
  - exists (TEnum n ms). now split; [left|split].
  - cbn [cwf] in Hc. apply andb_true_iff in Hc. destruct Hc as [Hat _].
    (* an alias names bool, byte, uintN, intN or an array *)
    destruct u as [| | n | n | n ms | u' | xx cap e' | xx fs]; try discriminate Hat; cbn [bp_flag] in Hf.
    + now vm_compute in Hf.
    + exists TByte. now split; [right|split].
    + exists (TUint n). now split; [right|split].
    + exists (TInt n). now split; [right|split].
    + now vm_compute in Hf.
  - now vm_compute in Hf.
  - now vm_compute in Hf.
Qed.

Lemma leaf_batch l : is_leaf l = true -> BpIsNbitsStandard (nbits l) = true ->
  flat l = true /\ nbits l = 8 * csize l /\
  forall c, bytes_ok c -> Z.of_nat (length c) = csize l ->
            Z_of_bits (enc_bits l (abs_val LE l (OB c))) = bufZ c.
Proof.
  intros Hl Hs.
  assert (Hgen : forall n, BpIsNbitsStandard n = true ->
            n = 8 * int_size n /\
            forall c, bytes_ok c -> Z.of_nat (length c) = int_size n ->
                      Z_of_bits (bits_of (Z.to_nat n) (bufZ c)) = bufZ c).
  { intros n Hn. assert (Hn' : n = 8 \/ n = 16 \/ n = 32 \/ n = 64) by (unfold BpIsNbitsStandard in Hn; lia).
    assert (E8 : n = 8 * int_size n) by (destruct Hn' as [-> | [-> | [-> | ->]]]; reflexivity).
    split; [exact E8|]. intros c Hc' Hl'. rewrite Z_of_bits_of, Z2Nat.id by lia.
    apply Z.mod_small. pose proof (bufZ_range c Hc') as R. rewrite Hl', pow256 in R by lia.
    rewrite E8 at 1. exact R. }
  destruct l as [| | n | n | n ms | | |]; try discriminate Hl; cbn [nbits] in Hs.
  - now vm_compute in Hs.
  - split; [reflexivity|]. split; [reflexivity|]. intros c Hc' Hl'.
    destruct c as [|b [|? ?]]; cbn [length] in Hl'; try (cbn [csize] in Hl'; lia).
    cbn [abs_val obytes hd enc_bits zof]. change (bits_of 8 b) with (bits_of (Z.to_nat 8) b).
    rewrite Z_of_bits_of. inversion Hc' as [|? ? Hb' _]; subst. unfold is_byte in Hb'.
    cbn [bufZ]. change (2 ^ Z.of_nat (Z.to_nat 8)) with 256. rewrite Z.mod_small by lia. lia.
  - exact (conj eq_refl (Hgen n Hs)).
  - exact (conj eq_refl (Hgen n Hs)).
  - exact (conj eq_refl (Hgen n Hs)).
Qed.

Lemma batch_inv e : cwf e = true ->
  ar_batch_le_build (nbits e) (d_flag (render e)) (d_to_flag (render e)) = true ->
  flat e = true /\ nbits e = 8 * csize e /\
  forall c, bytes_ok c -> Z.of_nat (length c) = csize e ->
            Z_of_bits (enc_bits e (abs_val LE e (OB c))) = bufZ c.
Proof.
  intros Hc Hb. destruct (batch_class e Hc Hb) as (l & [-> | ->] & Hl & Hs); exact (leaf_batch l Hl Hs).
Qed.

Lemma cbind_ret {A} (r : cres A) : cbind r (fun a => COk a) = r.
Proof. destruct r; reflexivity. Qed.

Lemma ah_val_facts c : 0 <= c < 65536 -> ah_arr_val c = c /\ ah_msg_val c = c.
Proof. intros H. unfold ah_arr_val, ah_msg_val. rewrite Z.mod_small by lia. auto. Qed.
