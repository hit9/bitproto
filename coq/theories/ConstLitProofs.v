(* ConstLitProofs.v — lemmas about ConstLit: decimal/hex printing and reading, integer, boolean
   and string literal round trips per language. *)
From Coq Require Import ZArith List Bool Lia.
From BPGen Require Import GenC13.
From BP Require Import ListFacts Bits ConstLit.
Import ListNotations.
Open Scope Z_scope.

Lemma digit_val_char : forall d, 0 <= d < 16 -> digit_val (digit_char d) = Some d.
Proof.
  intros d Hd. unfold digit_char, digit_val.
  destruct (Z.ltb_spec d 10) as [H|H].
  - replace ((48 <=? 48 + d) && (48 + d <=? 57)) with true.
    + f_equal; lia.
    + symmetry. apply andb_true_iff; split; apply Z.leb_le; lia.
  - replace ((48 <=? 87 + d) && (87 + d <=? 57)) with false.
    + replace ((97 <=? 87 + d) && (87 + d <=? 102)) with true.
      * f_equal; lia.
      * symmetry. apply andb_true_iff; split; apply Z.leb_le; lia.
    + symmetry. apply andb_false_iff; right. apply Z.leb_gt; lia.
Qed.

Lemma text_eqb_refl : forall a, text_eqb a a = true.
Proof. induction a as [|x a IH]; cbn [text_eqb]; [reflexivity|]. rewrite Z.eqb_refl, IH. reflexivity. Qed.

Lemma text_eqb_eq : forall a b, text_eqb a b = true -> a = b.
Proof.
  induction a as [|x a IH]; destruct b as [|y b]; cbn [text_eqb]; intro H; try discriminate; [reflexivity|].
  apply andb_true_iff in H. destruct H as [H1 H2]. apply Z.eqb_eq in H1. subst. f_equal. auto.
Qed.

Lemma horner_app : forall b s1 s2 acc,
  horner b acc (s1 ++ s2) = match horner b acc s1 with Some a => horner b a s2 | None => None end.
Proof.
  induction s1 as [|c s1 IH]; intros s2 acc; cbn [app horner]; [reflexivity|].
  destruct (digit_val c) as [d|]; [|reflexivity].
  destruct (d <? b); [apply IH|reflexivity].
Qed.

Lemma horner_rev_digits : forall b ds, 2 <= b <= 16 -> Forall (fun d => 0 <= d < b) ds ->
  horner b 0 (map digit_char (rev ds)) = Some (le_val b ds).
Proof.
  intros b ds Hb. induction ds as [|d ds IH]; intro HF; [reflexivity|].
  inversion HF as [|? ? Hd HF']; subst.
  cbn [rev]. rewrite map_app, horner_app, IH by assumption.
  cbn [map horner]. rewrite digit_val_char by lia.
  replace (d <? b) with true by (symmetry; apply Z.ltb_lt; lia).
  cbn [le_val fold_right]. f_equal. fold (le_val b ds). lia.
Qed.

Lemma nat_digits_value : forall b n, 2 <= b <= 16 -> 0 <= n ->
  horner b 0 (nat_digits b n) = Some n.
Proof.
  intros b n Hb Hn. unfold nat_digits.
  rewrite horner_rev_digits by (try assumption; apply (lsd_range _ b n); lia).
  f_equal. apply (lsd_value _ b n); [lia|]. split; [assumption|apply log2_fuel; assumption].
Qed.

Lemma nat_digits_zero : forall b, 2 <= b -> nat_digits b 0 = [48].
Proof.
  intros b Hb. unfold nat_digits. change (Z.to_nat (Z.log2 0)) with 0%nat.
  cbn [le_digits]. rewrite Z.mod_0_l, Z.div_0_l by lia. reflexivity.
Qed.

(* 48 = "0", 45 = "-" *)
Lemma nat_digits_head : forall b n, 2 <= b <= 16 -> 0 < n ->
  exists c r, nat_digits b n = c :: r /\ c <> 48 /\ c <> 45.
Proof.
  intros b n Hb Hn. unfold nat_digits. change le_digits with lsd.
  destruct (lsd_last (S (Z.to_nat (Z.log2 n))) b n ltac:(lia)
              ltac:(split; [assumption|apply log2_fuel; lia])) as (ds & d & Hds & Hd).
  rewrite Hds, rev_app_distr. cbn [rev app map].
  eexists _, _. split; [reflexivity|]. unfold digit_char. destruct (d <? 10); lia.
Qed.

Lemma nat_digits_nonempty : forall b n, nat_digits b n <> [].
Proof.
  intros b n. unfold nat_digits. cbn [le_digits rev].
  intro H. apply (f_equal (@length Z)) in H. rewrite map_length, app_length in H. cbn in H. lia.
Qed.

Lemma int_of_text_digits : forall b n, 2 <= b <= 16 -> 0 <= n -> int_of_text b (nat_digits b n) = Some n.
Proof.
  intros b n Hb Hn. unfold int_of_text.
  destruct (nat_digits b n) eqn:E; [exfalso; eapply nat_digits_nonempty; eassumption|].
  rewrite <- E. apply nat_digits_value; assumption.
Qed.

Lemma nat_digits_length : forall b n k, 2 <= b -> 0 <= n < b ^ k -> 1 <= k ->
  Z.of_nat (length (nat_digits b n)) <= k.
Proof.
  intros b n k Hb Hn Hk. unfold nat_digits. rewrite map_length, rev_length.
  apply (lsd_length _ b n k); assumption.
Qed.

(* the templates of the three formatters are the bare "{0}" (checked against the translated
   tables; a different template makes this lemma — and every theorem below — fail) *)
Lemma int_templates_bare : forall l, int_prefix l = [] /\ int_suffix l = [].
Proof. intros []; split; reflexivity. Qed.

Lemma format_int_is_dec : forall l z, format_int l z = dec_text z.
Proof.
  intros l z. unfold format_int. destruct (int_templates_bare l) as [-> ->].
  cbn [app]. apply app_nil_r.
Qed.

(* the text is "0" or starts with a non-zero digit, so no reader takes it for an octal, hexadecimal
   or binary literal *)
Lemma read_unsigned_dec : forall n, 0 <= n ->
  c_read_unsigned (nat_digits 10 n) = Some n /\ go_read_unsigned (nat_digits 10 n) = Some n /\
  py_read_unsigned (nat_digits 10 n) = py_read_decimal (nat_digits 10 n).
Proof.
  intros n Hn. pose proof (int_of_text_digits 10 n ltac:(lia) Hn) as HV.
  destruct (Z.eq_dec n 0) as [->|E]; [rewrite nat_digits_zero by lia; repeat split; reflexivity|].
  destruct (nat_digits_head 10 n ltac:(lia) ltac:(lia)) as (c & r & E' & Hc & _). rewrite E' in *.
  apply Z.eqb_neq in Hc. unfold c_read_unsigned, go_read_unsigned, py_read_unsigned.
  destruct r; rewrite ?Hc; repeat split; (exact HV || reflexivity).
Qed.

Lemma dec_text_sign : forall z, split_sign (dec_text z) = (z <? 0, nat_digits 10 (Z.abs z)).
Proof.
  intro z. unfold dec_text. destruct (Z.ltb_spec z 0) as [H|H].
  - cbn [split_sign]. rewrite Z.eqb_refl, Z.abs_neq by lia. reflexivity.
  - rewrite Z.abs_eq by lia. destruct (Z.eq_dec z 0) as [->|E]; [reflexivity|].
    destruct (nat_digits_head 10 z ltac:(lia) ltac:(lia)) as (c & r & -> & _ & Hc).
    cbn [split_sign]. apply Z.eqb_neq in Hc. rewrite Hc. reflexivity.
Qed.

Lemma signed_abs : forall z, signed (z <? 0) (Z.abs z) = z.
Proof. intro z. unfold signed. destruct (Z.ltb_spec z 0); lia. Qed.

Lemma int_literal_c : forall z, in_range_c z -> read_int LC (format_int LC z) = Some z.
Proof.
  intros z Hr. unfold in_range_c in Hr. rewrite format_int_is_dec. cbn [read_int]. unfold c_read_int.
  rewrite dec_text_sign, (proj1 (read_unsigned_dec _ (Z.abs_nonneg z))).
  replace (Z.abs z <=? c_llong_max) with true by (symmetry; apply Z.leb_le; lia).
  rewrite signed_abs. reflexivity.
Qed.

Lemma int_literal_go : forall bits z, in_range_go bits z -> go_read_int bits (format_int LGo z) = Some z.
Proof.
  intros bits z Hr. unfold in_range_go in Hr. rewrite format_int_is_dec. unfold go_read_int.
  rewrite dec_text_sign, (proj1 (proj2 (read_unsigned_dec _ (Z.abs_nonneg z)))). cbv zeta.
  rewrite signed_abs.
  replace ((- 2 ^ (bits - 1) <=? z) && (z <? 2 ^ (bits - 1))) with true; [reflexivity|].
  symmetry; apply andb_true_iff; split; [apply Z.leb_le|apply Z.ltb_lt]; lia.
Qed.

Lemma int_literal_py : forall z, in_range_py z -> read_int LPy (format_int LPy z) = Some z.
Proof.
  intros z Hr. unfold in_range_py in Hr. rewrite format_int_is_dec. cbn [read_int]. unfold py_read_int.
  rewrite dec_text_sign, (proj2 (proj2 (read_unsigned_dec _ (Z.abs_nonneg z)))). unfold py_read_decimal.
  pose proof (nat_digits_length 10 (Z.abs z) py_max_str_digits ltac:(lia) ltac:(lia)
                ltac:(unfold py_max_str_digits; lia)) as HL.
  apply Z.leb_le in HL. rewrite HL, int_of_text_digits by lia. rewrite signed_abs. reflexivity.
Qed.

Lemma int_literal_c_out_of_range : read_int LC (format_int LC (2 ^ 63)) = None.
Proof. vm_compute. reflexivity. Qed.
Lemma int_literal_go_out_of_range : read_int LGo (format_int LGo (2 ^ 63)) = None.
Proof. vm_compute. reflexivity. Qed.

Lemma bool_literal : forall l b, read_bool l (format_bool l b) = Some b.
Proof. intros [] []; vm_compute; reflexivity. Qed.

(* only c_scan uses the fuel *)
Definition lscan (l : lang) (f : nat) (s acc : text) : rd :=
  match l with LC => c_scan f s true acc | LGo => go_scan s true acc | LPy => py_scan s true acc end.

Lemma lscan_all : forall l (enc : Z -> text) (P : Z -> Prop),
  (forall f c rest acc, P c -> lscan l (S f) (enc c ++ rest) acc = lscan l f rest (c :: acc)) ->
  forall s acc f, Forall P s -> (length s + 2 <= f)%nat ->
  lscan l f (flat_map enc s ++ [34]) acc = RdOk (rev acc ++ s).
Proof.
  intros l enc P Henc. induction s as [|c s IH]; intros acc f HF Hf.
  - destruct f as [|[|f]]; cbn [length] in Hf; try lia. rewrite app_nil_r. destruct l; reflexivity.
  - inversion HF; subst. destruct f as [|f]; cbn [length] in Hf; [lia|].
    cbn [flat_map]. rewrite <- app_assoc, Henc, IH by (try assumption; lia).
    cbn [rev]. rewrite <- app_assoc. reflexivity.
Qed.

Lemma safe_not_in : forall l c k, safe_char l c = true -> In k (unsafe_chars l) -> (c =? k) = false.
Proof.
  intros l c k H Hk. unfold safe_char in H. apply negb_true_iff in H.
  destruct (Z.eqb_spec c k) as [->|]; [|reflexivity].
  rewrite <- H. symmetry. apply existsb_exists. exists k. split; [exact Hk|apply Z.eqb_refl].
Qed.

Lemma lscan_verbatim : forall l f c rest acc, safe_char l c = true ->
  lscan l (S f) (c :: rest) acc = lscan l f rest (c :: acc).
Proof.
  intros l f c rest acc H. pose proof (fun k => safe_not_in l c k H) as N.
  destruct l; cbn [lscan c_scan go_scan py_scan unsafe_chars] in *.
  - rewrite (N 34), (N 10), (N 13), (N 92) by (cbn; tauto). reflexivity.
  - rewrite (N 34), (N 10), (N 0), (N 92) by (cbn; tauto). reflexivity.
  - rewrite (N 34), (N 10), (N 13), (N 0), (N 92) by (cbn; tauto). reflexivity.
Qed.

Lemma lscan_safe : forall l s acc f, safe_string_in l s = true -> (length s + 2 <= f)%nat ->
  lscan l f (s ++ [34]) acc = RdOk (rev acc ++ s).
Proof.
  intros l s acc f Hs Hf. rewrite <- (map_id s) at 1. rewrite <- flat_map_single.
  apply (lscan_all l _ (fun c => safe_char l c = true)); [apply lscan_verbatim| |exact Hf].
  apply Forall_forall. apply forallb_forall. exact Hs.
Qed.

Lemma py_scan_safe : forall s acc, safe_string_in LPy s = true ->
  py_scan (s ++ [34]) true acc = RdOk (rev acc ++ s).
Proof. intros s acc Hs. exact (lscan_safe LPy s acc _ Hs (le_n _)). Qed.

Lemma starts_two_quotes_safe : forall s, safe_string_in LPy s = true -> starts_two_quotes (s ++ [34]) = false.
Proof.
  intros [|a s] Hs; [reflexivity|].
  cbn [safe_string_in forallb] in Hs. apply andb_true_iff in Hs. destruct Hs as [Hc _].
  destruct s; cbn [app starts_two_quotes]; rewrite (safe_not_in LPy a 34 Hc) by (cbn; tauto); reflexivity.
Qed.

Lemma go_scan_safe : forall s acc, safe_string_in LGo s = true ->
  go_scan (s ++ [34]) true acc = RdOk (rev acc ++ s).
Proof. intros s acc Hs. exact (lscan_safe LGo s acc _ Hs (le_n _)). Qed.

Lemma c_splice_safe : forall s, safe_string_in LC s = true -> c_splice (s ++ [34]) = s ++ [34].
Proof.
  induction s as [|c s IH]; intro Hs; [reflexivity|].
  cbn [safe_string_in forallb] in Hs. apply andb_true_iff in Hs. destruct Hs as [Hc Hs].
  cbn [app c_splice]. rewrite (safe_not_in LC c 92 Hc) by (cbn; tauto).
  rewrite IH by assumption. reflexivity.
Qed.

Lemma c_scan_safe : forall s acc f, safe_string_in LC s = true -> (length s + 2 <= f)%nat ->
  c_scan f (s ++ [34]) true acc = RdOk (rev acc ++ s).
Proof. intros s acc f. exact (lscan_safe LC s acc f). Qed.

(* facts about the translated table: keys are distinct, the backslash, the double quote and the
   newline are producible, no key is a newline *)
Definition esc_table_ok : bool :=
  forallb (fun p : Z * Z => match lookup_esc (fst p) escaping_chars with
                            | Some v => (v =? snd p) && negb (fst p =? 10)
                            | None => false end) escaping_chars
  && forallb (fun c => match rev_lookup_esc c escaping_chars with Some _ => true | None => false end) [92; 34; 10].

Lemma esc_table_checked : esc_table_ok = true.
Proof. vm_compute. reflexivity. Qed.

Lemma rev_lookup_in : forall c tbl k, rev_lookup_esc c tbl = Some k -> In (k, c) tbl.
Proof.
  induction tbl as [|[k' v] tbl IH]; intros k H; cbn [rev_lookup_esc] in H; [discriminate|].
  destruct (Z.eqb_spec v c) as [->|Hne].
  - injection H as <-. left. reflexivity.
  - right. apply IH. assumption.
Qed.

Lemma rev_lookup_none : forall c tbl v, rev_lookup_esc c tbl = None -> In v (map snd tbl) -> v <> c.
Proof.
  induction tbl as [|[k' v'] tbl IH]; intros v H Hin; cbn in *; [contradiction|].
  destruct (Z.eqb_spec v' c) as [->|Hne]; [discriminate|].
  destruct Hin as [<-|Hin]; [assumption|]. apply IH; assumption.
Qed.

Lemma src_char_spec : forall c,
  (exists k, src_char c = [92; k] /\ lookup_esc k escaping_chars = Some c /\ (k =? 10) = false) \/
  (src_char c = [c] /\ (c =? 92) = false /\ (c =? 34) = false /\ (c =? 10) = false).
Proof.
  intro c. unfold src_char.
  pose proof esc_table_checked as HT. unfold esc_table_ok in HT.
  apply andb_true_iff in HT. destruct HT as [HT1 HT2]. rewrite forallb_forall in HT1.
  destruct (rev_lookup_esc c escaping_chars) as [k|] eqn:E.
  - left. exists k. apply rev_lookup_in in E. specialize (HT1 _ E). cbn [fst snd] in HT1.
    destruct (lookup_esc k escaping_chars) as [v|]; [|discriminate].
    apply andb_true_iff in HT1. destruct HT1 as [Hv Hk]. apply Z.eqb_eq in Hv. subst v.
    apply negb_true_iff in Hk. auto.
  - right. split; [reflexivity|]. cbn [forallb] in HT2.
    repeat split; apply Z.eqb_neq; intro Hc; subst c; rewrite E in HT2; cbn in HT2; discriminate.
Qed.

Lemma src_char_unescape : forall c rest acc,
  unescape (src_char c ++ rest) acc = unescape rest (c :: acc).
Proof.
  intros c rest acc. destruct (src_char_spec c) as [(k & -> & Hk & _)|(-> & H92 & _)]; cbn [app unescape].
  - rewrite Z.eqb_refl, Hk. reflexivity.
  - rewrite H92. reflexivity.
Qed.

Lemma unescape_src_escape_acc : forall v acc, unescape (src_escape v) acc = LexOk (rev acc ++ v).
Proof.
  induction v as [|c v IH]; intro acc.
  - cbn. rewrite app_nil_r. reflexivity.
  - unfold src_escape. cbn [flat_map]. fold (src_escape v). rewrite src_char_unescape, IH.
    cbn [rev]. rewrite <- app_assoc. reflexivity.
Qed.

Lemma string_declarable : forall v, unescape (src_escape v) [] = LexOk v.
Proof. intro v. apply unescape_src_escape_acc. Qed.

Lemma src_char_lexable : forall c rest, lexable (src_char c ++ rest) = lexable rest.
Proof.
  intros c rest. destruct (src_char_spec c) as [(k & -> & _ & Hk)|(-> & H92 & H34 & H10)]; cbn [app lexable].
  - rewrite Z.eqb_refl, Hk. reflexivity.
  - rewrite H92, H34, H10. reflexivity.
Qed.

Lemma src_escape_lexable : forall v, lexable (src_escape v) = true.
Proof.
  induction v as [|c v IH]; [reflexivity|].
  unfold src_escape. cbn [flat_map]. fold (src_escape v). rewrite src_char_lexable. assumption.
Qed.

(* on the token's regular language the loop never indexes past the end *)
Lemma unescape_total : forall s acc, lexable s = true -> unescape s acc <> LexIndexError.
Proof.
  fix IH 1. intros s acc H. destruct s as [|c s]; [discriminate|].
  cbn [unescape]. cbn [lexable] in H.
  destruct (c =? 92).
  - destruct s as [|e s]; [discriminate|]. apply andb_true_iff in H. destruct H as [_ H].
    destruct (lookup_esc e escaping_chars); [apply IH; assumption|discriminate].
  - apply andb_true_iff in H. destruct H as [_ H]. apply IH; assumption.
Qed.

Definition ctrl_codes : list Z :=
  [0; 1; 2; 3; 4; 5; 6; 7; 8; 9; 10; 11; 12; 13; 14; 15; 16; 17; 18; 19; 20; 21; 22; 23; 24; 25; 26; 27;
   28; 29; 30; 31; 127].

(* the characters esc_char_std rewrites *)
Definition special : list Z := [92; 34; 10; 13; 9] ++ ctrl_codes.

Lemma esc_plain : forall c, 0 <= c -> ~ In c special ->
  esc_char_std c = [c] /\ c <> 34 /\ c <> 10 /\ c <> 13 /\ forall l, safe_char l c = true.
Proof.
  intros c H0 Hn. unfold special, ctrl_codes in Hn. cbn [app In] in Hn.
  assert (32 <= c /\ c <> 127 /\ c <> 34 /\ c <> 92 /\ c <> 10 /\ c <> 13 /\ c <> 9 /\ c <> 0)
    as (A & B & C & D & E & F & G & Z0) by lia.
  apply Z.ltb_ge in A. apply Z.eqb_neq in B, C, D, E, F, G, Z0.
  split; [unfold esc_char_std; rewrite D, C, E, F, G, A, B; reflexivity|].
  split; [apply Z.eqb_neq, C|]. split; [apply Z.eqb_neq, E|]. split; [apply Z.eqb_neq, F|].
  intros []; unfold safe_char, unsafe_chars; cbn [existsb]; rewrite ?Z0, ?E, ?F, ?C, ?D; reflexivity.
Qed.

Lemma lscan_special : forall l, Forall (fun c => forall f rest acc,
  lscan l (S f) (esc_char_std c ++ rest) acc = lscan l f rest (c :: acc)) special.
Proof. intros []; repeat constructor; intros; reflexivity. Qed.

Lemma lscan_esc : forall l f c rest acc, 0 <= c ->
  lscan l (S f) (esc_char_std c ++ rest) acc = lscan l f rest (c :: acc).
Proof.
  intros l f c rest acc H0. destruct (in_dec Z.eq_dec c special) as [Hi|Hn].
  - exact (proj1 (Forall_forall _ _) (lscan_special l) c Hi f rest acc).
  - destruct (esc_plain c H0 Hn) as (-> & _ & _ & _ & Hs). apply lscan_verbatim, Hs.
Qed.

Lemma esc_char_shape : forall c, 0 <= c ->
  exists h t, esc_char_std c = h :: t /\ h <> 34 /\ forallb (fun x => negb (x =? 10) && negb (x =? 13)) (esc_char_std c) = true.
Proof.
  assert (T : Forall (fun c => exists h t, esc_char_std c = h :: t /\ h <> 34 /\
                forallb (fun x => negb (x =? 10) && negb (x =? 13)) (esc_char_std c) = true) special).
  { repeat constructor; eexists _, _; (split; [reflexivity|split; [discriminate|reflexivity]]). }
  intros c H0. destruct (in_dec Z.eq_dec c special) as [Hi|Hn].
  - exact (proj1 (Forall_forall _ _) T c Hi).
  - destruct (esc_plain c H0 Hn) as (-> & N34 & N10 & N13 & _). exists c, []. split; [reflexivity|].
    split; [exact N34|]. cbn [forallb]. apply Z.eqb_neq in N10, N13. rewrite N10, N13. reflexivity.
Qed.

Lemma c_splice_no_newline : forall s, forallb (fun x => negb (x =? 10) && negb (x =? 13)) s = true -> c_splice s = s.
Proof.
  induction s as [|c s IH]; intro H; [reflexivity|].
  cbn [forallb] in H. apply andb_true_iff in H. destruct H as [Hc Hs].
  cbn [c_splice]. destruct (c =? 92).
  - destruct s as [|d s1]; [reflexivity|].
    pose proof Hs as Hs'. cbn [forallb] in Hs'. apply andb_true_iff in Hs'. destruct Hs' as [Hd _].
    apply andb_true_iff in Hd. destruct Hd as [Hd1 Hd2].
    apply negb_true_iff in Hd1, Hd2. rewrite Hd1, Hd2. rewrite IH by assumption. reflexivity.
  - rewrite IH by assumption. reflexivity.
Qed.

Lemma lscan_fixed : forall l s acc f, Forall (fun c => 0 <= c) s -> (length s + 2 <= f)%nat ->
  lscan l f (flat_map esc_char_std s ++ [34]) acc = RdOk (rev acc ++ s).
Proof. intro l. apply lscan_all. intros f c rest acc. apply lscan_esc. Qed.

Lemma fixed_no_newline : forall s, Forall (fun c => 0 <= c) s ->
  forallb (fun x => negb (x =? 10) && negb (x =? 13)) (flat_map esc_char_std s ++ [34]) = true.
Proof.
  induction s as [|c s IH]; intro HF; [reflexivity|]. inversion HF; subst.
  cbn [flat_map]. rewrite <- app_assoc, forallb_app, IH by assumption.
  destruct (esc_char_shape c ltac:(assumption)) as (h & t & _ & _ & E). rewrite E. reflexivity.
Qed.

Lemma fixed_length : forall s, Forall (fun c => 0 <= c) s -> (length s <= length (flat_map esc_char_std s))%nat.
Proof.
  induction s as [|c s IH]; intro HF; [cbn; lia|]. inversion HF; subst.
  cbn [flat_map length]. rewrite app_length.
  destruct (esc_char_shape c ltac:(assumption)) as (h & t & E & _). rewrite E. cbn [length].
  specialize (IH ltac:(assumption)). lia.
Qed.
Lemma string_literal_fixed : forall l s, Forall (fun c => 0 <= c) s ->
  read_string l (format_str_fixed s) = RdOk s.
Proof.
  intros l s HF. unfold format_str_fixed. destruct l; cbn [read_string].
  - unfold c_read_string.
    rewrite (c_splice_no_newline (34 :: flat_map esc_char_std s ++ [34]))
      by (cbn [forallb]; rewrite fixed_no_newline by assumption; reflexivity).
    rewrite Z.eqb_refl. refine (lscan_fixed LC s [] _ HF _).
    rewrite app_length. cbn [length]. pose proof (fixed_length s HF). lia.
  - unfold go_read_string. rewrite Z.eqb_refl. exact (lscan_fixed LGo s [] _ HF (le_n _)).
  - unfold py_read_string. rewrite Z.eqb_refl.
    replace (starts_two_quotes (flat_map esc_char_std s ++ [34])) with false.
    + exact (lscan_fixed LPy s [] _ HF (le_n _)).
    + destruct s as [|c s]; [reflexivity|]. inversion HF; subst. cbn [flat_map].
      destruct (esc_char_shape c ltac:(assumption)) as (h & t & E & Hh & _). rewrite E.
      cbn [app]. apply Z.eqb_neq in Hh.
      match goal with |- false = starts_two_quotes (h :: ?X) => destruct X end;
        cbn [starts_two_quotes]; [reflexivity|]. rewrite Hh. reflexivity.
Qed.

Definition tables_agree (a b : list (Z * Z)) : bool :=
  forallb (fun p : Z * Z => match lookup_esc (fst p) b with Some v => v =? snd p | None => false end) a.

Lemma lookup_esc_in : forall c tbl v, lookup_esc c tbl = Some v -> In (c, v) tbl.
Proof.
  induction tbl as [|[k w] tbl IH]; intros v H; cbn [lookup_esc] in H; [discriminate|].
  destruct (Z.eqb_spec k c) as [->|Hne].
  - injection H as <-. left. reflexivity.
  - right. apply IH. assumption.
Qed.

Lemma tables_agree_lookup : forall a b, tables_agree a b = true -> tables_agree b a = true ->
  forall c, lookup_esc c a = lookup_esc c b.
Proof.
  intros a b Hab Hba c. unfold tables_agree in *. rewrite forallb_forall in Hab, Hba.
  destruct (lookup_esc c a) as [v|] eqn:Ea.
  - apply lookup_esc_in in Ea. specialize (Hab _ Ea). cbn [fst snd] in Hab.
    destruct (lookup_esc c b) as [w|]; [|discriminate]. apply Z.eqb_eq in Hab. congruence.
  - destruct (lookup_esc c b) as [w|] eqn:Eb; [|reflexivity].
    apply lookup_esc_in in Eb. specialize (Hba _ Eb). cbn [fst snd] in Hba.
    rewrite Ea in Hba. discriminate.
Qed.

Lemma escape_table_standard : forall c, lookup_esc c escaping_chars = lookup_esc c std_escapes.
Proof. apply tables_agree_lookup; vm_compute; reflexivity. Qed.

Lemma escapes_standard : forall s acc, unescape s acc = spec_unescape s acc.
Proof.
  fix IH 1. intros [|c s] acc; [reflexivity|]. cbn [unescape spec_unescape].
  destruct (c =? 92).
  - destruct s as [|e s]; [reflexivity|]. rewrite escape_table_standard.
    destruct (lookup_esc e std_escapes); [apply IH|reflexivity].
  - apply IH.
Qed.

Lemma esc_char_is_std : forall c, esc_char c = esc_char_std c.
Proof.
  intro c. unfold esc_char, esc_char_std, str_escapes, str_ctrl, str_ctrl_prefix, octal3.
  cbn [lookup_rep].
  destruct (c =? 92); [reflexivity|]. destruct (c =? 34); [reflexivity|].
  destruct (c =? 10); [reflexivity|]. destruct (c =? 13); [reflexivity|].
  destruct (c =? 9); [reflexivity|]. destruct ((c <? 32) || (c =? 127)); reflexivity.
Qed.

Lemma str_templates : forall l, str_prefix l = [34] /\ str_suffix l = [34] /\ str_escaped l = true.
Proof. intros []; repeat split; reflexivity. Qed.

Lemma format_str_is_fixed : forall l s, format_str l s = format_str_fixed s.
Proof.
  intros l s. unfold format_str, format_str_fixed.
  destruct (str_templates l) as (-> & -> & ->). cbn [app]. f_equal. f_equal.
  induction s as [|c s IH]; [reflexivity|]. cbn [flat_map]. rewrite esc_char_is_std, IH. reflexivity.
Qed.

Lemma string_literal : forall l s, Forall (fun c => 0 <= c) s ->
  read_string l (format_str l s) = RdOk s.
Proof. intros l s H. rewrite format_str_is_fixed. apply string_literal_fixed. exact H. Qed.
