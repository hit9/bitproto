(* FrontValid.v — the DECLARATIVE side of C08: which schemas satisfy the documented
   constraints.  Every clause of the property text is a named predicate with the documented
   bound written as a literal; [item_ok] says, construct by construct, which clauses a
   statement must meet in the scope it appears in and what it declares; [Valid] closes this
   over files and imports.  Nothing here mentions the validators of _ast.py (of GenFront only
   the option tables of options.py are used: [scope_options], [max_bytes_of]) or the error
   outcomes of Front.check: the connection is proved in FrontValidProofs.v. *)
From Coq Require Import ZArith List Bool String.
From BP Require Import Schema FrontBase Front.
From BPGen Require GenFront.
Import ListNotations.
Open Scope Z_scope.

(* ---------- the numeric clauses of the property text ---------- *)

Definition width_ok (n : Z) : Prop := 1 <= n <= 64.              (* integer widths are 1..64 *)
Definition cap_ok (n : Z) : Prop := 1 <= n <= 65535.             (* array capacities 1..65535 *)
Definition number_ok (n : Z) : Prop := 1 <= n <= 255.            (* field numbers 1..255 *)
Definition enum_value_fits (v n : Z) : Prop := 0 <= v < 2 ^ n.   (* representable in the enum's width *)
Definition msg_bits_ok (nb : Z) : Prop := nb <= 65535.           (* at most 65535 bits *)
Definition msg_bytes_ok (max_bytes nb : Z) : Prop :=             (* at most max_bytes bytes when set *)
  max_bytes > 0 -> (nb + 7) / 8 <= max_bytes.

(* options are known and well-typed (and pass the documented range) *)
Definition option_ok (table : list odesc) (name : string) (v : cval) : Prop :=
  exists d, find_odesc name table = Some d /\
            class_of v = class_of (od_default d) /\
            forall f z, od_validator d = Some f -> v = CVInt z -> f z = true.

Section Clauses.
  Variable trad : bool.
  Variable div0 : bool.               (* true: the property TEXT (no clause about dividing by zero) *)
  Variable st : list frame.           (* the scopes enclosing the statement, innermost first *)

  (* every referenced type is declared earlier (C11: lookup) and is a type *)
  Inductive sty_ok : sty -> ty -> option loc -> Prop :=
  | SOBool : sty_ok SBool TBool None
  | SOByte : sty_ok SByte TByte None
  | SOUint n : width_ok n -> sty_ok (SUint n) (TUint n) None
  | SOInt n : width_ok n -> sty_ok (SInt n) (TInt n) None
  | SORef p d t : lookup st p = Some d -> def_type d = Some t -> sty_ok (SRef p) t (Some (def_loc d)).

  (* every referenced constant is declared earlier and is of the right kind *)
  Definition const_ref (p : path) (v : cval) : Prop :=
    exists d, lookup st p = Some d /\ def_const d = Some v.

  Inductive capx_ok : capx -> Z -> Prop :=
  | COLit z : capx_ok (CapLit z) z
  | CORef p z : const_ref p (CVInt z) -> capx_ok (CapRef p) z.

  (* arrays are one-dimensional by construction of [tyx]; extensible marker only outside
     traditional mode *)
  Inductive tyx_ok : tyx -> ty -> option loc -> Prop :=
  | TOSingle s t r : sty_ok s t r -> tyx_ok (XSingle s) t r
  | TOArr s c ext t r n :
      sty_ok s t r -> capx_ok c n -> cap_ok n -> (ext = true -> trad = false) ->
      tyx_ok (XArr s c ext) (TArr ext (Z.to_nat n) t) r.

  Inductive cexpr_ok : cexpr -> Z -> Prop :=
  | EOInt z : cexpr_ok (EInt z) z
  | EORef p z : const_ref p (CVInt z) -> cexpr_ok (ERef p) z
  | EOAdd a b x y : cexpr_ok a x -> cexpr_ok b y -> cexpr_ok (EAdd a b) (x + y)
  | EOSub a b x y : cexpr_ok a x -> cexpr_ok b y -> cexpr_ok (ESub a b) (x - y)
  | EOMul a b x y : cexpr_ok a x -> cexpr_ok b y -> cexpr_ok (EMul a b) (x * y)
  | EODiv a b x y : cexpr_ok a x -> cexpr_ok b y -> (y <> 0 \/ div0 = true) -> cexpr_ok (EDiv a b) (x / y).

  Inductive cvalx_ok : cvalx -> cval -> Prop :=
  | VOBool b : cvalx_ok (CBool b) (CVBool b)
  | VOStr s : cvalx_ok (CStr s) (CVStr s)
  | VORef p v : const_ref p v -> cvalx_ok (CRef p) v
  | VOExpr e z : cexpr_ok e z -> cvalx_ok (CExpr e) (CVInt z).

  Inductive optx_ok : optx -> cval -> Prop :=
  | OOLit v : optx_ok (OLit v) v
  | OORef p v : const_ref p v -> optx_ok (ORef p) v.
End Clauses.

(* aliases name only unnamed types *)
Definition alias_target_unnamed (t : tyx) : Prop :=
  match t with XSingle (SRef _) => False | _ => True end.

(* names are unique per scope *)
Definition fresh (name : string) (f : frame) : Prop := has_name name (fmem f) = false.

Definition add_member (f : frame) (name : string) (d : def) : frame :=
  mkframe (fk f) ((name, d) :: fmem f).

(* nothing is declared in a scope that forbids it *)
Definition in_file_scope (f : frame) : Prop := exists n, fk f = FProto n.
Definition in_message_scope (f : frame) : Prop := exists a x, fk f = FMsg a x.
Definition in_file_or_message (f : frame) : Prop := in_file_scope f \/ in_message_scope f.

Definition scope_options (f : frame) : list odesc :=
  match fk f with
  | FProto _ => GenFront.proto_opttions
  | FMsg _ _ => GenFront.message_options
  | FEnum _ _ => []
  end.

Section Items.
  (* [valid_child stack g d]: file g, imported while [stack] is being parsed, is valid and
     elaborates to d *)
  Variable valid_child : list string -> string -> def -> Prop.
  Variable known_file : string -> bool.
  Variable trad : bool.
  Variable div0 : bool.
  Variable file : string.
  Variable fstack : list string.

  (* [item_ok outer cur it cur']: statement [it], member of scope [cur] inside [outer], meets
     every clause and extends the scope to [cur'] *)
  Fixpoint item_ok (outer : list frame) (cur : frame) (it : item) (cur' : frame) {struct it} : Prop :=
    let st := cur :: outer in
    match it with
    | IProto l name =>
        in_file_scope cur /\ cur' = mkframe (FProto (Some name)) (fmem cur)
    | IImport l asn g =>
        in_file_scope cur /\
        known_file g = true /\
        ~ In g fstack /\                                           (* imports are not cyclic *)
        ~ In g (imported_files (fmem (last_frame cur outer))) /\   (* nor duplicated *)
        exists child name,
          valid_child fstack g child /\
          name = match asn, child with
                 | Some n, _ => n
                 | None, DProto _ n _ => n
                 | None, _ => EmptyString
                 end /\
          fresh name (last_frame cur outer) /\ fresh name cur /\
          cur' = add_member cur name child
    | IOption l name v =>
        in_file_or_message cur /\
        exists cv, optx_ok st v cv /\ option_ok (scope_options cur) name cv /\ fresh name cur /\
                   cur' = add_member cur name (DOption (mkloc file l) cv)
    | IConst l name v =>
        in_file_scope cur /\
        exists cv, cvalx_ok div0 st v cv /\ fresh name cur /\
                   cur' = add_member cur name (DConst (mkloc file l) cv)
    | IAlias l name t =>
        in_file_scope cur /\
        exists ty r, tyx_ok trad st t ty r /\ alias_target_unnamed t /\ fresh name cur /\
                     cur' = add_member cur name (DAlias (mkloc file l) ty r)
    | IEnum l name base body =>
        in_file_or_message cur /\
        exists n fr,
          base = SUint n /\ width_ok n /\
          (fix go (its : list item) (f f' : frame) : Prop :=
             match its with
             | [] => f' = f
             | i :: r => exists fm, item_ok st f i fm /\ go r fm f'
             end) body (mkframe (FEnum (mkloc file l) n) []) fr /\
          fresh name cur /\
          cur' = add_member cur name (close_enum (mkloc file l) n fr)
    | IMsg l name ext body =>
        in_file_or_message cur /\
        (ext = true -> trad = false) /\
        exists fr,
          (fix go (its : list item) (f f' : frame) : Prop :=
             match its with
             | [] => f' = f
             | i :: r => exists fm, item_ok st f i fm /\ go r fm f'
             end) body (mkframe (FMsg (mkloc file l) ext) []) fr /\
          let mem := rev (fmem fr) in
          let t := TMsg ext (msg_fields mem) in
          msg_bits_ok (nbits t) /\ msg_bytes_ok (max_bytes_of mem) (nbits t) /\
          fresh name cur /\
          cur' = add_member cur name (DMsg (mkloc file l) t mem)
    | IField l t name num =>
        in_message_scope cur /\
        exists ty r, tyx_ok trad st t ty r /\
                     number_ok num /\ ~ In num (field_numbers (fmem cur)) /\   (* unique per message *)
                     fresh name cur /\
                     cur' = add_member cur name (DField (mkloc file l) num ty r)
    | IEnumField l name v =>
        exists a n, fk cur = FEnum a n /\
                    enum_value_fits v n /\ ~ In v (enum_values (fmem cur)) /\  (* unique, representable *)
                    fresh name cur /\
                    cur' = add_member cur name (DEnumField (mkloc file l) v)
    end.

  Fixpoint items_ok (outer : list frame) (cur : frame) (its : list item) (cur' : frame) : Prop :=
    match its with
    | [] => cur' = cur
    | i :: r => exists fm, item_ok outer cur i fm /\ items_ok outer fm r cur'
    end.
End Items.

(* a file is valid when its statements are, and it declares its name; [n] bounds the depth of
   the import nesting (any n will do: FrontValidProofs.check_ok_iff_file_ok) *)
Fixpoint file_ok (n : nat) (fs : files) (trad div0 : bool) (fstack : list string) (f : string) (d : def) : Prop :=
  match n with
  | O => False
  | S n' =>
      exists its fr name,
        assoc f fs = Some its /\
        items_ok (file_ok n' fs trad div0) (known fs) trad div0 f (f :: fstack) []
                 (mkframe (FProto None) []) its fr /\
        fk fr = FProto (Some name) /\
        d = DProto f name (rev (fmem fr))
  end.

(* THE SPECIFICATION: the schema rooted at [root] satisfies the documented constraints *)
Definition Valid (fs : files) (root : string) (trad : bool) : Prop :=
  exists n e, file_ok n fs trad false [] root e.

(* ... as the property TEXT lists them (no clause about division by zero) *)
Definition ValidText (fs : files) (root : string) (trad : bool) : Prop :=
  exists n e, file_ok n fs trad true [] root e.
