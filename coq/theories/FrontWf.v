(* FrontWf.v — every type an accepted schema elaborates to is well formed in the sense the
   wire-level theorems assume (Schema.wf, also after normalisation): the link from C08 to the
   hypotheses of C01 / C02 / C12. *)
From Coq Require Import ZArith List Bool String Lia Permutation.
From BP Require Import Schema Front FrontProofs FrontValid FrontValidProofs WireEq.
Import ListNotations.
Open Scope Z_scope.

Definition fields_wf :=
  fix go (l : list (Z * ty)) : bool :=
    match l with
    | [] => true
    | kf :: r => (1 <=? fst kf) && (fst kf <=? 255) && wf (snd kf) && go r
    end.

Lemma wf_msg x fs :
  wf (TMsg x fs) = keys_distinct (map fst fs) && (nbits (TMsg x fs) <=? 65535) && fields_wf fs.
Proof. reflexivity. Qed.

Lemma fields_wf_forall fs :
  fields_wf fs = true <-> forall kf, In kf fs -> 1 <= fst kf <= 255 /\ wf (snd kf) = true.
Proof.
  induction fs as [|h r IH]; cbn [fields_wf In]; [split; [intros _ ? []|reflexivity]|].
  rewrite !andb_true_iff, IH. split.
  - intros [[[H1 H2] H3] H4] kf0 Hor. destruct Hor as [E|Hin]; [subst kf0; split; [lia|exact H3]|now apply H4].
  - intros H. destruct (H h (or_introl eq_refl)) as [H1 H2].
    split; [split; [split; lia|exact H2]|]. intros kf0 Hin. apply H. now right.
Qed.

Lemma wf_norm t : wf t = true -> wf (norm t) = true.
Proof.
  induction t as [| | n | n | n ms | t IH | x c e IH | x fs IH] using ty_ind'; intros H; try exact H.
  - cbn [norm wf] in *. now apply IH.
  - cbn [norm wf] in *. rewrite !andb_true_iff in *. destruct H as [[H1 H2] H3]. repeat split; auto.
  - rewrite norm_msg, wf_msg. rewrite wf_msg in H. rewrite !andb_true_iff in H. destruct H as [[H1 H2] H3].
    rewrite !andb_true_iff. repeat split.
    + apply keys_distinct_NoDup. apply keys_distinct_NoDup in H1.
      eapply Permutation_NoDup; [|exact H1]. apply Permutation_sym.
      eapply perm_trans; [apply Permutation_map, sort_fields_perm_self|].
      rewrite norm_fields_map, map_map. cbn [fst]. apply Permutation_refl.
    + rewrite <- norm_msg, nbits_norm. exact H2.
    + apply fields_wf_forall. rewrite fields_wf_forall in H3. intros kf Hin.
      apply (Permutation_in _ (sort_fields_perm_self _)) in Hin. rewrite norm_fields_map in Hin.
      apply in_map_iff in Hin. destruct Hin as [kf0 [<- Hin0]]. cbn [fst snd].
      destruct (H3 kf0 Hin0) as [Hk Hw]. split; [exact Hk|].
      rewrite Forall_forall in IH. now apply (IH kf0 Hin0).
Qed.

Fixpoint def_ok (d : def) : Prop :=
  match d with
  | DAlias _ t _ => wf t = true
  | DEnum _ t m =>
      wf t = true /\
      (fix go (l : list (string * def)) : Prop := match l with [] => True | nd :: r => def_ok (snd nd) /\ go r end) m
  | DMsg _ t m =>
      wf t = true /\
      (fix go (l : list (string * def)) : Prop := match l with [] => True | nd :: r => def_ok (snd nd) /\ go r end) m
  | DProto _ _ m =>
      (fix go (l : list (string * def)) : Prop := match l with [] => True | nd :: r => def_ok (snd nd) /\ go r end) m
  | DField _ n t _ => wf t = true /\ 1 <= n <= 255
  | _ => True
  end.

Definition mems_ok (m : list (string * def)) : Prop := Forall (fun nd => def_ok (snd nd)) m.

Lemma mems_ok_fix m :
  (fix go (l : list (string * def)) : Prop := match l with [] => True | nd :: r => def_ok (snd nd) /\ go r end) m
  <-> mems_ok m.
Proof.
  unfold mems_ok. induction m as [|nd r IH]; [split; [constructor|exact (fun _ => I)]|].
  rewrite IH. split; [intros [H1 H2]; now constructor|intros H; inversion H; now split].
Qed.

Lemma assoc_ok m n d : mems_ok m -> assoc n m = Some d -> def_ok d.
Proof.
  unfold mems_ok. induction m as [|nd r IH]; cbn [assoc]; [discriminate|].
  intros H E. inversion H as [|? ? H1 H2]; subst. destruct (String.eqb (fst nd) n); [inversion E; now subst|now apply IH].
Qed.

Lemma def_members_ok d m : def_ok d -> def_members d = Some m -> mems_ok m.
Proof.
  destruct d; cbn [def_members def_ok]; try discriminate; intros H E; inversion E; subst;
    try (destruct H as [_ H]); now apply mems_ok_fix.
Qed.

Lemma get_member_ok p : forall m d, mems_ok m -> get_member m p = Some d -> def_ok d.
Proof.
  induction p as [|n rest IH]; intros m d Hm; cbn [get_member]; [discriminate|].
  destruct (assoc n m) as [d0|] eqn:Ea; [|discriminate]. pose proof (assoc_ok _ _ _ Hm Ea) as H0.
  destruct rest as [|n2 rest2]; [intros E; inversion E; now subst|].
  destruct (def_members d0) as [m'|] eqn:Em; [|discriminate].
  apply IH. now apply (def_members_ok d0).
Qed.

Definition stack_ok (st : list frame) : Prop := Forall (fun f => mems_ok (fmem f)) st.

Lemma lookup_ok st p d : stack_ok st -> lookup st p = Some d -> def_ok d.
Proof.
  induction st as [|f r IH]; cbn [lookup]; [discriminate|]. intros H. inversion H as [|? ? H1 H2]; subst.
  destruct (get_member (fmem f) p) as [d0|] eqn:E; [intros E2; inversion E2; subst; now apply (get_member_ok p (fmem f))|now apply IH].
Qed.

Lemma def_type_ok d t : def_ok d -> def_type d = Some t -> wf t = true.
Proof.
  destruct d; cbn [def_type def_ok]; try discriminate; intros H E; inversion E; subst; first [exact H | exact (proj1 H)].
Qed.

Lemma sty_ok_wf st s t r : stack_ok st -> sty_ok st s t r -> wf t = true.
Proof.
  intros Hs H. inversion H; subst; try reflexivity.
  - unfold width_ok in *. cbn [wf]. lia.
  - unfold width_ok in *. cbn [wf]. lia.
  - eapply def_type_ok; [|eassumption]. eapply lookup_ok; eassumption.
Qed.

Lemma tyx_ok_wf trad st t ty r : stack_ok st -> tyx_ok trad st t ty r -> wf ty = true.
Proof.
  intros Hs H. inversion H; subst; [now apply (sty_ok_wf st s ty r)|].
  cbn [wf]. unfold cap_ok in *. rewrite Z2Nat.id by lia.
  rewrite (sty_ok_wf st s t0 r Hs) by assumption. lia.
Qed.

(* scopes under construction *)
Definition frame_ok (f : frame) : Prop :=
  mems_ok (fmem f) /\
  match fk f with
  | FProto _ => True
  | FMsg _ _ => NoDup (field_numbers (fmem f))
  | FEnum _ n => width_ok n /\ forall v, In v (enum_values (fmem f)) -> 0 <= v < 2 ^ n
  end.

Lemma field_numbers_perm m m' : Permutation m m' -> Permutation (field_numbers m) (field_numbers m').
Proof. unfold field_numbers. apply Permutation_flat_map. Qed.

Lemma enum_values_perm m m' : Permutation m m' -> Permutation (enum_values m) (enum_values m').
Proof. unfold enum_values. apply Permutation_flat_map. Qed.

Lemma mems_ok_rev m : mems_ok m -> mems_ok (rev m).
Proof. unfold mems_ok. intros H. apply Forall_rev. exact H. Qed.

Lemma msg_fields_in_ok m kf : mems_ok m -> In kf (msg_fields m) -> 1 <= fst kf <= 255 /\ wf (snd kf) = true.
Proof.
  unfold mems_ok, msg_fields. intros Hm Hin. apply in_flat_map in Hin. destruct Hin as [nd [Hnd Hk]].
  rewrite Forall_forall in Hm. specialize (Hm nd Hnd). destruct (snd nd); try contradiction.
  destruct Hk as [<-|[]]. cbn [def_ok fst snd] in *. tauto.
Qed.

Section Items.
  Variable vc : list string -> string -> def -> Prop.
  Variable kf : string -> bool.
  Variable trad div0 : bool.
  Variable file : string.
  Variable fstack : list string.
  Hypothesis Hvc : forall stk g d, vc stk g d -> def_ok d.

  Lemma add_member_ok f n d : frame_ok f -> def_ok d ->
    (match fk f, d with
     | FMsg _ _, DField _ k _ _ => ~ In k (field_numbers (fmem f))
     | FEnum _ w, DEnumField _ v => 0 <= v < 2 ^ w
     | _, _ => True
     end) ->
    frame_ok (add_member f n d).
  Proof.
    intros [Hm Hk] Hd Hx. unfold frame_ok, add_member. cbn [fk fmem]. split; [now constructor|].
    destruct (fk f) as [pn|a x|a w].
    - exact I.
    - unfold field_numbers in *. cbn [flat_map snd]. destruct d; cbn [app]; try exact Hk. now constructor.
    - destruct Hk as [Hw Hv]. split; [exact Hw|]. unfold enum_values in *. cbn [flat_map snd].
      destruct d; cbn [app]; try exact Hv. intros v0 [<-|Hin]; [exact Hx|now apply Hv].
  Qed.

  (* a scope keeps its kind while its body is processed, up to the name a proto statement sets *)
  Definition erase (k : fkind) : fkind := match k with FProto _ => FProto None | _ => k end.

  Lemma add_member_kind f n d : erase (fk (add_member f n d)) = erase (fk f).
  Proof. reflexivity. Qed.

  Lemma empty_frame_ok k :
    match k with FEnum _ w => width_ok w | _ => True end -> frame_ok (mkframe k []).
  Proof. intros H. split; [constructor|]. destruct k; cbn [fk fmem]; [exact I|constructor|]. split; [exact H|intros v []]. Qed.

  Lemma ok_frame :
    (forall it outer cur cur', stack_ok outer -> frame_ok cur ->
       item_ok vc kf trad div0 file fstack outer cur it cur' -> frame_ok cur' /\ erase (fk cur') = erase (fk cur)) /\
    (forall its outer cur cur', stack_ok outer -> frame_ok cur ->
       items_ok vc kf trad div0 file fstack outer cur its cur' -> frame_ok cur' /\ erase (fk cur') = erase (fk cur)).
  Proof.
    apply item_list_ind;
      [intros l nm|intros l a g|intros l nm v|intros l nm v|intros l nm t|intros l nm b body IH
      |intros l nm x body IH|intros l t nm k|intros l nm v| |intros i r Hi Hr];
      intros outer cur cur' Ho Hc H; cbn [item_ok items_ok] in H.
    - destruct H as [[n E] ->]. destruct Hc as [Hm _]. split; [split; [exact Hm|exact I]|]. cbn [fk]. now rewrite E.
    - destruct H as [[pn E] [_ [_ [_ [child [name [Hv [_ [_ [_ ->]]]]]]]]]]. split; [|reflexivity].
      apply add_member_ok; [exact Hc|now apply (Hvc _ _ _ Hv)|]. rewrite E. exact I.
    - destruct H as [Hin [cv [_ [_ [_ ->]]]]]. split; [|reflexivity]. apply add_member_ok; [exact Hc|exact I|].
      destruct (fk cur); exact I.
    - destruct H as [Hin [cv [_ [_ ->]]]]. split; [|reflexivity].
      apply add_member_ok; [exact Hc|exact I|]. destruct (fk cur); exact I.
    - destruct H as [Hin [ty [r [Ht [_ [_ ->]]]]]]. split; [|reflexivity].
      apply add_member_ok; [exact Hc| |destruct (fk cur); exact I].
      cbn [def_ok]. apply (tyx_ok_wf trad (cur :: outer) t ty r); [|exact Ht]. constructor; [apply Hc|exact Ho].
    - destruct H as [Hin [w [fr [-> [Hw [Hb [_ ->]]]]]]]. split; [|reflexivity].
      apply inner_items_ok, IH in Hb; [|constructor; [apply Hc|exact Ho]|now apply empty_frame_ok].
      destruct Hb as [[Hm Hk] Efk].
      apply add_member_ok; [exact Hc| |destruct (fk cur); exact I].
      unfold close_enum. cbn [def_ok]. split; [|apply mems_ok_fix; now apply mems_ok_rev].
      destruct (fk fr) as [pn|a0 x0|a0 w0] eqn:E; cbn [erase fk] in Efk; try discriminate.
      inversion Efk; subst. destruct Hk as [Hw0 Hv]. cbn [wf]. unfold width_ok in Hw0.
      rewrite !andb_true_iff. repeat split; try lia.
      apply forallb_forall. intros v0 Hin0.
      assert (In v0 (enum_values (fmem fr))).
      { eapply Permutation_in; [|exact Hin0]. apply enum_values_perm. apply Permutation_sym, Permutation_rev. }
      specialize (Hv v0 H). lia.
    - destruct H as [Hin [Hx [fr [Hb Hrest]]]]. cbv zeta in Hrest. destruct Hrest as [Hs1 [Hs2 [_ ->]]].
      split; [|reflexivity].
      apply inner_items_ok, IH in Hb; [|constructor; [apply Hc|exact Ho]|now apply empty_frame_ok].
      destruct Hb as [[Hm Hk] Efk].
      apply add_member_ok; [exact Hc| |destruct (fk cur); exact I].
      cbn [def_ok]. split; [|apply mems_ok_fix; now apply mems_ok_rev].
      destruct (fk fr) as [pn|a0 x0|a0 w0] eqn:E; cbn [erase fk] in Efk; try discriminate.
      rewrite wf_msg, !andb_true_iff. repeat split.
      + apply keys_distinct_NoDup. rewrite msg_fields_keys.
        eapply Permutation_NoDup; [|exact Hk]. apply field_numbers_perm, Permutation_rev.
      + unfold msg_bits_ok in Hs1. lia.
      + apply fields_wf_forall. intros kf0 Hin0. apply (msg_fields_in_ok (rev (fmem fr))); [now apply mems_ok_rev|exact Hin0].
    - destruct H as [[a0 [x0 E]] [ty [r [Ht [Hn [Hu [_ ->]]]]]]]. split; [|reflexivity].
      apply add_member_ok; [exact Hc| |rewrite E; exact Hu].
      cbn [def_ok]. split; [|exact Hn].
      apply (tyx_ok_wf trad (cur :: outer) t ty r); [|exact Ht]. constructor; [apply Hc|exact Ho].
    - destruct H as [a0 [n0 [E [Hv [_ [_ ->]]]]]]. split; [|reflexivity].
      apply add_member_ok; [exact Hc|exact I|]. rewrite E. exact Hv.
    - subst. now split.
    - destruct H as [fm [H1 H2]]. destruct (Hi _ _ _ Ho Hc H1) as [Hf E1].
      destruct (Hr _ _ _ Ho Hf H2) as [Hf' E2]. split; [exact Hf'|congruence].
  Qed.
End Items.

Lemma file_ok_def_ok fs trad div0 : forall n fstack f d, file_ok n fs trad div0 fstack f d -> def_ok d.
Proof.
  induction n as [|n IH]; intros fstack f d H; [contradiction|].
  cbn [file_ok] in H. destruct H as [its [fr [name [_ [Hi [_ ->]]]]]].
  cbn [def_ok]. apply mems_ok_fix. apply mems_ok_rev.
  apply (proj2 (ok_frame (file_ok n fs trad div0) (known fs) trad div0 f (f :: fstack) IH)
           its [] (mkframe (FProto None) []) fr); [constructor|now apply empty_frame_ok|exact Hi].
Qed.

Theorem accepted_types_wf fs root trad e p t :
  check fs root trad = Ok e -> msg_ty_at (Ok e) p = Some t -> wf t = true /\ wf (norm t) = true.
Proof.
  intros H Hm. apply check_ok_iff_file_ok in H. destruct H as [n H]. apply file_ok_def_ok in H.
  assert (Hw : wf t = true).
  { destruct e; try discriminate. cbn [msg_ty_at] in Hm. cbn [def_ok] in H. apply mems_ok_fix in H.
    destruct (get_member mem p) as [d|] eqn:Eg; [|discriminate]. pose proof (get_member_ok p mem d H Eg) as Hd.
    destruct d; try discriminate. inversion Hm; subst. now destruct Hd. }
  split; [exact Hw|now apply wf_norm].
Qed.
