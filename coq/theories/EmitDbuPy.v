(* EmitDbuPy.v — C10_declared_before_use for the Python module and the Go file: names of other
   files are reached through the member name the import statement binds. *)
From Coq Require Import String Ascii List Bool Arith.
From BP Require Import EmitBase Emit EmitSpec EmitProofs EmitDbu EmitDbuMain.
From BPGen Require Import GenC10.
Import ListNotations.
Open Scope string_scope.
Open Scope list_scope.
Open Scope nat_scope.

Section PyGo.
Variables (s : schema) (i : nat) (flt : list string).
Hypothesis Hwf : wf s = true.
Hypothesis Hi : i < length s.
Variable t : target.
Hypothesis Ht : t = TgPy \/ t = TgGo.

Let L := lang_of t.
Let fl := flat_file (getf s i).
Let B := base_disp t.

Lemma L_member : import_as_member L = true.
Proof. unfold L. destruct Ht as [-> | ->]; reflexivity. Qed.
Lemma L_notC : L <> LC.
Proof. unfold L. destruct Ht as [-> | ->]; discriminate. Qed.

Lemma member_nonempty m j : In (m, j) (f_imports (getf s i)) -> m <> "".
Proof.
  intros Hin. pose proof (proj1 (wf_inv s i Hwf Hi)) as Hf. unfold file_wf in Hf.
  apply andb_true_iff in Hf. destruct Hf as [Hf _]. apply andb_true_iff in Hf. destruct Hf as [Hf _].
  rewrite forallb_forall in Hf. specialize (Hf (m, j) Hin). cbn [fst snd] in Hf.
  apply andb_true_iff in Hf. destruct Hf as [_ Hf]. apply negb_true_iff in Hf. intros ->. discriminate.
Qed.

Lemma module_exports j k : In k (map dkey (dispatcher s j flt B)) -> In k (exports (fuel_of s) s t flt j).
Proof.
  intros Hk. apply (exports_disp s t flt j B); [| |exact Hk]; unfold B; destruct Ht as [-> | ->]; vm_compute; auto 20.
Qed.

(* the names derived from an alias or an enum that the Python module declares next to it *)
Lemma related_from r x e :
  t = TgPy ->
  r_k r = RkAlias /\ (x = py_default_factory_name (ref_name s LPy r) \/ x = py_processor_name_alias (ref_name s LPy r)) \/
  r_k r = RkEnum /\ x = py_processor_name_enum (ref_name s LPy r) ->
  uses_ref s flt t B r (mkUse NsMod (rel_qual L r) x e).
Proof.
  intros Hpy Hx. split; [right; reflexivity|]. unfold B. rewrite Hpy. cbn [base_disp u_ns u_name].
  intros [pth d] H. destruct (targets_inv r pth d H) as [-> [Hn Hk]]. unfold ref_name, ref_px in Hx.
  destruct (r_k r), d as [n v | n ty | n w ms | n y nested fs]; try contradiction; cbn [def_name class_of_rk] in *; subst n;
    destruct Hx as [[Hr Hx] | [Hr Hx]]; try discriminate Hr; unfold_dispatch; unfold own_px; cbn [map dkey d_ns d_name mk mkm app].
  - subst x. right. rewrite map_app. apply in_or_app. right. cbn. auto.
  - destruct Hx as [-> | ->]; cbn; auto.
Qed.

Section Resolve.
Variables (seen all : list key) (imps : list (string * nat)) (fl1 : list fdef) (fd : fdef) (fl2 : list fdef).
Hypothesis E : fl = fl1 ++ fd :: fl2.
Hypothesis Hq : g_qualify L s i = true.
Hypothesis Hseen : incl (map dkey (flat_map (dispatch_one s i flt B) fl1)) seen.
Hypothesis Hall : incl seen all.
Hypothesis Himps : forall m j, In (m, j) (f_imports (getf s i)) -> In (m, j) imps.

(* a name of this file has been seen; for a top-level definition of a direct import both
   qualifiers are the member name the import statement binds *)
Lemma uses_ref_ok r u : In r (def_refs (fd_def fd)) -> uses_ref s flt t B r u -> amb s t flt all imps seen u.
Proof.
  intros Hr Hu S HS.
  assert (Hdirect : direct_ref r = true).
  { unfold g_qualify in Hq. pose proof L_notC as HnC.
    destruct L eqn:EL; try (exfalso; apply HnC; reflexivity); rewrite forallb_forall in Hq; apply Hq;
      apply (ref_in_file_refs s i fl1 fd fl2 r E Hr). }
  destruct (ref_decl s i flt Hwf Hi t B fl1 fd fl2 r u E Hr Hq Hu) as [[Hv H] | [m [Hv [Him H]]]];
    destruct Hu as [Hqu _]; unfold ref_qual, rel_qual, direct_ref in *; fold L in Hqu; rewrite L_member, Hv in *;
    destruct u as [n q x e]; cbn [u_ns u_name u_qual] in *.
  - assert (q = "") by (destruct (r_path r); destruct Hqu; assumption). subst q. apply Hseen in H.
    destruct e; [apply use_ok_eager, HS, H | apply use_ok_deferred, Hall, H].
  - destruct (r_path r); [|discriminate]. assert (q = m) by (destruct Hqu; assumption). subst q.
    apply (use_ok_qual s t flt S all imps n m x e (r_file r) (member_nonempty m _ Him) (Himps _ _ Him)), module_exports, H.
Qed.

(* [uses_of]: one of the functions that list the names a type expression mentions *)
Lemma refs_uses_ok (uses_of : tyx -> list use) :
  (forall ty u, In u (uses_of ty) -> exists r, In r (ty_refs ty) /\ uses_ref s flt t B r u) ->
  forall own ty, incl (ty_refs ty) (def_refs (fd_def fd)) -> Forall (use_in s t flt all imps seen own) (uses_of ty).
Proof.
  intros H own ty Hsub. apply use_in_amb, Forall_forall. intros u Hu. destruct (H ty u Hu) as [r [Hr Hf]].
  exact (uses_ref_ok r u (Hsub r Hr) Hf).
Qed.

End Resolve.
End PyGo.

Lemma all_keys_imports_nonC s t flt (l : list (string * nat)) (tg : string * nat -> string) :
  lang_of t <> LC -> all_keys s t flt (map (fun mj => IImport (fst mj) (tg mj) (snd mj)) l) = [].
Proof.
  intros H. unfold all_keys. induction l as [|x r IH]; [reflexivity|]. cbn [map flat_map].
  rewrite IH. destruct (lang_of t); [contradiction | reflexivity | reflexivity].
Qed.

Lemma imps_acc_imports t (l : list (string * nat)) (tg : string * nat -> string) : forall acc m j,
  lang_of t <> LC -> In (m, j) l -> In (m, j) (imps_acc t (map (fun mj => IImport (fst mj) (tg mj) (snd mj)) l) acc).
Proof.
  induction l as [|x r IH]; intros acc m j HL Hin; [contradiction|]. cbn [map imps_acc].
  destruct (lang_of t) eqn:EL; [contradiction | |];
    (destruct Hin as [-> | Hin]; [apply imps_acc_keeps; left; reflexivity | apply IH; assumption]).
Qed.

Lemma dbu_imports_disp s i flt t (tg : string * nat -> string) (mid : list decl) :
  lang_of t <> LC -> (forall d, In d mid -> d_uses d = []) ->
  (forall seen all imps fl1 fd fl2,
     flat_file (getf s i) = fl1 ++ fd :: fl2 ->
     incl (map dkey (flat_map (dispatch_one s i flt (base_disp t)) fl1)) seen -> incl seen all ->
     incl (map dkey (dispatch_one s i flt (base_disp t) fd)) all ->
     (forall m j, In (m, j) (f_imports (getf s i)) -> In (m, j) imps) ->
     dbu_go s t flt all seen imps (map IDecl (dispatch_one s i flt (base_disp t) fd)) = true) ->
  dbu_b s t flt (map (fun mj => IImport (fst mj) (tg mj) (snd mj)) (f_imports (getf s i))
                 ++ map IDecl mid ++ disp s i flt (base_disp t)) = true.
Proof.
  intros HL Hmid Hblk. unfold dbu_b. set (all := all_keys s t flt _).
  assert (Eall : all = map dkey mid ++ map dkey (dispatcher s i flt (base_disp t))).
  { unfold all, disp.
    rewrite !all_keys_app, !all_keys_decls, all_keys_imports_nonC by exact HL. reflexivity. }
  rewrite !dbu_go_app. split_and; [apply dbu_go_imports_map|]. split_and.
  { apply block_dbu, block_ok_all.
    intros d Hd. rewrite (Hmid d Hd). constructor. }
  unfold disp, dispatcher. apply dbu_go_flat_map. intros fl1 fd fl2 E.
  destruct (dkey_flat_map_incl (dispatch_one s i flt (base_disp t)) _ fl1 fd fl2 E) as [Hpre Hown].
  rewrite all_keys_imports_nonC, all_keys_decls, imps_acc_decls by exact HL. cbn [app].
  apply (Hblk _ all _ fl1 fd fl2 E).
  - apply incl_appr, incl_refl.
  - rewrite Eall. apply incl_app; [apply incl_appl, incl_refl | apply incl_appr, Hpre].
  - rewrite Eall. apply incl_appr, Hown.
  - intros m j Hin. apply imps_acc_imports; [exact HL | exact Hin].
Qed.

Lemma py_type_uses_from s flt e ty u :
  In u (py_type_uses s e ty) -> exists r, In r (ty_refs ty) /\ uses_ref s flt TgPy P_BoundDefinitionList r u.
Proof.
  induction ty as [b | r | el IH cap x]; cbn [py_type_uses ty_refs]; intros H; [contradiction | |].
  - destruct H as [<- | []]. exists r. split; [left; reflexivity | apply (type_from s flt TgPy)].
  - destruct (is_byte el); [contradiction | apply IH; exact H].
Qed.

Lemma py_defval_from s flt e ty u :
  In u (opt_uses (py_defval s e ty)) -> exists r, In r (ty_refs ty) /\ uses_ref s flt TgPy P_BoundDefinitionList r u.
Proof.
  induction ty as [b | r | el IH cap x]; cbn [py_defval ty_refs]; intros H; [contradiction | |].
  - exists r. split; [left; reflexivity|]. destruct (r_k r) eqn:Ek.
    + destruct (enum_members s r) as [[|m ms]|]; try contradiction. destruct H as [<- | []]. apply (type_from s flt TgPy).
    + destruct H as [<- | []]. apply (type_from s flt TgPy).
    + destruct H as [<- | []]. apply (related_from s flt TgPy); auto.
  - destruct (is_byte el); [contradiction | apply IH; exact H].
Qed.

Lemma py_proc_uses_from s flt ty u :
  In u (py_proc_uses s ty) -> exists r, In r (ty_refs ty) /\ uses_ref s flt TgPy P_BoundDefinitionList r u.
Proof.
  induction ty as [b | r | el IH cap x]; cbn [py_proc_uses ty_refs]; intros H; [contradiction | | apply IH; exact H].
  exists r. split; [left; reflexivity|].
  destruct (r_k r) eqn:Ek; destruct H as [<- | []]; [apply (related_from s flt TgPy) | apply (type_from s flt TgPy) | apply (related_from s flt TgPy)]; auto.
Qed.

Lemma go_type_uses_from s flt ty u :
  In u (go_type_uses s ty) -> exists r, In r (ty_refs ty) /\ uses_ref s flt TgGo G_BoundDefinitionList r u.
Proof.
  induction ty as [b | r | el IH cap x]; cbn [go_type_uses ty_refs]; intros H; [contradiction | | apply IH; exact H].
  destruct H as [<- | []]. exists r. split; [left; reflexivity | apply (type_from s flt TgGo)].
Qed.

Section Py.
Variables (s : schema) (i : nat) (flt : list string).
Hypothesis Hwf : wf s = true.
Hypothesis Hi : i < length s.
Hypothesis Hq : g_qualify LPy s i = true.

Let fl := flat_file (getf s i).
Let HtPy : TgPy = TgPy \/ TgPy = TgGo := or_introl eq_refl.

Lemma py_block seen all imps fl1 fd fl2 :
  fl = fl1 ++ fd :: fl2 ->
  incl (map dkey (flat_map (dispatch_one s i flt P_BoundDefinitionList) fl1)) seen ->
  incl seen all ->
  (forall m j, In (m, j) (f_imports (getf s i)) -> In (m, j) imps) ->
  dbu_go s TgPy flt all seen imps (map IDecl (dispatch_one s i flt P_BoundDefinitionList fd)) = true.
Proof.
  intros E Hseen Hall Himps.
  pose proof (refs_uses_ok s i flt Hwf Hi TgPy HtPy seen all imps fl1 fd fl2 E Hq Hseen Hall Himps) as ok.
  pose proof (fun e => ok _ (py_type_uses_from s flt e)) as type_ok.
  pose proof (fun e => ok _ (py_defval_from s flt e)) as defval_ok.
  pose proof (ok _ (py_proc_uses_from s flt)) as proc_ok. clear ok.
  apply block_dbu.
  clear E. destruct fd as [pth d]. cbn [fd_def] in *.
  destruct d as [n v | n ty | n w ms | n x nested fs]; unfold_dispatch.
  - repeat constructor.
  - (* alias: the factory calls the alias's own name *)
    cbn [block_ok mk d_uses def_refs] in *.
    repeat split; [apply type_ok | apply proc_ok | apply Forall_cons; [apply use_in_own; cbn; auto | apply defval_ok]];
      apply incl_refl.
  - (* enum: the members and the value map name the class, which stands first *)
    apply block_ok_app with (a := [_]); [repeat constructor|]. apply block_ok_all. intros d Hd.
    assert (Hd' : d_uses d = [] \/ d_uses d = [mkUse NsMod "" (dname LPy KEnum "" pth n) true]).
    { apply in_app_or in Hd. destruct Hd as [Hd | [<- | [<- | []]]]; auto.
      apply in_map_iff in Hd. destruct Hd as [m [<- _]]. auto. }
    destruct Hd' as [-> | ->]; repeat (apply Forall_cons || apply Forall_nil). apply use_in_own. left. reflexivity.
  - cbn [block_ok mkm d_uses]. split; [|exact I].
    assert (Hsf : forall fld, In fld (sort_fl fs) -> incl (ty_refs (fl_ty fld)) (def_refs (DMsg n x nested fs))).
    { intros fld Hfld r Hr. cbn [def_refs]. apply in_flat_map. exists fld. split; [apply in_sort_fl; exact Hfld | exact Hr]. }
    rewrite !Forall_app, !Forall_flat_map, !Forall_forall. repeat split; intros fld Hfld.
    + apply type_ok, Hsf, Hfld.
    + unfold py_field_default. destruct (is_arr (fl_ty fld)); apply defval_ok, Hsf, Hfld.
    + apply proc_ok, Hsf, Hfld.
Qed.

Theorem dbu_TgPy : dbu_b s TgPy flt (render_items s i TgPy flt) = true.
Proof.
  rewrite items_TgPy. apply (dbu_imports_disp s i flt TgPy _ []); [discriminate | intros d [] |].
  intros seen all imps fl1 fd fl2 E Hseen Hall _ Himps. apply (py_block seen all imps fl1 fd fl2 E Hseen Hall Himps).
Qed.

End Py.

(* Go: package-level declarations are visible anywhere in the file *)

Section Go.
Variables (s : schema) (i : nat) (flt : list string).
Hypothesis Hwf : wf s = true.
Hypothesis Hi : i < length s.
Hypothesis Hq : g_qualify LGo s i = true.

Let fl := flat_file (getf s i).
Let HtGo : TgGo = TgPy \/ TgGo = TgGo := or_intror eq_refl.

Lemma go_block seen all imps fl1 fd fl2 :
  fl = fl1 ++ fd :: fl2 ->
  incl (map dkey (flat_map (dispatch_one s i flt G_BoundDefinitionList) fl1)) seen -> incl seen all ->
  incl (map dkey (dispatch_one s i flt G_BoundDefinitionList fd)) all ->
  (forall m j, In (m, j) (f_imports (getf s i)) -> In (m, j) imps) ->
  dbu_go s TgGo flt all seen imps (map IDecl (dispatch_one s i flt G_BoundDefinitionList fd)) = true.
Proof.
  intros E Hseen Hall Hown Himps.
  pose proof (refs_uses_ok s i flt Hwf Hi TgGo HtGo seen all imps fl1 fd fl2 E Hq Hseen Hall Himps _
                (go_type_uses_from s flt) []) as tyok.
  apply block_dbu, block_ok_all.
  (* a method, and a member of an enum, names its own type: declared in this block, and any
     package-level name may be used anywhere in the file *)
  assert (Hself : forall gn, In (NsMod, gn) (map dkey (dispatch_one s i flt G_BoundDefinitionList fd)) ->
            Forall (use_in s TgGo flt all imps seen []) [mkUse NsMod "" gn false]).
  { intros gn Hgn. repeat constructor. intros S _. apply use_ok_deferred, Hown, Hgn. }
  clear E Hown. destruct fd as [pth d]. cbn [fd_def] in *.
  destruct d as [n v | n ty | n w ms | n x nested fs]; unfold dispatch_one in *;
    cbn [fd_def dkind_of dispatch dispatch_filtered andb def_blocks expand blocks_of flat_map app leaf fd_path map dkey mk mkm d_ns d_name] in *;
    intros d Hd; try (assert (Hme := Hself _ (or_introl eq_refl)); clear Hself).
  - destruct Hd as [<- | []]. constructor.
  - destruct Hd as [<- | [<- | []]]; [apply tyok, incl_refl | exact Hme].
  - destruct Hd as [<- | Hd]; [constructor|]. apply in_app_or in Hd.
    destruct Hd as [Hd | [<- | [<- | []]]]; try exact Hme. apply in_map_iff in Hd. destruct Hd as [m [<- _]]. exact Hme.
  - destruct Hd as [<- | Hd].
    + apply Forall_flat_map, Forall_forall. intros fld Hfld. apply tyok. intros r Hr. cbn [def_refs]. apply in_flat_map.
      exists fld. split; [apply in_sort_fl; exact Hfld | exact Hr].
    + repeat (destruct Hd as [<- | Hd]; [first [exact Hme | constructor]|]). contradiction.
Qed.

Theorem dbu_TgGo : dbu_b s TgGo flt (render_items s i TgGo flt) = true.
Proof.
  rewrite items_TgGo.
  apply (dbu_imports_disp s i flt TgGo); [discriminate | intros d [<- | [<- | []]]; reflexivity | exact go_block].
Qed.

End Go.
