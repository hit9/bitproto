(* LRConcrete.v — the per-run obligations over the tables ply builds from /repo's CURRENT grammar
   (gen/GenLR.v, regenerated on every check) and the generic theorems instantiated with them; terminals and
   productions looked up by name ([term_id], [P]); the text path ([text_tokens]) and what the grammar says of
   COMMENT. *)
From Coq Require Import List Bool.
From BP Require Import LR LRProofs.
From BPGen Require Import GenLR.
Import ListNotations.

(* [vm_cast_no_check] only writes the VM cast into the proof term; the kernel evaluates the validator when
   it checks that term at Qed (and coqchk again): once, where [vm_compute; reflexivity] costs two evaluations *)
Lemma tables_valid : validate grammar tables hints = true.
Proof. vm_cast_no_check (eq_refl true). Qed.

Lemma ranking_valid : validate_rank tables hints rank_tab n_terms rank_weight rank_bound = true.
Proof. vm_cast_no_check (eq_refl true). Qed.

Lemma start_is : start_of grammar = Some start_symbol.
Proof. reflexivity. Qed.

(* fuel that always suffices for an input of n tokens; [rank_weight], [rank_bound] are the W and R of the ranking
   argument (LRProofs, at Section Ranked) *)
Definition fuel_for (n : nat) : nat := lr_bound rank_weight rank_bound n.

(* the parser as the other modules use it *)
Definition parse (ts : list nat) : result := lr_run tables (fuel_for (length ts)) ts.

Theorem accepted_documented : forall fuel ts rs, ~ In eof ts ->
  lr_run tables fuel ts = Accept rs ->
  sr grammar [NT start_symbol] ts rs /\
  derives grammar [NT start_symbol] ts /\
  rm_check grammar start_symbol rs ts = true.
Proof.
  intros fuel ts rs N0 R.
  pose proof (lr_sound _ _ _ tables_valid _ _ _ _ start_is N0 R) as D.
  split; [exact D|]. split.
  - exact (sr_derives _ _ _ _ D).
  - apply sr_rm_check. exact D.
Qed.

Theorem error_prefix : forall fuel ts idx tok rs, lr_run tables fuel ts = SyntaxError idx tok rs ->
  (exists syms, sr grammar syms (firstn idx ts) rs) /\
  (nth_error ts idx = Some tok \/ (idx = length ts /\ tok = eof)).
Proof. exact (lr_error_prefix _ _ _ tables_valid). Qed.

Theorem no_crash : forall fuel ts e rs, lr_run tables fuel ts <> Crash e rs.
Proof. exact (lr_safe _ _ _ tables_valid). Qed.

Theorem terminates : forall ts, parse ts <> OutOfFuel.
Proof. exact (lr_terminates _ _ _ tables_valid _ _ _ _ ranking_valid). Qed.

Theorem total : forall ts,
  (exists rs, parse ts = Accept rs) \/ (exists idx tok rs, parse ts = SyntaxError idx tok rs).
Proof. exact (lr_total _ _ _ tables_valid _ _ _ _ ranking_valid). Qed.

Theorem parse_any_fuel : forall ts fuel, fuel_for (length ts) <= fuel -> lr_run tables fuel ts = parse ts.
Proof.
  intros ts fuel L. unfold lr_run. eapply run_more_fuel; [reflexivity | apply terminates | exact L].
Qed.

(* terminal numbers by name (None when the name is not a terminal) *)
Fixpoint index_of (s : String.string) (l : list String.string) (i : nat) : option nat :=
  match l with
  | [] => None
  | x :: r => if String.eqb x s then Some i else index_of s r (S i)
  end.
Definition term_id (s : String.string) : nat :=
  match index_of s term_names 0 with Some i => i | None => n_terms end.

Definition nt_id (s : String.string) : nat :=
  match index_of s nonterm_names 0 with Some i => i | None => 999 end.

Definition sym_of (s : String.string) : symbol :=
  match index_of s term_names 0 with
  | Some i => T i
  | None => NT (nt_id s)
  end.

Fixpoint syms_eqb (a b : list symbol) : bool :=
  match a, b with
  | [], [] => true
  | x :: a', y :: b' => symbol_eqb x y && syms_eqb a' b'
  | _, _ => false
  end.

(* productions by content (lhs name, rhs symbol names): 999 when the grammar has no such rule *)
Fixpoint find_prod_in (lhs : nat) (rhs : list symbol) (g : LR.grammar) (i : nat) : nat :=
  match g with
  | [] => 999
  | (l, r) :: g' => if Nat.eqb l lhs && syms_eqb r rhs then i else find_prod_in lhs rhs g' (S i)
  end.

Definition P (lhs : String.string) (rhs : list String.string) : nat :=
  find_prod_in (nt_id lhs) (map sym_of rhs) grammar 0.

(* the text path: Parser.parse_string terminates the last line before parsing (when the translated
   flag GenLR.appends_final_newline says so).  At the token level: a text that does not end in a
   newline character gets one NEWLINE token appended (this level starts from token types: the tokenizer model,
   Lex.v, is not composed with it; T2 compares this with the tokens ply really fetched on every
   text case). *)
From Coq Require Import String.
Definition t_newline : nat := term_id "NEWLINE"%string.

Definition text_tokens (raw : list nat) (ends_nl : bool) : list nat :=
  if appends_final_newline && negb ends_nl then raw ++ [t_newline] else raw.

Definition parse_text (raw : list nat) (ends_nl : bool) : result := parse (text_tokens raw ends_nl).

(* in every accepted token sequence each COMMENT is immediately followed by NEWLINE (the only rule
   with COMMENT is `comment : COMMENT NEWLINE`, checked on the CURRENT grammar by vm_compute) *)
Definition t_comment : nat := term_id "COMMENT"%string.

Lemma comment_rule : grammar_followed t_comment t_newline grammar = true.
Proof. vm_cast_no_check (eq_refl true). Qed.

Theorem accepted_comment_newline : forall fuel ts rs, ~ In eof ts ->
  lr_run tables fuel ts = Accept rs -> followed t_comment t_newline ts = true.
Proof.
  intros fuel ts rs N0 R. destruct (accepted_documented _ _ _ N0 R) as [_ [D _]].
  exact (derives_followed _ _ _ comment_rule _ _ D eq_refl).
Qed.

Theorem trailing_comment_rejected : forall fuel ts rs, ~ In eof ts ->
  lr_run tables fuel (ts ++ [t_comment]) <> Accept rs.
Proof.
  intros fuel ts rs N0 R.
  assert (N1 : ~ In eof (ts ++ [t_comment])).
  { intro I. apply in_app_or in I. destruct I as [I|[I|[]]]; [exact (N0 I)|]. vm_compute in I. discriminate. }
  pose proof (accepted_comment_newline _ _ _ N1 R) as F. rewrite followed_last in F. discriminate.
Qed.

Theorem text_tokens_end_newline : appends_final_newline = true ->
  forall raw, last (text_tokens raw false) eof = t_newline.
Proof.
  intros A raw. unfold text_tokens. rewrite A. cbn [negb andb]. apply last_last.
Qed.
