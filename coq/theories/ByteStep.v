(* ByteStep.v — the byte-local facts about the TRANSLATED helpers of bp.py
   (BPGen.GenPy, regenerated every run): what one encode or decode step moves, for all
   integers. *)
From Coq Require Import ZArith List Lia.
From BP Require Import Bits.
From BPGen Require Import GenPy.
Import ListNotations.
Open Scope Z_scope.

Lemma smart_shift_shiftr n k : smart_shift n k = Z.shiftr n k.
Proof.
  unfold smart_shift. destruct (Z.gtb_spec k 0); [reflexivity|].
  destruct (Z.ltb_spec k 0).
  - rewrite <- Z.shiftr_opp_r. f_equal. lia.
  - replace k with 0 by lia. symmetry. apply Z.shiftr_0_r.
Qed.

Lemma get_mask_formula k c : 0 <= k -> 0 <= c -> get_mask k c = (2 ^ c - 1) * 2 ^ k.
Proof.
  intros Hk Hc. unfold get_mask. rewrite !Z.shiftl_1_l.
  destruct (Z.eqb_spec k 0) as [->|_]; [change (2 ^ 0) with 1; lia|].
  replace (k + 1 + c - 1) with (k + c) by lia. replace (k + 1 - 1) with k by lia.
  rewrite Z.pow_add_r by lia. ring.
Qed.

Lemma enc_d_spec b ci j c :
  0 <= c -> enc_d b ci j c = (Z.shiftr b (j mod 8) mod 2 ^ c) * 2 ^ (ci mod 8).
Proof.
  intros Hc. pose proof (Z.mod_pos_bound ci 8 ltac:(lia)). unfold enc_d.
  rewrite smart_shift_shiftr, get_mask_formula by lia. apply land_shiftr_mask; lia.
Qed.

Lemma dec_d_enc_d b ci j c : dec_d b ci j c = enc_d b j ci c.
Proof. reflexivity. Qed.

Lemma nbits_to_copy_range i j n :
  0 <= j < n ->
  1 <= get_nbits_to_copy i j n /\ get_nbits_to_copy i j n <= n - j /\
  get_nbits_to_copy i j n <= 8 - j mod 8 /\ get_nbits_to_copy i j n <= 8 - i mod 8.
Proof.
  intros H. unfold get_nbits_to_copy.
  pose proof (Z.mod_pos_bound j 8 ltac:(lia)). pose proof (Z.mod_pos_bound i 8 ltac:(lia)).
  lia.
Qed.

Lemma int8_spec x : 0 <= x < 256 -> int8 x = if x <? 128 then x else x - 256.
Proof. reflexivity. Qed.
