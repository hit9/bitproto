(* PyEncProofs.v — the Python encoder model (PyRt.p_enc over the renderer model proc_of)
   produces exactly Spec.enc_bits at the cursor, for every schema tree and every value of
   its shape, integer leaves holding ANY integer (shape_ty; the in-range case has_ty is a
   corollary): induction over [ty], no bound on nesting, widths, capacities. *)
From Coq Require Import ZArith List Bool Lia.
From BP Require Import ListFacts Bits Schema Spec PyRt PyEncStep.
From BP Require Export SchemaFacts.
From BPGen Require Import GenPy.
Import ListNotations.
Open Scope Z_scope.

Definition p_enc_fields (c' : cls) (acc' : val) :=
  fix go (l : list (Z * proc)) (x : ctx) : res ctx :=
    match l with
    | [] => Ok x
    | kf :: r => x' <- p_enc (snd kf) c' acc' (fst kf) [] x ;; go r x'
    end.

Definition p_enc_arr (e : proc) (c : cls) (acc : val) (fn : Z) (stk : list nat) :=
  fix loop (m k : nat) (x : ctx) : res ctx :=
    match m with
    | O => Ok x
    | S m' => x' <- p_enc e c acc fn (stk ++ [k]) x ;; loop m' (S k) x'
    end.

Definition map_proc :=
  fix go (l : list (Z * ty)) : list (Z * proc) :=
    match l with
    | [] => []
    | kf :: r => (fst kf, proc_of (snd kf)) :: go r
    end.

Definition fields_wf :=
  fix go (l : list (Z * ty)) : bool :=
    match l with
    | [] => true
    | kf :: r => (1 <=? fst kf) && (fst kf <=? 255) && wf (snd kf) && go r
    end.

Lemma p_enc_msg x nb fs c' c acc fn stk x0 :
  p_enc (PMsg x nb fs c') c acc fn stk x0 =
  (acc' <- (if di_is_valid fn then get_accessor c acc fn stk else Ok acc) ;;
   x1 <- (if x then enc_ahead nb x0 else Ok x0) ;;
   p_enc_fields c' acc' fs x1).
Proof. reflexivity. Qed.

Lemma p_enc_array x cap e c acc fn stk x0 :
  p_enc (PArray x cap e) c acc fn stk x0 =
  (x1 <- (if x then enc_ahead (Z.of_nat cap) x0 else Ok x0) ;;
   p_enc_arr e c acc fn stk cap O x1).
Proof. reflexivity. Qed.

Lemma proc_of_msg x fs :
  proc_of (TMsg x fs) = PMsg x (nbits (TMsg x fs)) (map_proc fs) (cls_of fs).
Proof. reflexivity. Qed.

Lemma wf_msg x fs :
  wf (TMsg x fs) =
  keys_distinct (map fst fs) && (nbits (TMsg x fs) <=? 65535) && fields_wf fs.
Proof. reflexivity. Qed.

Lemma fields_nbits_nonneg l : fields_wf l = true -> 0 <= fields_nbits l.
Proof.
  induction l as [|kf r IH]; cbn [fields_wf]; intros H; [cbn; lia|].
  rewrite !andb_true_iff in H. destruct H as [[_ Hw] Hr].
  rewrite fields_nbits_cons. pose proof (nbits_nonneg _ Hw). specialize (IH Hr). lia.
Qed.

Lemma lookup_filter_map {B} (f : Z * ty -> option (Z * B)) (fs : list (Z * ty)) k ft :
  keys_distinct (map fst fs) = true -> In (k, ft) fs ->
  (forall kf b, f kf = Some b -> fst b = fst kf) ->
  lookup k (filter_map f fs) = option_map snd (f (k, ft)).
Proof.
  intros Hd Hin Hf. apply keys_distinct_NoDup in Hd.
  assert (Hstep : forall h r, fst h <> k -> lookup k (filter_map f (h :: r)) = lookup k (filter_map f r)).
  { intros h r Hne. cbn [filter_map]. destruct (f h) as [b|] eqn:E; [|reflexivity].
    cbn [lookup]. rewrite (Hf _ _ E). now destruct (Z.eqb_spec (fst h) k). }
  induction fs as [|h r IH]; [destruct Hin|]. cbn [map] in Hd. inversion Hd as [|? ? Hn Hr]; subst.
  destruct Hin as [->|Hin].
  - cbn [filter_map]. destruct (f (k, ft)) as [b|] eqn:E; cbn [lookup option_map].
    + rewrite (Hf _ _ E). cbn [fst]. now rewrite Z.eqb_refl.
    + (* k does not occur in r *)
      clear IH Hr Hd. cbn [fst] in Hn. induction r as [|h2 r2 IH2]; [reflexivity|]. cbn [map In] in Hn.
      rewrite Hstep; [apply IH2|]; tauto.
  - rewrite Hstep; [now apply IH|]. intros E. apply Hn. rewrite E. exact (in_map fst _ _ Hin).
Qed.

(* what cls_of holds at the number of a field: each table as a function of the field's type *)
Lemma cls_lookup fs k ft :
  keys_distinct (map fst fs) = true -> In (k, ft) fs ->
  let c := cls_of fs in
  lookup k (c_get c) =
    option_map (fun a => {| g_depth := fst a; g_bool := match snd a with TBool => true | _ => false end |})
               (leaf_of ft 0) /\
  lookup k (c_set c) =
    option_map (fun a => {| s_depth := fst a;
                            s_kind := match snd a with
                                      | TBool => SKBool
                                      | TInt n => SKCast (int_storage_bits n)
                                      | TEnum _ _ => match fst a with O => SKProxy | _ => SKInt end
                                      | _ => SKInt
                                      end |}) (leaf_of ft 0) /\
  lookup k (c_int c) =
    match leaf_of ft 0 with
    | Some (d, TInt n) => if is_std_width n then None
                          else Some {| i_depth := d; i_shift := n - 1; i_mask := Z.lnot (Z.shiftl 1 n - 1) |}
    | _ => None
    end /\
  lookup k (c_acc c) = msg_depth_of ft 0 /\
  lookup k (c_proxy c) = match ft with TEnum _ ms => Some ms | _ => None end.
Proof.
  intros Hd Hin c. unfold c, cls_of. cbn [c_get c_set c_int c_acc c_proxy].
  rewrite !(lookup_filter_map _ fs k ft Hd Hin); cbn [fst snd].
  - repeat split.
    + destruct (leaf_of ft 0) as [[d lt]|]; reflexivity.
    + destruct (leaf_of ft 0) as [[d lt]|]; reflexivity.
    + destruct (leaf_of ft 0) as [[d [| | |n| | | |]]|]; try reflexivity. destruct (is_std_width n); reflexivity.
    + destruct (msg_depth_of ft 0); reflexivity.
    + destruct ft; reflexivity.
  - intros kf b Hb. destruct (snd kf); inversion Hb; reflexivity.
  - intros kf b Hb. destruct (msg_depth_of (snd kf) 0); inversion Hb; reflexivity.
  - intros kf b Hb. destruct (leaf_of (snd kf) 0) as [[? [| | |n| | | |]]|]; try discriminate.
    destruct (is_std_width n); inversion Hb; reflexivity.
  - intros kf b Hb. destruct (leaf_of (snd kf) 0) as [[? ?]|]; inversion Hb; reflexivity.
  - intros kf b Hb. destruct (leaf_of (snd kf) 0) as [[? ?]|]; inversion Hb; reflexivity.
Qed.

Lemma stack_prefix_full stk : stack_prefix stk (length stk) = Ok stk.
Proof. induction stk as [|k r IH]; [reflexivity|]. cbn [length stack_prefix]. now rewrite IH. Qed.

Lemma index_val_app v s1 s2 :
  index_val v (s1 ++ s2) = (w <- index_val v s1 ;; index_val w s2).
Proof.
  revert v; induction s1 as [|k r IH]; intros v; [reflexivity|].
  cbn [app index_val]. destruct v; try reflexivity.
  destruct (nth_error l k); [apply IH|reflexivity].
Qed.

(* reach: what the walker may assume about the accessor at a position: inside field number fn,
   below the array indices stk, the getters of c return v (leaf bytes, element k of an array,
   the child message).  [reach_tables] says which table entries give that, [reach_field] that
   cls_of holds them.  (The decoder's counterpart PyDecProofs.dreach speaks of table entries
   only: a decoder reads no value, it writes into one of its own.) *)

Fixpoint reach (t : ty) (c : cls) (acc : val) (fn : Z) (stk : list nat) (v : val) {struct t} : Prop :=
  match t with
  | TAlias t' => reach t' c acc fn stk v
  | TArr _ cap e =>
      forall k, (k < cap)%nat -> reach e c acc fn (stk ++ [k]) (nth k (vlist v) (VZ 0))
  | TMsg _ _ => (if di_is_valid fn then get_accessor c acc fn stk else Ok acc) = Ok v
  | _ => forall r, 0 <= r -> get_byte c acc fn stk r = Ok (Z.land (Z.shiftr (zof v) r) 255)
  end.

Definition is_leaf (t : ty) : bool :=
  match t with TBool | TByte | TUint _ | TInt _ | TEnum _ _ => true | _ => false end.

Definition proxy_ok (ft : ty) (fv : val) : Prop :=
  match ft with
  | TEnum _ ms => exists z, fv = VZ z /\ is_member z ms = true
  | _ => True
  end.

Lemma read_attr_ok fs vs k ft fv :
  keys_distinct (map fst fs) = true -> In (k, ft) fs -> lookup k vs = Some fv ->
  proxy_ok ft fv -> read_attr (cls_of fs) (VM vs) k = Ok fv.
Proof.
  intros Hd Hin Hl Hp. destruct (cls_lookup fs k ft Hd Hin) as (_ & _ & _ & _ & Hx).
  unfold read_attr. rewrite Hl, Hx.
  destruct ft; try reflexivity. destruct Hp as (z & -> & Hm). now rewrite Hm.
Qed.

Lemma shape_ty_leaf_int t v : is_leaf t = true -> shape_ty t v = true -> int_of v = Ok (zof v).
Proof. destruct t, v; cbn; intros; try discriminate; reflexivity. Qed.

Lemma leaf_of_leaf t d : is_leaf t = true -> leaf_of t d = Some (d, t).
Proof. destruct t; cbn; intros; try discriminate; reflexivity. Qed.

Lemma msg_depth_leaf t d : is_leaf t = true -> msg_depth_of t d = None.
Proof. destruct t; cbn; intros; try discriminate; reflexivity. Qed.

(* reach for any class, through the model's own address functions: c's getter holds the depth of
   the leaf that leaf_of finds below t, its accessor table that of the message msg_depth_of finds;
   attribute fn of acc reads as a, and v is what a holds at stk *)
Lemma reach_tables c acc fn a :
  read_attr c acc fn = Ok a -> 1 <= fn ->
  forall t stk v,
    (forall d lt, leaf_of t (length stk) = Some (d, lt) ->
                  option_map g_depth (lookup fn (c_get c)) = Some d) ->
    (forall d, msg_depth_of t (length stk) = Some d -> lookup fn (c_acc c) = Some d) ->
    index_val a stk = Ok v -> shape_ty t v = true ->
    reach t c acc fn stk v.
Proof.
  intros Ha Hfn.
  assert (Ref : forall stk v, index_val a stk = Ok v -> read_ref c acc fn stk (length stk) = Ok v).
  { intros stk v Hi. unfold read_ref. rewrite stack_prefix_full, Ha. exact Hi. }
  assert (Leaf : forall t stk v, is_leaf t = true ->
            option_map g_depth (lookup fn (c_get c)) = Some (length stk) ->
            index_val a stk = Ok v -> shape_ty t v = true -> reach t c acc fn stk v).
  { intros t stk v Hleaf Hg Hi Ht. destruct t; try discriminate; cbn [reach]; intros r Hr;
      unfold get_byte; destruct (lookup fn (c_get c)) as [e|]; try discriminate; injection Hg as ->;
      rewrite (Ref _ _ Hi); cbn [bind]; now rewrite (shape_ty_leaf_int _ v Hleaf Ht). }
  induction t as [| | n | n | n ms | t IH | x c0 e IH | x fs' IH] using ty_ind';
    intros stk v HL HM Hi Ht; try (apply Leaf; [reflexivity|exact (HL _ _ eq_refl)|assumption..]).
  - cbn [reach]. apply IH; assumption.
  - cbn [reach]. intros j Hj. cbn [shape_ty] in Ht.
    destruct v as [?|?|l|?]; try discriminate.
    rewrite andb_true_iff in Ht. destruct Ht as [Hlen Hall]. apply Nat.eqb_eq in Hlen.
    rewrite forallb_forall in Hall. cbn [vlist].
    assert (Hnth : nth_error l j = Some (nth j l (VZ 0))) by (apply nth_error_nth'; lia).
    apply IH.
    + rewrite app_length, Nat.add_1_r. exact HL.
    + rewrite app_length, Nat.add_1_r. exact HM.
    + rewrite index_val_app, Hi. cbn [bind index_val]. now rewrite Hnth.
    + apply Hall. eapply nth_error_In; eassumption.
  - cbn [reach]. replace (di_is_valid fn) with true by (unfold di_is_valid; symmetry; lia).
    unfold get_accessor. rewrite (HM _ eq_refl). now apply Ref.
Qed.

Lemma shape_ty_enum_proxy ft fv : shape_ty ft fv = true -> proxy_ok ft fv.
Proof.
  destruct ft; cbn [proxy_ok]; auto. cbn [shape_ty]. destruct fv; try discriminate.
  intros H. eexists; split; [reflexivity|exact H].
Qed.

Lemma reach_field fs vs k ft fv :
  keys_distinct (map fst fs) = true -> In (k, ft) fs -> lookup k vs = Some fv ->
  shape_ty ft fv = true -> 1 <= k ->
  reach ft (cls_of fs) (VM vs) k [] fv.
Proof.
  intros Hd Hin Hl Ht Hk. destruct (cls_lookup fs k ft Hd Hin) as (Hg & _ & _ & Ha & _).
  apply (reach_tables _ _ _ fv (read_attr_ok fs vs k ft fv Hd Hin Hl (shape_ty_enum_proxy _ _ Ht)) Hk);
    [intros d lt El|intros d Em|reflexivity|exact Ht]; cbn [length] in *.
  - now rewrite Hg, El.
  - now rewrite Ha.
Qed.

(* The encoder against the FINISHED stream sf (Bits.cut): at a node of type t whose bits sf shows
   at i, p_enc takes sf cut at i to sf cut at i + nbits t.  No post-state to thread: nodes
   compose by rewriting, and [chunk_app] hands each part of a sequence its own bits. *)
Definition enc_ok (t : ty) : Prop :=
  forall c acc fn stk v sf i,
    wf t = true -> shape_ty t v = true -> reach t c acc fn stk v ->
    0 <= i -> i + nbits t <= 8 * Z.of_nat (length sf) ->
    chunk (bufZ sf) i (nbits t) = Z_of_bits (enc_bits t v) ->
    p_enc (proc_of t) c acc fn stk {| cs := cut sf i; ci := i |} =
    Ok {| cs := cut sf (i + nbits t); ci := i + nbits t |}.

Lemma enc_leaf (t : ty) (n : Z) c acc fn stk v sf i :
  is_leaf t = true -> 0 <= n -> reach t c acc fn stk v ->
  0 <= i -> i + n <= 8 * Z.of_nat (length sf) ->
  chunk (bufZ sf) i n = Z_of_bits (bits_of (Z.to_nat n) (zof v)) ->
  pbt_enc (fuel_of n) n c acc fn stk 0 {| cs := cut sf i; ci := i |} =
  Ok {| cs := cut sf (i + n); ci := i + n |}.
Proof.
  intros Hleaf Hn Hr Hi Hlen Hch.
  apply (pbt_enc_at c acc fn stk (zof v)); try assumption.
  - destruct t; try discriminate; exact Hr.
  - now rewrite Hch, Z_of_bits_of, Z2Nat.id.
Qed.

(* enc_ahead writes the optional 16-bit prefix of an extensible node; the bits after it are the body's *)
Lemma enc_ext (x : bool) nb n bits sf i :
  0 <= i -> 0 <= n -> 0 <= nb < 65536 -> i + (ext_bits x + n) <= 8 * Z.of_nat (length sf) ->
  chunk (bufZ sf) i (ext_bits x + n) = Z_of_bits ((if x then bits_of 16 nb else []) ++ bits) ->
  (if x then enc_ahead nb {| cs := cut sf i; ci := i |} else Ok {| cs := cut sf i; ci := i |}) =
    Ok {| cs := cut sf (i + ext_bits x); ci := i + ext_bits x |} /\
  chunk (bufZ sf) (i + ext_bits x) n = Z_of_bits bits.
Proof.
  intros Hi Hn Hnb Hlen Hch. destruct (chunk_ext x _ i nb n bits Hi Hn Hnb Hch) as [H1 H2].
  split; [|exact H2]. destruct x; cbn [ext_bits] in *; [|now rewrite Z.add_0_r]. unfold enc_ahead.
  apply (pbt_enc_at int_cls (VM [(1, VZ nb)]) 1 [] nb (fun r _ => eq_refl) sf 16 i); try lia.
  rewrite (H1 eq_refl). symmetry. now apply Z.mod_small.
Qed.

Theorem enc_ok_all t : enc_ok t.
Proof.
  induction t as [| | n | n | n ms | t IH | x cap e IH | x fs IH] using ty_ind';
    unfold enc_ok; intros c acc fn stk v sf i Hw Ht Hr Hi Hlen Hch.
  - cbn [proc_of p_enc nbits enc_bits] in *.
    apply (enc_leaf TBool 1 c acc fn stk v); try assumption; try lia; try reflexivity.
    destruct v as [b|?|?|?]; try discriminate. rewrite Hch. now destruct b.
  - cbn [proc_of p_enc nbits enc_bits] in *.
    apply (enc_leaf TByte 8 c acc fn stk v); try assumption; try lia; reflexivity.
  - cbn [proc_of p_enc nbits enc_bits wf] in *.
    apply (enc_leaf (TUint n) n c acc fn stk v); try assumption; try lia; reflexivity.
  - cbn [proc_of p_enc nbits enc_bits wf] in *.
    apply (enc_leaf (TInt n) n c acc fn stk v); try assumption; try lia; reflexivity.
  - cbn [proc_of p_enc nbits enc_bits wf] in *. rewrite !andb_true_iff in Hw.
    apply (enc_leaf (TEnum n ms) n c acc fn stk v); try assumption; try lia; reflexivity.
  - cbn [proc_of p_enc nbits enc_bits wf shape_ty reach] in *.
    now apply (IH c acc fn stk v sf i).
  - cbn [proc_of]. rewrite p_enc_array. cbn [nbits enc_bits] in *.
    cbn [wf] in Hw. rewrite !andb_true_iff in Hw. destruct Hw as [[_ Hc2] Hwe].
    cbn [shape_ty] in Ht. destruct v as [?|?|l|?]; try discriminate.
    rewrite andb_true_iff in Ht. destruct Ht as [Hlenl Hall]. apply Nat.eqb_eq in Hlenl.
    rewrite forallb_forall in Hall. cbn [vlist reach] in *.
    pose proof (nbits_nonneg e Hwe) as Hne. set (w := nbits e) in *.
    destruct (enc_ext x (Z.of_nat cap) (Z.of_nat cap * w) _ sf i Hi ltac:(nia) ltac:(lia) Hlen Hch) as [Hahead Hbody].
    rewrite Hahead. cbn [bind].
    (* the element loop, generalised over the start index *)
    assert (Loop : forall m k j,
               (k + m = cap)%nat -> 0 <= j -> j + Z.of_nat m * w <= 8 * Z.of_nat (length sf) ->
               chunk (bufZ sf) j (Z.of_nat m * w) = Z_of_bits (flat_map (enc_bits e) (skipn k l)) ->
               p_enc_arr (proc_of e) c acc fn stk m k {| cs := cut sf j; ci := j |} =
               Ok {| cs := cut sf (j + Z.of_nat m * w); ci := j + Z.of_nat m * w |}).
    { induction m as [|m IHm]; intros k j Hkm Hj Hl Hc; cbn [p_enc_arr].
      - now rewrite Z.add_0_r.
      - rewrite (skipn_cons_nth l k (VZ 0)) in Hc by lia. cbn [flat_map] in Hc.
        assert (Hin : In (nth k l (VZ 0)) l) by (apply nth_In; lia).
        pose proof (enc_bits_length_shape e _ Hwe (Hall _ Hin)) as Hb. fold w in Hb.
        replace (Z.of_nat (S m) * w) with (w + Z.of_nat m * w) in * by lia.
        destruct (chunk_app _ j w (Z.of_nat m * w) _ _ Hj ltac:(nia) Hb Hc) as [H1 H2].
        rewrite (IH c acc fn (stk ++ [k]) _ sf j Hwe (Hall _ Hin) (Hr k ltac:(lia)) Hj ltac:(nia) H1).
        cbn [bind]. fold w. rewrite (IHm (S k) (j + w)) by (try assumption; nia).
        now rewrite Z.add_assoc. }
    assert (Hx : 0 <= ext_bits x) by (destruct x; cbn; lia).
    rewrite (Loop cap 0%nat (i + ext_bits x) eq_refl ltac:(lia) ltac:(lia) Hbody).
    now rewrite Z.add_assoc.
  - rewrite proc_of_msg, p_enc_msg. rewrite enc_bits_msg in Hch. rewrite nbits_msg in Hlen, Hch.
    cbn [reach] in Hr. rewrite Hr. cbn [bind].
    pose proof (nbits_nonneg _ Hw) as Hnn.
    rewrite wf_msg in Hw. rewrite !andb_true_iff in Hw. destruct Hw as [[Hd Hsz] Hfw].
    destruct v as [?|?|?|vs]; try discriminate.
    rewrite shape_ty_msg in Ht. apply fields_shape_ty_forall in Ht.
    destruct (enc_ext x (nbits (TMsg x fs)) (fields_nbits fs) _ sf i Hi
                (fields_nbits_nonneg _ Hfw) ltac:(lia) Hlen Hch) as [Hahead Hbody].
    rewrite Hahead. cbn [bind]. rewrite nbits_msg.
    (* the field loop, over a suffix l of the field list *)
    assert (Fields : forall l,
               (forall kf, In kf l -> In kf fs) ->
               Forall (fun kf => enc_ok (snd kf)) l ->
               fields_wf l = true ->
               Forall (fun kf => exists fv, lookup (fst kf) vs = Some fv /\
                                            shape_ty (snd kf) fv = true) l ->
               forall j, 0 <= j -> j + fields_nbits l <= 8 * Z.of_nat (length sf) ->
               chunk (bufZ sf) j (fields_nbits l) = Z_of_bits (fields_bits (VM vs) l) ->
               p_enc_fields (cls_of fs) (VM vs) (map_proc l) {| cs := cut sf j; ci := j |} =
               Ok {| cs := cut sf (j + fields_nbits l); ci := j + fields_nbits l |}).
    { induction l as [|kf r IHr]; intros Hsub HF Hlw Hlt j Hj Hl Hc.
      - cbn [map_proc p_enc_fields fields_nbits fold_right]. now rewrite Z.add_0_r.
      - inversion HF as [|? ? Hk HFr]; inversion Hlt as [|? ? (fv & Hlk & Htk) Htr]; subst.
        cbn [fields_wf] in Hlw. rewrite !andb_true_iff in Hlw. destruct Hlw as [[Hk1 Hwk] Hwr].
        cbn [map_proc p_enc_fields fields_bits fst snd] in *. rewrite fields_nbits_cons in *.
        replace (vfield (fst kf) (VM vs)) with fv in Hc by (unfold vfield; now rewrite Hlk).
        pose proof (enc_bits_length_shape _ _ Hwk Htk) as Hb.
        pose proof (nbits_nonneg _ Hwk) as Hnk.
        pose proof (fields_nbits_nonneg _ Hwr) as Hnr.
        destruct (chunk_app _ _ _ _ _ _ Hj Hnr Hb Hc) as [H1 H2].
        rewrite (Hk (cls_of fs) (VM vs) (fst kf) [] fv sf j Hwk Htk
                    ltac:(apply reach_field; try assumption; try lia; destruct kf; apply Hsub; now left)
                    Hj ltac:(lia) H1).
        cbn [bind].
        rewrite (IHr (fun kf' Hin' => Hsub kf' (or_intror Hin')) HFr Hwr Htr (j + nbits (snd kf))) by
          (try assumption; lia).
        now rewrite Z.add_assoc. }
    assert (Hx : 0 <= ext_bits x) by (destruct x; cbn; lia).
    rewrite (Fields fs (fun _ H => H) IH Hfw Ht (i + ext_bits x) ltac:(lia) ltac:(lia) Hbody).
    now rewrite Z.add_assoc.
Qed.
