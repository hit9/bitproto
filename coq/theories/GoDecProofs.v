(* GoDecProofs.v — the Go decoder model (GoRt.go_dec over go_proc_of / go_cls_of), run on a
   buffer whose bits at the cursor are Spec.enc_bits t v, into a Go struct holding zero values,
   leaves exactly [canon t v] at the addressed position and advances the cursor by nbits t.
   The decoder computes the reader RdSpec.rd on every buffer below 2^36 bytes (RdWalk.walk_all
   with the Go runtime's operations; the leaves are GoDecStep's: typed |=, <<= d; >>= d,
   Byte2bool); on the encoding of v the reader returns canon t v (RdSpec.rd_evolved at t2 := t1).
   Go's zero value of an enum is 0, so — unlike Python — no guard on the first declared enum
   member is needed. *)
From Coq Require Import ZArith List Bool Lia.
From BP Require Import Bits Schema Spec PyRt Eqb PyEncProofs PyEncTop
                       PyDecStep PyDecLeaf PyDecProofs RdSpec RdWalk PyDecTop
                       GoRt GoHelpers GoTables GoEncProofs GoDecStep.
From BPGen Require GenPy GenGo.
Import ListNotations.
Open Scope Z_scope.

Definition go_dec_fields (c' : gcls) :=
  fix go (l : list (Z * gproc)) (a : val) (x : ctx) : res (val * ctx) :=
    match l with
    | [] => Ok (a, x)
    | kf :: r => r1 <- go_dec (snd kf) c' a (Some (fst kf)) [] x ;; go r (fst r1) (snd r1)
    end.

Definition go_dec_arr (e : gproc) (c : gcls) (di : option Z) (stk : list nat) :=
  arr_loop (fun st acc x => go_dec e c acc di st x) stk.

Lemma go_dec_msg x nb fs c' c acc fn stk x0 :
  go_dec (GPMsg x nb fs c') c acc (Some fn) stk x0 =
  (child <- go_get_accessor c acc fn stk ;;
   let i0 := ci x0 in
   r0 <- (if x then go_dec_ahead x0 else Ok (0, x0)) ;;
   r <- go_dec_fields c' fs child (snd r0) ;;
   acc' <- go_put_accessor c acc fn stk (fst r) ;;
   Ok (acc', if x then go_skip_to (GenGo.message_ito i0 (fst r0)) (snd r) else snd r)).
Proof. reflexivity. Qed.

Lemma go_dec_msg_top x nb fs c' c acc stk x0 :
  go_dec (GPMsg x nb fs c') c acc None stk x0 =
  (let i0 := ci x0 in
   r0 <- (if x then go_dec_ahead x0 else Ok (0, x0)) ;;
   r <- go_dec_fields c' fs acc (snd r0) ;;
   Ok (fst r, if x then go_skip_to (GenGo.message_ito i0 (fst r0)) (snd r) else snd r)).
Proof. reflexivity. Qed.

Lemma go_dec_array x cap e c acc fn stk x0 :
  go_dec (GPArray x cap e) c acc (Some fn) stk x0 =
  (let i0 := ci x0 in
   r0 <- (if x then go_dec_ahead x0 else Ok (0, x0)) ;;
   r <- go_dec_arr e c (Some fn) stk cap O acc (snd r0) ;;
   Ok (fst r, if x then go_skip_to (GenGo.array_ito i0 (fst r0) (Z.of_nat cap) (ci (snd r))) (snd r)
              else snd r)).
Proof. reflexivity. Qed.

Definition gleaf_tab (lt : ty) (g : gcls) (fn : Z) (d : nat) : Prop :=
  (exists e, lookup fn (gc_set g) = Some e /\ gs_depth e = d /\
             under (gs_conv e) = under (go_type_of lt) /\
             gs_kind e = (if is_boolb lt then GSBool else GSOr)) /\
  lookup fn (gc_int g) = (match lt with TInt n => sign_entry d n | _ => None end) /\
  (exists gt ge, lookup fn (gc_struct g) = Some gt /\ elem_gty gt d = Some ge /\
                 under ge = under (go_type_of lt)).

Fixpoint gdreach (t : ty) (g : gcls) (fn : Z) (d : nat) {struct t} : Prop :=
  match t with
  | TAlias t' => gdreach t' g fn d
  | TArr _ _ e => gdreach e g fn (S d)
  | TMsg _ _ => lookup fn (gc_acc g) = Some d
  | TBool => gleaf_tab TBool g fn d
  | TByte => gleaf_tab TByte g fn d
  | TUint n => gleaf_tab (TUint n) g fn d
  | TInt n => gleaf_tab (TInt n) g fn d
  | TEnum n ms => gleaf_tab (TEnum n ms) g fn d
  end.

Lemma gdreach_shift t g fn : forall d,
  (if is_msgb (innermost t) then lookup fn (gc_acc g) = Some (d + arr_layers t)%nat
   else gleaf_tab (innermost t) g fn (d + arr_layers t)%nat) ->
  gdreach t g fn d.
Proof.
  induction t as [| | n | n | n ms | t IH | x c e IH | x fs IH] using ty_ind'; intros d H;
    cbn [gdreach innermost arr_layers is_msgb] in *; rewrite ?Nat.add_0_r in H; try exact H.
  - apply IH. exact H.
  - apply IH. replace (S d + arr_layers e)%nat with (d + S (arr_layers e))%nat by lia. exact H.
Qed.

Lemma gdreach_field x fs k ft :
  keys_distinct (map fst fs) = true -> In (k, ft) fs -> shape_ok ft = true ->
  gdreach ft (go_cls_of x fs) k 0%nat.
Proof.
  intros Hd Hin Hs. apply gdreach_shift. cbn [Nat.add].
  destruct (innermost_kind ft) as [Hi|Hi].
  - replace (is_msgb (innermost ft)) with false by (destruct (innermost ft); try discriminate; reflexivity).
    destruct (tables_single x fs k ft Hd Hin Hs Hi) as (Hset & _ & Hint & _ & Hst).
    unfold gleaf_tab. split; [exact Hset|]. split; [exact Hint|].
    destruct (go_type_layers ft Hs) as (g' & E & U).
    exists (go_type_of ft), g'. split; [exact Hst|]. split; [|exact U].
    rewrite elem_gty_strip. exact E.
  - rewrite Hi. exact (proj1 (tables_msg x fs k ft Hd Hin Hs Hi)).
Qed.

Lemma cover_in n : 1 <= n <= 64 -> In (smallest_cover n) [8; 16; 32; 64] /\ n <= smallest_cover n.
Proof. intros H. destruct (smallest_cover_spec n H) as (A & B & _). auto. Qed.

(* length s < 2^36: bit cursors stay below 8 * 2^36 < 2^40, the range go_array_ito_eq covers *)
Definition go_dec_ok (t : ty) : Prop :=
  forall g vs fn stk a v s i0,
    wf t = true -> shape_ok t = true -> has_ty t v = true ->
    gdreach t g fn (length stk) -> 1 <= fn ->
    lookup fn vs = Some a -> index_val a stk = Ok (go_default t) ->
    bytes_ok s -> 0 <= i0 -> i0 + nbits t <= 8 * Z.of_nat (length s) ->
    Z.of_nat (length s) < 2 ^ 36 ->
    slice s i0 (nbits t) = Z_of_bits (enc_bits t v) ->
    go_dec (go_proc_of t) g (VM vs) (Some fn) stk {| cs := s; ci := i0 |} =
    Ok (VM (set_field fn (set_idx a stk (canon t v)) vs), {| cs := s; ci := i0 + nbits t |}).

(* the two fixpoints have the same body *)
Lemma go_default_zero t : go_default t = zero t.
Proof. reflexivity. Qed.

Definition go_D (t : ty) (g : gcls) (acc : val) (fn : Z) (stk : list nat) (x : ctx) :=
  go_dec (go_proc_of t) g acc (Some fn) stk x.

Definition go_ok (t : ty) : Prop := wf t = true /\ shape_ok t = true.

Definition go_Dtop (t : ty) (acc : val) (x : ctx) := go_dec (go_proc_of t) go_nil_cls acc None [] x.

Definition go_rd_ok := walk_ok gcls go_D gdreach go_ok go_lim.
Definition go_top_ok := top_ok go_Dtop go_ok go_lim.

Lemma go_skip_to_max ito s j :
  go_skip_to ito {| cs := s; ci := j |} = {| cs := s; ci := Z.max j ito |}.
Proof.
  unfold go_skip_to. rewrite go_ito_taken_eq. unfold GenPy.ito_taken. cbn [ci cs].
  destruct (ito >=? j) eqn:E; f_equal; lia.
Qed.

Lemma go_rd_unsigned g vs fn stk a s i0 n w e :
  lookup fn (gc_set g) = Some e -> gs_depth e = length stk -> gs_kind e = GSOr ->
  (under (gs_conv e) = GUint w \/ (under (gs_conv e) = GByte /\ w = 8)) ->
  In w [8; 16; 32; 64] -> 1 <= n <= w ->
  lookup fn vs = Some a -> index_val a stk = Ok (VZ 0) ->
  bytes_ok s -> 0 <= i0 -> i0 + n <= 8 * Z.of_nat (length s) -> go_lim s ->
  go_pbt_dec (fuel_of n) n g (VM vs) fn stk 0 {| cs := s; ci := i0 |} =
  Ok (VM (set_field fn (set_idx a stk (VZ (slice s i0 n))) vs), {| cs := s; ci := i0 + n |}).
Proof.
  intros He Hde Hke Hue Hw Hn Hl Hi Hs Hi0 Hlen Hsm.
  rewrite <- (at_leaf_id vs fn stk a Hl (VZ 0) Hi).
  assert (w <= 64) by (cbn in Hw; lia).
  apply (dec_unsigned _ _ s i0 n (go_chunks g fn stk n i0 s ltac:(lia) Hi0 Hs Hlen Hsm) Hs Hi0 ltac:(lia)
           (at_leaf vs fn stk a)).
  intros z l d Hd Hl0 Hl8.
  apply (go_set_or_unsigned g vs fn stk a Hl (VZ 0) Hi e w); try assumption; try lia.
  apply (lshift_fits w n); try assumption; lia.
Qed.

(* the 16-bit prefix is read as an unsigned field of a one-field struct *)
Lemma go_dec_ahead_spec s i0 :
  bytes_ok s -> 0 <= i0 -> i0 + 16 <= 8 * Z.of_nat (length s) -> go_lim s ->
  go_dec_ahead {| cs := s; ci := i0 |} = Ok (slice s i0 16, {| cs := s; ci := i0 + 16 |}).
Proof.
  intros Hs Hi0 Hlen Hsm. unfold go_dec_ahead.
  pose proof (go_rd_unsigned u16_cls [(1, VZ 0)] 1 [] (VZ 0) s i0 16 16 _ eq_refl eq_refl eq_refl
                (or_introl eq_refl) ltac:(cbn; tauto) ltac:(lia) eq_refl eq_refl Hs Hi0 Hlen Hsm) as H.
  change (fuel_of 16) with 16%nat in H. now rewrite H.
Qed.

Lemma go_rd_leaf t : is_leaf t = true -> go_rd_ok t.
Proof.
  intros Hleaf g vs fn stk a s i0 [Hw _] Hr Hfn Hl Hi Hs Hsm Hi0 Hlen.
  destruct t as [| | n | n | n ms | | |]; try discriminate; unfold go_D;
    cbn [go_proc_of go_dec need_di rd fst snd zero gdreach wf] in *; rewrite ?andb_true_iff in Hw;
    destruct Hr as ((e & He & Hde & Hue & Hke) & Hint & (gt & ge & Hst & Hel & Hge));
    cbn [go_type_of under is_boolb] in *.
  - exact (go_dec_bool g vs fn stk a _ s i0 e Hl Hi He Hde Hke Hue Hs Hi0 Hlen Hsm).
  - apply (go_rd_unsigned g vs fn stk a s i0 8 8 e); auto; try lia. cbn; tauto.
  - assert (Hn : 1 <= n <= 64) by lia.
    rewrite get_nbits_of_integer_eq in Hue by assumption. destruct (cover_in n Hn) as [Hin Hnw].
    apply (go_rd_unsigned g vs fn stk a s i0 n (smallest_cover n) e); auto; lia.
  - assert (Hn : 1 <= n <= 64) by lia.
    rewrite get_nbits_of_integer_eq in Hue, Hge by assumption.
    rewrite (sign_entry_spec _ n Hn) in Hint.
    destruct (cover_in n Hn) as [Hin Hnw].
    destruct (int_storage_bits_std n Hn) as (_ & _ & Hstd & Hnstd).
    (* PyRt.int_storage_bits and GoHelpers.smallest_cover: the same cascade of comparisons *)
    change (int_storage_bits n) with (smallest_cover n) in Hstd, Hnstd.
    set (w := smallest_cover n) in *.
    rewrite <- (at_leaf_id vs fn stk a Hl (VZ 0) Hi).
    assert (Hw' : w = 8 \/ w = 16 \/ w = 32 \/ w = 64) by (cbn in Hin; lia).
    pose proof (dec_cast _ _ s i0 n (go_chunks g fn stk n i0 s ltac:(lia) Hi0 Hs Hlen Hsm) Hs Hi0 ltac:(lia)
                  (at_leaf vs fn stk a) w Hw' Hnw
                  (fun z l d Hd Hl0 Hl8 =>
                     go_set_or_signed g vs fn stk a Hl (VZ 0) Hi e w He Hde Hke Hue Hin z l d Hd
                       (proj1 Hl0) (lshift_fits w n l Hin Hnw Hl0 Hl8))) as Hc.
    cbv beta in Hc. rewrite Hc.
    cbn [bind fst snd].
    destruct (is_std_width n) eqn:Estd.
    + rewrite (Hstd eq_refl), Z.eqb_refl in *.
      now rewrite (go_process_int_none g vs fn stk a _ Hint).
    + specialize (Hnstd eq_refl). replace (n =? w) with false by (symmetry; lia).
      now rewrite (go_process_int_sign g vs fn stk a Hl (VZ 0) Hi s i0 n ltac:(lia) w gt ge Hin Hnstd Hint Hst Hel Hge).
  - destruct Hw as [[? ?] _]. assert (Hn : 1 <= n <= 64) by lia.
    rewrite get_nbits_of_integer_eq in Hue by assumption. destruct (cover_in n Hn) as [Hin Hnw].
    apply (go_rd_unsigned g vs fn stk a s i0 n (smallest_cover n) e); auto; lia.
Qed.

Lemma go_dec_fields_eq c' fs a x : go_dec_fields c' (go_proc_fields fs) a x = dec_fields go_D c' fs a x.
Proof.
  revert a x; induction fs as [|kf r IH]; intros a x; [reflexivity|].
  cbn [go_proc_fields go_dec_fields dec_fields fst snd]. unfold go_D at 1.
  destruct (go_dec (go_proc_of (snd kf)) c' a (Some (fst kf)) [] x); [apply IH|reflexivity].
Qed.

Lemma shape_ok_sub t t' :
  shape_ok t = true -> (t = TAlias t' \/ exists x c, t = TArr x c t') -> shape_ok t' = true.
Proof.
  intros H [->|(x & c & ->)]; cbn [shape_ok] in H; destruct t'; try discriminate; exact H.
Qed.

Theorem go_rd : (forall t, go_rd_ok t) /\ (forall x fs, go_top_ok x fs).
Proof.
  assert (Ha : forall s i0, 0 <= slice s i0 16 < 65536) by (intros; apply (slice_range s i0 16); lia).
  (* one bullet for each Hypothesis of RdWalk's Section Walk, in its order *)
  apply (walk gcls go_D go_Dtop go_cls_of go_get_accessor go_put_accessor go_dec_ahead
           (fun i0 ahead cap x => go_skip_to (GenGo.array_ito i0 ahead cap (ci x)) x)
           (fun i0 ahead x => go_skip_to (GenGo.message_ito i0 ahead) x)).
  - reflexivity.
  - intros. unfold go_D. cbn [go_proc_of]. now rewrite go_dec_array.
  - intros x fs c acc fn stk x0 Hfn. unfold go_D at 1. rewrite go_proc_of_msg, go_dec_msg.
    destruct (go_get_accessor c acc fn stk); [|reflexivity]. cbn [bind].
    destruct (if x then go_dec_ahead x0 else Ok (0, x0)); [|reflexivity]. cbn [bind].
    now rewrite go_dec_fields_eq.
  - intros x fs acc x0. unfold go_Dtop. rewrite go_proc_of_msg, go_dec_msg_top. cbn zeta.
    destruct (if x then go_dec_ahead x0 else Ok (0, x0)); [|reflexivity]. cbn [bind].
    now rewrite go_dec_fields_eq.
  - intros s i Hs Hsm Hi Hlen. now apply go_dec_ahead_spec.
  - intros s i0 cap j Hsm Hi0 Hj Hcap. cbn [ci].
    now rewrite (proj2 (go_skips_eq s i0 _ j Hsm Hi0 Hj (Ha s i0)) cap Hcap), go_skip_to_max.
  - intros s i0 j Hsm Hi0 Hj.
    now rewrite (proj1 (go_skips_eq s i0 _ j Hsm Hi0 Hj (Ha s i0))), go_skip_to_max.
  - intros x fs g fn stk vs a cur Hacc Hl Hi. cbn [gdreach] in Hacc.
    unfold go_get_accessor, go_put_accessor. rewrite Hacc.
    rewrite <- (at_leaf_id vs fn stk a Hl _ Hi). split.
    + apply (go_read_ref_at vs fn stk a Hl _ Hi).
    + intros child. apply (go_write_ref_at vs fn stk a Hl _ Hi).
  - auto.
  - auto.
  - intros x fs k ft [Hw Hsh] Hin. rewrite wf_msg in Hw. rewrite !andb_true_iff in Hw.
    rewrite shape_ok_msg in Hsh.
    apply gdreach_field; try tauto. exact (proj1 (fields_ok_of fs ltac:(tauto) Hsh k ft Hin)).
  - intros t0 H. exact (proj1 H).
  - intros t0 [Hw Hsh]. split; [exact Hw|]. apply (shape_ok_sub _ t0 Hsh). now left.
  - intros x cap e [Hw Hsh]. cbn [wf] in Hw. rewrite !andb_true_iff in Hw. split; [tauto|].
    apply (shape_ok_sub _ e Hsh). right. eauto.
  - intros x fs [k ft] [Hw Hsh] Hin. split.
    + exact (proj2 (proj1 (Forall_forall _ _) (wf_msg_fields x fs Hw) _ Hin)).
    + rewrite wf_msg in Hw. rewrite !andb_true_iff in Hw. rewrite shape_ok_msg in Hsh.
      exact (proj1 (fields_ok_of fs ltac:(tauto) Hsh k ft Hin)).
  - exact go_rd_leaf.
Qed.

Theorem go_dec_ok_all t : go_dec_ok t.
Proof.
  intros g vs fn stk a v s i0 Hw Hsh Ht Hr Hfn Hl Hi Hs Hi0 Hlen Hsm Hslice.
  rewrite go_default_zero in Hi.
  pose proof (rd_own t v s i0 Hw Ht Hi0 Hslice) as E.
  pose proof (proj1 go_rd t g vs fn stk a s i0 (conj Hw Hsh) Hr Hfn Hl Hi Hs Hsm Hi0) as H.
  rewrite E in H. exact (H Hlen).
Qed.

Theorem go_decode_wire t v :
  is_msg t = true -> wf (norm t) = true -> shape_ok (norm t) = true -> has_ty (norm t) v = true ->
  go_decode t (wire t v) = Ok (canon (norm t) v).
Proof.
  intros Hm Hw Hsh Ht. unfold go_decode, go_decode_proc.
  set (T := norm t) in *.
  destruct (is_msg_norm t Hm) as (x & fs & ET). fold T in ET.
  pose proof (nbits_nonneg T Hw) as Hnn.
  pose proof (wire_length t v Hw Ht) as Hlen. fold T in Hlen.
  destruct (wire_at_0 t v Hw (has_ty_shape _ _ Ht)) as [Hlen8 Hslice]. fold T in Hlen8, Hslice.
  assert (Hsmall : Z.of_nat (length (wire t v)) < 2 ^ 36).
  { rewrite Hlen. change (2 ^ 36) with 68719476736.
    assert (nbits t <= 65535).
    { rewrite <- nbits_norm. fold T. pose proof Hw as Hw'. rewrite ET in Hw' |- *. rewrite wf_msg in Hw'.
      rewrite !andb_true_iff in Hw'. lia. }
    apply Z.div_lt_upper_bound; lia. }
  pose proof (rd_own T v _ 0 Hw Ht ltac:(lia) Hslice) as E. rewrite ET in *.
  pose proof (proj2 go_rd x fs (wire t v) (conj Hw Hsh) (pack_bytes_ok _) Hsmall) as H. unfold go_Dtop in H.
  rewrite E in H. rewrite go_default_zero, H by (cbn [snd]; lia). reflexivity.
Qed.

(* Decode(Encode(v)) = v field by field, and re-encoding the decoded struct reproduces the bytes *)
Theorem go_roundtrip t v :
  is_msg t = true -> wf (norm t) = true -> shape_ok (norm t) = true -> has_ty (norm t) v = true ->
  exists b v',
    go_encode t v = Ok b /\ go_decode t b = Ok v' /\
    val_sim (norm t) v' v = true /\ go_encode t v' = Ok b /\ b = wire t v /\ v' = canon (norm t) v.
Proof.
  intros Hm Hw Hsh Ht. exists (wire t v), (canon (norm t) v). repeat split.
  - now apply go_encode_is_wire.
  - now apply go_decode_wire.
  - now apply val_sim_canon.
  - rewrite (go_encode_is_wire t _ Hm Hw Hsh (has_ty_canon _ v Hw Ht)).
    unfold wire. now rewrite (enc_bits_canon _ v Hw Ht).
Qed.
