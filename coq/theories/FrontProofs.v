(* FrontProofs.v — lemmas about the front-end model Front.v (kept apart from the model so that the
   model still evaluates when a proof breaks): induction over statements and bodies at once,
   [proc_item] on a message and an enum, when a step is [Ok] (bind_ok, *_spec) and what the errors
   of a run satisfy ([errs]), that a run sees the parse of imported files only at the calls it
   makes (proc_ext).  For C11: what [lookup] returns, and the relation [reach] between a file and
   the stack one of its statements is processed against (used in FrontScope.v). *)
From Coq Require Import ZArith List Bool String Lia.
From BP Require Import Schema Front FrontValid.
From BPGen Require GenFront.
Import ListNotations.
Open Scope Z_scope.

(* Induction over statements and statement lists at once: the bodies of messages and enums are
   lists of statements, and nearly every fact about [proc_item] comes with its twin about
   [proc_items]. *)
Section item_list_ind.
  Variable P : item -> Prop.
  Variable Q : list item -> Prop.
  Hypothesis HProto : forall l n, P (IProto l n).
  Hypothesis HImport : forall l a g, P (IImport l a g).
  Hypothesis HOption : forall l n v, P (IOption l n v).
  Hypothesis HConst : forall l n v, P (IConst l n v).
  Hypothesis HAlias : forall l n t, P (IAlias l n t).
  Hypothesis HEnum : forall l n b body, Q body -> P (IEnum l n b body).
  Hypothesis HMsg : forall l n x body, Q body -> P (IMsg l n x body).
  Hypothesis HField : forall l t n k, P (IField l t n k).
  Hypothesis HEnumField : forall l n v, P (IEnumField l n v).
  Hypothesis Hnil : Q [].
  Hypothesis Hcons : forall i r, P i -> Q r -> Q (i :: r).

  Fixpoint item_ind2 (it : item) : P it :=
    let items := fix go (its : list item) : Q its :=
                   match its with
                   | [] => Hnil
                   | i :: r => Hcons i r (item_ind2 i) (go r)
                   end in
    match it with
    | IProto l n => HProto l n
    | IImport l a g => HImport l a g
    | IOption l n v => HOption l n v
    | IConst l n v => HConst l n v
    | IAlias l n t => HAlias l n t
    | IEnum l n b body => HEnum l n b body (items body)
    | IMsg l n x body => HMsg l n x body (items body)
    | IField l t n k => HField l t n k
    | IEnumField l n v => HEnumField l n v
    end.

  Lemma item_list_ind : (forall it, P it) /\ (forall its, Q its).
  Proof.
    split; [exact item_ind2|]. induction its as [|i r IH]; [exact Hnil|]. apply Hcons; [apply item_ind2|exact IH].
  Qed.
End item_list_ind.

(* The parameters of [Front.proc_item], the same in every section of the Front* files:
   [pc stack g] parses the imported file g while the files of [stack] are being parsed (Front's
   parse_child; in [Front.parse_file] it is the same function with one unit of fuel less),
   [kf] says which files exist, [trad] is traditional mode, [file] is the file being parsed
   and [fstack] lists the files whose parse is in progress, [file] first. *)
Section Unfold.
  Variable pc : list string -> string -> res def.
  Variable kf : string -> bool.
  Variable trad : bool.
  Variable file : string.
  Variable fstack : list string.

  Notation PI := (proc_item pc kf trad file fstack).
  Notation PIS := (proc_items pc kf trad file fstack).

  Lemma inner_loop st body : forall f,
    (fix go (its : list item) (f : frame) : res frame :=
       match its with
       | [] => Ok f
       | i :: r => do f' <- PI st f i; go r f'
       end) body f = PIS st f body.
  Proof.
    induction body as [|i r IH]; intros f; [reflexivity|].
    cbn [proc_items]. destruct (PI st f i); cbn [bind]; [apply IH|reflexivity].
  Qed.

  Lemma proc_item_msg outer cur l name ext body :
    PI outer cur (IMsg l name ext body) =
    if ext && trad then Err KExtensibleInTraditional file l else
    do fr <- PIS (cur :: outer) (mkframe (FMsg (mkloc file l) ext) []) body;
    do d <- close_msg (mkloc file l) ext fr;
    push_then cur IKMsg name d.
  Proof.
    cbn [proc_item]. destruct (ext && trad); [reflexivity|]. now rewrite inner_loop.
  Qed.

  Lemma proc_item_enum outer cur l name n body :
    PI outer cur (IEnum l name (SUint n) body) =
    if GenFront.uint_cap_raises n then Err KInvalidUintCap file l else
    do fr <- PIS (cur :: outer) (mkframe (FEnum (mkloc file l) n) []) body;
    push_then cur IKEnum name (close_enum (mkloc file l) n fr).
  Proof.
    cbn [proc_item]. destruct (GenFront.uint_cap_raises n); [reflexivity|]. now rewrite inner_loop.
  Qed.

  Lemma proc_items_app outer cur pre post :
    PIS outer cur (pre ++ post) = do f <- PIS outer cur pre; PIS outer f post.
  Proof.
    revert cur. induction pre as [|i r IH]; intros cur; [reflexivity|].
    cbn [app proc_items]. destruct (PI outer cur i); cbn [bind]; [apply IH|reflexivity].
  Qed.

  Lemma proc_items_cons outer cur i r :
    PIS outer cur (i :: r) = do f <- PI outer cur i; PIS outer f r.
  Proof. reflexivity. Qed.
End Unfold.

Lemma bind_ok {A B} (r : res A) (f : A -> res B) b :
  bind r f = Ok b <-> exists a, r = Ok a /\ f a = Ok b.
Proof.
  destruct r as [a|]; cbn [bind]; [|split; [discriminate|intros [a [H _]]; discriminate]].
  split; [eauto|]. now intros [a' [[= <-] H]].
Qed.

Lemma if_ok {A} (c : bool) (e r : res A) b : (if c then e else r) = Ok b <-> (c = true /\ e = Ok b) \/ (c = false /\ r = Ok b).
Proof. destruct c; intuition discriminate. Qed.

Definition orel {A B} (P : A -> B -> Prop) (x : option A) (y : option B) : Prop :=
  match x, y with Some a, Some b => P a b | None, None => True | _, _ => False end.

(* lists related entry by entry, the keys through an injective rho, give related lookups *)
Lemma Forall2_assoc {A B} (rho : string -> string) (R : string -> A -> B -> Prop) n l l' :
  (forall a b, rho a = rho b -> a = b) ->
  Forall2 (fun a a' => fst a' = rho (fst a) /\ R (fst a) (snd a) (snd a')) l l' ->
  orel (R n) (assoc n l) (assoc (rho n) l').
Proof.
  intros Hrho. induction 1 as [|a a' r r' [E D] _ IH]; [exact I|]. cbn [assoc]. rewrite E.
  destruct (String.eqb_spec (fst a) n) as [<-|N]; [now rewrite String.eqb_refl|].
  destruct (String.eqb_spec (rho (fst a)) (rho n)) as [E'|_]; [now apply Hrho in E'|exact IH].
Qed.

(* what the errors of a run satisfy; one rule per way the checker is put together *)
Definition errs {A} (r : res A) (E : kind -> string -> Z -> Prop) : Prop := forall k f l, r = Err k f l -> E k f l.

Lemma errs_ok {A} (a : A) E : errs (Ok a) E.
Proof. discriminate. Qed.

Lemma errs_err {A} k f l (E : kind -> string -> Z -> Prop) : E k f l -> errs (@Err A k f l) E.
Proof. intros H k' f' l' [= <- <- <-]. exact H. Qed.

Lemma errs_bind {A B} (r : res A) (g : A -> res B) E :
  errs r E -> (forall a, r = Ok a -> errs (g a) E) -> errs (bind r g) E.
Proof. destruct r as [a|k f l]; cbn [bind]; intros H1 H2; [now apply H2|]. intros k' f' l' [= <- <- <-]. now apply H1. Qed.

Lemma errs_if {A} (c : bool) (a b : res A) E :
  (c = true -> errs a E) -> (c = false -> errs b E) -> errs (if c then a else b) E.
Proof. destruct c; auto. Qed.

Lemma errs_imp {A} (r : res A) (E E' : kind -> string -> Z -> Prop) :
  errs r E -> (forall k f l, E k f l -> E' k f l) -> errs r E'.
Proof. intros H HE k f l Hr. now apply HE, H. Qed.

Lemma errs_bind_inv {A B} (r : res A) (g : A -> res B) E : errs (bind r g) E -> errs r E.
Proof. intros H k f l ->. now apply H. Qed.

Definition nofuel (k : kind) (_ : string) (_ : Z) : Prop := k <> KFuel.

(* [pc] is only ever called on [fstack] and a known file that is not on it *)
Definition called (kf : string -> bool) (fstack : list string) (g : string) : Prop :=
  kf g = true /\ mem_s g fstack = false.

(* A run consults [pc] only at the calls it makes, and stops at the first that fails.  So for a
   run whose error, if any, lies in E it is enough that pc' agrees with pc at the calls whose
   error, if any, lies in E.  With E everything this is plain extensionality; with [nofuel] it
   says that more fuel changes nothing once there was enough. *)
Section Ext.
  Variable pc pc' : list string -> string -> res def.
  Variable kf kf' : string -> bool.
  Variable trad : bool.
  Variable file : string.
  Variable fstack : list string.
  Variable E : kind -> string -> Z -> Prop.
  Hypothesis Hkf : forall g, kf' g = kf g.
  Hypothesis Hpc : forall g, called kf fstack g -> errs (pc fstack g) E -> pc' fstack g = pc fstack g.

  Notation PI := (proc_item pc kf trad file fstack).
  Notation PIS := (proc_items pc kf trad file fstack).
  Notation PI' := (proc_item pc' kf' trad file fstack).
  Notation PIS' := (proc_items pc' kf' trad file fstack).

  Lemma proc_ext :
    (forall it outer cur, errs (PI outer cur it) E -> PI' outer cur it = PI outer cur it) /\
    (forall its outer cur, errs (PIS outer cur its) E -> PIS' outer cur its = PIS outer cur its).
  Proof.
    apply item_list_ind; try reflexivity.
    - intros l a g outer cur H. cbn [proc_item] in *. rewrite Hkf.
      destruct (kf g) eqn:Ek; cbn [negb] in *; [|reflexivity].
      destruct (mem_s g fstack) eqn:Ec; [reflexivity|].
      destruct (mem_s g (imported_files _)); [reflexivity|].
      now rewrite (Hpc g (conj Ek Ec) (errs_bind_inv _ _ _ H)).
    - intros l n b body IH outer cur H. destruct b as [| |w|w|p]; try reflexivity.
      rewrite !proc_item_enum in *. destruct (GenFront.uint_cap_raises w); [reflexivity|].
      now rewrite (IH _ _ (errs_bind_inv _ _ _ H)).
    - intros l n x body IH outer cur H. rewrite !proc_item_msg in *. destruct (x && trad); [reflexivity|].
      now rewrite (IH _ _ (errs_bind_inv _ _ _ H)).
    - intros i r Hi Hr outer cur H. cbn [proc_items] in *. rewrite (Hi _ _ (errs_bind_inv _ _ _ H)).
      destruct (PI outer cur i); cbn [bind] in *; [now apply Hr|reflexivity].
  Qed.
End Ext.

Lemma parse_file_proto fs trad n stk g d :
  parse_file n fs trad stk g = Ok d -> exists f nm m, d = DProto f nm m.
Proof.
  destruct n; [discriminate|]. cbn [parse_file]. destruct (assoc g fs); [|discriminate].
  destruct (proc_items _ _ _ _ _ _ _ _) as [fr|]; cbn [bind]; [|discriminate].
  destruct (fk fr) as [[nm|]| |]; try discriminate. intros H; inversion H. eauto.
Qed.

(* scope number k of the stack (0 = innermost) resolves the whole dotted path to d *)
Definition resolves_in (st : list frame) (k : nat) (p : path) (d : def) : Prop :=
  exists f, nth_error st k = Some f /\ get_member (fmem f) p = Some d.

Definition resolves_none (st : list frame) (k : nat) (p : path) : Prop :=
  forall f, nth_error st k = Some f -> get_member (fmem f) p = None.

Theorem lookup_innermost st p d :
  lookup st p = Some d <->
  exists k, resolves_in st k p d /\ forall k', (k' < k)%nat -> resolves_none st k' p.
Proof.
  revert d. induction st as [|f r IH]; intros d; cbn [lookup].
  - split; [discriminate|]. intros [k [[f [Hn _]] _]]. destruct k; discriminate.
  - destruct (get_member (fmem f) p) as [d0|] eqn:E.
    + split.
      * intros H. inversion H; subst. exists O. split; [exists f; now split|]. intros k' Hk. lia.
      * intros [k [[f' [Hn Hg]] Hlt]]. destruct k as [|k].
        -- cbn [nth_error] in Hn. inversion Hn; subst. congruence.
        -- exfalso. specialize (Hlt O (Nat.lt_0_succ k) f eq_refl). congruence.
    + rewrite IH. split.
      * intros [k [[f' [Hn Hg]] Hlt]]. exists (S k). split; [exists f'; now split|].
        intros k' Hk f'' Hn'. destruct k' as [|k'].
        -- cbn [nth_error] in Hn'. inversion Hn'; subst. exact E.
        -- apply (Hlt k'); [lia|exact Hn'].
      * intros [k [[f' [Hn Hg]] Hlt]]. destruct k as [|k].
        -- cbn [nth_error] in Hn. inversion Hn; subst. congruence.
        -- exists k. split; [exists f'; now split|].
           intros k' Hk f'' Hn'. apply (Hlt (S k')); [lia|exact Hn'].
Qed.

(* "the innermost scope that declares the first component" *)
Definition declares (f : frame) (n : string) : bool := has_name n (fmem f).

Definition first_declaring (st : list frame) (k : nat) (n : string) : Prop :=
  (exists f, nth_error st k = Some f /\ declares f n = true) /\
  forall k' f', (k' < k)%nat -> nth_error st k' = Some f' -> declares f' n = false.

Lemma get_member_head mem n rest d :
  get_member mem (n :: rest) = Some d -> has_name n mem = true.
Proof.
  cbn [get_member]. unfold has_name. destruct (assoc n mem); [reflexivity|discriminate].
Qed.

Lemma get_member_undeclared mem n rest :
  has_name n mem = false -> get_member mem (n :: rest) = None.
Proof.
  cbn [get_member]. unfold has_name. destruct (assoc n mem); [discriminate|reflexivity].
Qed.

(* the code's rule (innermost scope in which the WHOLE path resolves) coincides with the
   reading "innermost scope declaring the first component" whenever that scope's
   declaration contains the rest of the path *)
Theorem lookup_first_component st n rest k d :
  first_declaring st k n ->
  resolves_in st k (n :: rest) d ->
  lookup st (n :: rest) = Some d.
Proof.
  intros [_ Hfirst] Hres. apply lookup_innermost. exists k. split; [exact Hres|].
  intros k' Hk f' Hn. apply get_member_undeclared. now apply (Hfirst k' f').
Qed.

(* conversely the scope that answers declares the first component, and no scope inside it
   resolves the whole path; scopes inside it MAY declare the first component (fall-through) *)
Theorem lookup_declares st n rest d :
  lookup st (n :: rest) = Some d ->
  exists k f, nth_error st k = Some f /\ declares f n = true /\ get_member (fmem f) (n :: rest) = Some d.
Proof.
  intros H. apply lookup_innermost in H. destruct H as [k [[f [Hn Hg]] _]].
  exists k, f. repeat split; try assumption. now apply get_member_head in Hg.
Qed.

(* for an undotted name the two readings always coincide *)
Theorem lookup_simple_name st n d :
  lookup st [n] = Some d <->
  exists k f, first_declaring st k n /\ nth_error st k = Some f /\ assoc n (fmem f) = Some d.
Proof.
  rewrite lookup_innermost. split.
  - intros [k [[f [Hn Hg]] Hlt]]. exists k, f. split; [|split; [exact Hn|]].
    + split; [exists f; split; [exact Hn|now apply get_member_head in Hg]|].
      intros k' f' Hk Hn'. specialize (Hlt k' Hk f' Hn'). cbn [get_member] in Hlt.
      unfold declares, has_name. destruct (assoc n (fmem f')); [discriminate|reflexivity].
    + cbn [get_member] in Hg. destruct (assoc n (fmem f)); [exact Hg|discriminate].
  - intros [k [f [[_ Hfirst] [Hn Ha]]]]. exists k. split.
    + exists f. split; [exact Hn|]. cbn [get_member]. now rewrite Ha.
    + intros k' Hk f' Hn'. apply get_member_undeclared. now apply (Hfirst k' f').
Qed.

Lemma resolve_type_ref_spec file st l p t r :
  resolve_type_ref file st l p = Ok (t, r) <->
  exists d, lookup st p = Some d /\ def_type d = Some t /\ r = Some (def_loc d).
Proof.
  unfold resolve_type_ref. split.
  - destruct (lookup st p) as [d|]; [|discriminate]. destruct (def_type d) eqn:E; [|discriminate].
    intros H; inversion H; subst. now exists d.
  - intros [d [-> [-> ->]]]. reflexivity.
Qed.

Lemma push_member_spec f name d f' :
  push_member f name d = Ok f' <->
  fresh name f /\ validate_on_push f name d = Ok tt /\ f' = add_member f name d.
Proof.
  unfold push_member, fresh, add_member. split.
  - destruct (has_name name (fmem f)); [discriminate|].
    destruct (validate_on_push f name d) as [[]|]; cbn [bind]; [|discriminate].
    intros H; inversion H. now repeat split.
  - intros [-> [-> ->]]. reflexivity.
Qed.

Lemma push_then_spec f ik name d f' :
  push_then f ik name d = Ok f' <->
  fresh name f /\ validate_on_push f name d = Ok tt /\ unsupported f ik (def_loc d) = Ok tt /\
  f' = add_member f name d.
Proof.
  unfold push_then. split.
  - destruct (push_member f name d) as [f0|] eqn:E; cbn [bind]; [|discriminate].
    apply push_member_spec in E. destruct E as [Hf [Hv ->]].
    destruct (unsupported f ik (def_loc d)) as [[]|]; cbn [bind]; [|discriminate].
    intros H; inversion H. now repeat split.
  - intros [Hf [Hv [-> ->]]]. now rewrite (proj2 (push_member_spec f name d _) (conj Hf (conj Hv eq_refl))).
Qed.

Lemma close_msg_fields a ext f d :
  close_msg a ext f = Ok d ->
  d = DMsg a (TMsg ext (msg_fields (rev (fmem f)))) (rev (fmem f)).
Proof.
  unfold close_msg. destruct (GenFront.message_size_raises _); [discriminate|].
  destruct (GenFront.message_max_bytes_raises _ _); [discriminate|]. intros H. now inversion H.
Qed.

Lemma msg_fields_in mem name a num t r :
  In (name, DField a num t r) mem -> In (num, t) (msg_fields mem).
Proof.
  intros H. unfold msg_fields. apply in_flat_map. exists (name, DField a num t r). split; [exact H|].
  cbn [snd]. now left.
Qed.

Lemma msg_fields_keys m : map fst (msg_fields m) = field_numbers m.
Proof.
  unfold msg_fields, field_numbers. induction m as [|nd r IH]; [reflexivity|].
  cbn [flat_map]. rewrite map_app, IH. destruct (snd nd); reflexivity.
Qed.

Lemma msg_fields_app m1 m2 : msg_fields (m1 ++ m2) = msg_fields m1 ++ msg_fields m2.
Proof. unfold msg_fields. apply flat_map_app. Qed.

Lemma msg_fields_rev m : msg_fields (rev m) = rev (msg_fields m).
Proof.
  induction m as [|nd r IH]; [reflexivity|]. cbn [rev]. rewrite msg_fields_app, IH.
  unfold msg_fields at 2 3. cbn [flat_map]. rewrite app_nil_r, rev_app_distr.
  destruct (snd nd); reflexivity.
Qed.

Section Reach.
  Variable pc : list string -> string -> res def.
  Variable kf : string -> bool.
  Variable trad : bool.
  Variable file : string.
  Variable fstack : list string.

  Notation PI := (proc_item pc kf trad file fstack).
  Notation PIS := (proc_items pc kf trad file fstack).

  (* [binds it n]: the statement [it] declares the name n in the scope it is a member of.  For an
     import without `as` that is the proto name some parse of the imported file returns; the
     alternative [n = EmptyString] (under the same existential, so always available) is the
     name Front.proc_item uses when the parse result is not a Proto. *)
  Definition binds (it : item) (n : string) : Prop :=
    match it with
    | IProto _ _ => False
    | IImport _ (Some a) _ => n = a
    | IImport _ None g => exists stk f m, pc stk g = Ok (DProto f n m) \/ n = EmptyString
    | IOption _ x _ | IConst _ x _ | IAlias _ x _ | IEnum _ x _ _ | IMsg _ x _ _
    | IEnumField _ x _ => n = x
    | IField _ _ x _ => n = x
    end.

  (* [reach outer ops cur body st ps it]: while the scope [body] is processed against the
     enclosing scopes [outer] (whose textually preceding items are [ops]), the statement [it]
     is processed against the stack [st]; [ps] lists, scope by scope (innermost first), the
     statements that textually precede [it]. *)
  Inductive reach : list frame -> list (list item) -> frame -> list item ->
                    list frame -> list (list item) -> item -> Prop :=
  | reach_here outer ops cur pre it post cur' :
      PIS outer cur pre = Ok cur' ->
      reach outer ops cur (pre ++ it :: post) (cur' :: outer) (pre :: ops) it
  | reach_msg outer ops cur pre l name ext body post cur' st ps it :
      PIS outer cur pre = Ok cur' -> ext && trad = false ->
      reach (cur' :: outer) (pre :: ops) (mkframe (FMsg (mkloc file l) ext) []) body st ps it ->
      reach outer ops cur (pre ++ IMsg l name ext body :: post) st ps it
  | reach_enum outer ops cur pre l name n body post cur' st ps it :
      PIS outer cur pre = Ok cur' -> GenFront.uint_cap_raises n = false ->
      reach (cur' :: outer) (pre :: ops) (mkframe (FEnum (mkloc file l) n) []) body st ps it ->
      reach outer ops cur (pre ++ IEnum l name (SUint n) body :: post) st ps it.

  Lemma reach_error outer ops cur body st ps it :
    reach outer ops cur body st ps it ->
    forall f st' k a b, st = f :: st' -> PI st' f it = Err k a b -> PIS outer cur body = Err k a b.
  Proof.
    induction 1 as [outer ops cur pre it post cur' Hp
                   |outer ops cur pre l name ext body post cur' st ps it Hp Hx _ IH
                   |outer ops cur pre l name n body post cur' st ps it Hp Hx _ IH];
      intros f st' k a b Hst He.
    - inversion Hst; subst. rewrite proc_items_app, Hp. cbn [bind proc_items]. now rewrite He.
    - rewrite proc_items_app, Hp. cbn [bind proc_items]. rewrite proc_item_msg, Hx.
      now rewrite (IH f st' k a b Hst He).
    - rewrite proc_items_app, Hp. cbn [bind proc_items]. rewrite proc_item_enum, Hx.
      now rewrite (IH f st' k a b Hst He).
  Qed.
End Reach.

Theorem first_component_reading_refuted :
  exists st n rest k f d,
    first_declaring st k n /\ nth_error st k = Some f /\ get_member (fmem f) (n :: rest) = None /\
    lookup st (n :: rest) = Some d.
Proof.
  (* message A { message B {..} }; message at line 4 { message A {..}; message at line 6 { use of A.B } } *)
  pose (d := DMsg (mkloc "r" 3) (TMsg false [(1, TUint 3)]) []).
  pose (f := mkframe (FMsg (mkloc "r" 4) false) [("A"%string, DMsg (mkloc "r" 5) (TMsg false [(1, TBool)]) [])]).
  exists [mkframe (FMsg (mkloc "r" 6) false) []; f;
          mkframe (FProto (Some "r"%string)) [("A"%string, DMsg (mkloc "r" 2) (TMsg false []) [("B"%string, d)])]],
         "A"%string, ["B"%string], 1%nat, f, d.
  repeat split; [now exists f|].
  intros [|k'] f' Hk Hn; [|lia]. cbn in Hn. inversion Hn. reflexivity.
Qed.
