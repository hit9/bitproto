(* LexOrigin.v — every token of a run comes from ONE consultation of the master regex (or of the
   literals table) at the position where it starts, in the context the input gives it.  This lifts the
   per-position classification facts (LexClass, LexMunch) to whole runs:
     an IDENTIFIER token spelled bool / byte / true / false / yes / no is glued to a word character on
     one side (the guarded form of "reserved words are never IDENTIFIER"; unguarded it is refuted). *)
From Coq Require Import ZArith List Bool.
From BP Require Import TotalBase LexBase Lex LexProofs LexClass.
From BPGen Require Import GenLexer.
Import ListNotations.

Section Origin.
Variable uw : N -> bool.

Definition tok_origin (p : option N) (lx post : list N) (t : token) : Prop :=
  (exists r fuel l', In r lex_rules
      /\ first_rule uw fuel lex_rules (p, lx ++ post) = Some (r, (lastc p lx, post))
      /\ (length (lx ++ post) <= fuel)%nat
      /\ run_action (r_name r) (r_act r) lx (t_line t) = Ok (t_type t, t_val t, l'))
  \/ (exists c fuel, lx = [c] /\ first_rule uw fuel lex_rules (p, c :: post) = None
      /\ cp_mem c lex_literals = true /\ t_type t = [c] /\ t_val t = VText [c]).

Fixpoint origins (p : option N) (its : list item) (tail : list N) : Prop :=
  match its with
  | [] => True
  | IIgn c :: r => origins (Some c) r tail
  | ITok t lx :: r => tok_origin p lx (items_text r ++ tail) t /\ origins (lastc p lx) r tail
  end.

Lemma lex_items_origins : forall fuel prev rest pos line, (length rest < fuel)%nat ->
  origins prev (fst (fst (lex_items uw fuel prev rest pos line))) (snd (lex_items uw fuel prev rest pos line))
  /\ items_text (fst (fst (lex_items uw fuel prev rest pos line))) ++ snd (lex_items uw fuel prev rest pos line) = rest.
Proof.
  apply (lex_items_ind uw (fun p rest _ _ x =>
           origins p (fst (fst x)) (snd x) /\ items_text (fst (fst x)) ++ snd x = rest));
    unfold items_text; cbn [fst snd flat_map item_text app origins]; auto.
  - intros p c r pos line its e rem _ [H1 H2]. rewrite H2. auto.
  - intros p w post pos line r fuel _ _ Hin _ Hfr Hl.
    destruct (run_action (r_name r) (r_act r) w line) as [[[ty v] l']|k|ex] eqn:Eact; auto.
    intros its e rem [H1 H2]. cbn [fst snd flat_map item_text origins]. rewrite <- app_assoc.
    fold (items_text its). unfold items_text. rewrite H2.
    split; [|reflexivity]. split; [|exact H1]. left. exists r, fuel, l'. cbn [t_line t_type t_val]. auto.
  - intros p c r pos line fuel its e rem _ Hfr Hl Hlit [H1 H2]. unfold items_text. rewrite H2.
    split; [|reflexivity]. split; [|exact H1]. right. exists c, fuel. cbn [t_type t_val]. auto.
Qed.

Lemma origins_split : forall a p t lx b tail,
  origins p (a ++ ITok t lx :: b) tail -> tok_origin (lastc p (items_text a)) lx (items_text b ++ tail) t.
Proof.
  unfold items_text. induction a as [|i a IH]; intros p t lx b tail H.
  - cbn [app origins flat_map lastc] in *. apply H.
  - destruct i as [c|t0 lx0]; cbn [app origins flat_map item_text] in *.
    + change ([c] ++ flat_map item_text a) with (c :: flat_map item_text a). cbn [lastc]. apply IH. exact H.
    + rewrite lastc_app. apply IH. apply H.
Qed.

Lemma non_identifier_rule_type r lx line ty v l :
  In r lex_rules -> cps_eqb (r_name r) T_IDENTIFIER = false ->
  run_action (r_name r) (r_act r) lx line = Ok (ty, v, l) -> cps_eqb ty T_IDENTIFIER = false.
Proof.
  intros Hin Hn. unfold lex_rules in Hin. cbn [In] in Hin.
  repeat (destruct Hin as [<-|Hin]; [cbn [r_rx r_name r_act] in *|]); try contradiction;
    try (vm_compute in Hn; discriminate Hn);
    unfold run_action; cbn [a_settype a_kw a_conv a_lineinc andb];
    try (destruct (run_conv _ lx line); cbn [bind]; intro H; inversion H; subst; vm_compute; reflexivity);
    try (intro H; inversion H; subst; vm_compute; reflexivity).
Qed.

Lemma identifier_is_glued s its e rem a t lx b :
  lex_run uw s = (its, e, rem) -> its = a ++ ITok t lx :: b ->
  cps_eqb (t_type t) T_IDENTIFIER = true ->
  (forall fuel p post, word_opt uw p = false -> word_opt uw (hd_error post) = false ->
     (length (lx ++ post) <= fuel)%nat ->
     exists r s', first_rule uw fuel lex_rules (p, lx ++ post) = Some (r, s')
                  /\ cps_eqb (r_name r) T_IDENTIFIER = false) ->
  word_opt uw (lastc None (items_text a)) = true \/ word_opt uw (hd_error (items_text b ++ rem)) = true.
Proof.
  intros Hrun -> Hty Hrule. unfold lex_run in Hrun.
  destruct (lex_items_origins (S (length s)) None s 0%Z lexer_initial_lineno (Nat.lt_succ_diag_r _)) as [Ho _].
  rewrite Hrun in Ho. cbn [fst snd] in Ho. apply origins_split in Ho.
  destruct (word_opt uw (lastc None (items_text a))) eqn:Hp; [left; reflexivity|].
  destruct (word_opt uw (hd_error (items_text b ++ rem))) eqn:Hq; [right; reflexivity|]. exfalso.
  destruct Ho as [(r & fuel & l' & Hin & Hfr & Hlen & Hact)|(c & fuel & Hlx & _ & _ & Hty2 & _)].
  - destruct (Hrule fuel _ _ Hp Hq Hlen) as (r2 & s2 & Hfr2 & Hname).
    rewrite Hfr in Hfr2. inversion Hfr2; subst r2.
    pose proof (non_identifier_rule_type r lx (t_line t) _ _ _ Hin Hname Hact) as K. rewrite K in Hty. discriminate.
  - rewrite Hty2 in Hty. unfold T_IDENTIFIER in Hty. cbn [cps_eqb] in Hty. rewrite andb_false_r in Hty. discriminate.
Qed.

(* C08: an IDENTIFIER token spelled like a reserved word has a word character directly before or after it *)
Theorem reserved_identifier_is_glued s its e rem a t lx b :
  lex_run uw s = (its, e, rem) -> its = a ++ ITok t lx :: b ->
  cps_eqb (t_type t) T_IDENTIFIER = true -> In lx reserved_words ->
  word_opt uw (lastc None (items_text a)) = true \/ word_opt uw (hd_error (items_text b ++ rem)) = true.
Proof.
  intros Hrun Hits Hty Hres. apply (identifier_is_glued s its e rem a t lx b Hrun Hits Hty).
  intros fuel p post Hp Hq _. destruct (reserved_word_typed uw fuel p post lx Hres Hp Hq) as (r & s' & H1 & H2 & _). eauto.
Qed.

End Origin.
