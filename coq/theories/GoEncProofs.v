(* GoEncProofs.v — the Go encoder model (GoRt.go_enc: hand-modelled loop skeleton of
   lib/go/bitproto.go over the TRANSLATED helpers BPGen.GenGo, with the typed accessor
   semantics of the emitted BpGetByte) REFINES the Python encoder model: whenever
   PyRt.p_enc succeeds, go_enc returns the same context.  With C01 (py_encode = Spec.wire)
   this gives go_encode = Spec.wire for every schema and every in-range value. *)
From Coq Require Import ZArith List Bool Lia.
From BP Require Import Bits Schema Spec PyRt ByteStep PyEncProofs PyEncTop GoRt GoHelpers GoTables.
From BPGen Require GenPy GenGo.
Import ListNotations.
Open Scope Z_scope.

Definition go_enc_fields (c' : gcls) (acc' : val) :=
  fix go (l : list (Z * gproc)) (x : ctx) : res ctx :=
    match l with
    | [] => Ok x
    | kf :: r => x' <- go_enc (snd kf) c' acc' (Some (fst kf)) [] x ;; go r x'
    end.

Definition go_enc_arr (e : gproc) (c : gcls) (acc : val) (di : option Z) (stk : list nat) :=
  fix loop (m k : nat) (x : ctx) : res ctx :=
    match m with
    | O => Ok x
    | S m' => x' <- go_enc e c acc di (stk ++ [k]) x ;; loop m' (S k) x'
    end.

Lemma go_enc_msg x nb fs c' c acc fn stk x0 :
  go_enc (GPMsg x nb fs c') c acc (Some fn) stk x0 =
  (acc' <- go_get_accessor c acc fn stk ;;
   x1 <- (if x then go_enc_ahead nb x0 else Ok x0) ;;
   go_enc_fields c' acc' fs x1).
Proof. reflexivity. Qed.

Lemma go_enc_msg_top x nb fs c' c acc stk x0 :
  go_enc (GPMsg x nb fs c') c acc None stk x0 =
  (x1 <- (if x then go_enc_ahead nb x0 else Ok x0) ;;
   go_enc_fields c' acc fs x1).
Proof. reflexivity. Qed.

Lemma go_enc_array x cap e c acc fn stk x0 :
  go_enc (GPArray x cap e) c acc (Some fn) stk x0 =
  (x1 <- (if x then go_enc_ahead (Z.of_nat cap) x0 else Ok x0) ;;
   go_enc_arr e c acc (Some fn) stk cap O x1).
Proof. reflexivity. Qed.

Lemma go_proc_of_msg x fs :
  go_proc_of (TMsg x fs) = GPMsg x (nbits (TMsg x fs)) (go_proc_fields fs) (go_cls_of x fs).
Proof. reflexivity. Qed.

Definition fields_shape :=
  fix go (l : list (Z * ty)) : bool :=
    match l with
    | [] => true
    | kf :: r => shape_ok (snd kf) && go r
    end.

Lemma shape_ok_msg x fs : shape_ok (TMsg x fs) = fields_shape fs.
Proof. reflexivity. Qed.

Definition get_ref (c : cls) (g : gcls) : Prop :=
  forall acc fn stk r z, 0 <= r ->
    get_byte c acc fn stk r = Ok z -> go_get_byte g acc fn stk r = Ok z /\ 0 <= z < 256.

Definition acc_ref (c : cls) (g : gcls) : Prop :=
  forall acc fn stk a, get_accessor c acc fn stk = Ok a -> go_get_accessor g acc fn stk = Ok a.

Lemma read_attr_raw_of c acc fn x : read_attr c acc fn = Ok x -> read_attr_raw acc fn = Ok x.
Proof.
  unfold read_attr, read_attr_raw. destruct acc as [| | |fs]; try discriminate.
  destruct (lookup fn fs) as [y|]; try discriminate.
  destruct (lookup fn (c_proxy c)) as [ms|]; [|auto].
  destruct y as [|z| |]; try discriminate. destruct (is_member z ms); [auto|discriminate].
Qed.

Lemma read_ref_raw c acc fn stk d x : read_ref c acc fn stk d = Ok x -> go_read_ref acc fn stk d = Ok x.
Proof.
  unfold read_ref, go_read_ref. destruct (stack_prefix stk d) as [idx|]; [|discriminate]. cbn [bind].
  destruct (read_attr c acc fn) as [a|] eqn:E; [|discriminate]. cbn [bind].
  rewrite (read_attr_raw_of _ _ _ _ E). cbn [bind]. auto.
Qed.

Lemma land_255 a : Z.land a 255 = a mod 256.
Proof. change 255 with (Z.ones 8). rewrite Z.land_ones by lia. reflexivity. Qed.

Lemma get_ref_intro c g :
  (forall k, option_map g_depth (lookup k (c_get c)) = option_map gg_depth (lookup k (gc_get g))) ->
  get_ref c g.
Proof.
  intros H acc fn stk r z Hr. unfold get_byte, go_get_byte. specialize (H fn).
  destruct (lookup fn (c_get c)) as [a|], (lookup fn (gc_get g)) as [b|]; cbn [option_map] in H;
    try discriminate.
  - injection H as H. rewrite <- H.
    destruct (read_ref c acc fn stk (g_depth a)) as [v|] eqn:E; [|discriminate]. cbn [bind].
    rewrite (read_ref_raw _ _ _ _ _ _ E). cbn [bind].
    destruct (int_of v) as [y|] eqn:Ey; [|discriminate]. cbn [bind].
    intros Hz. injection Hz as <-. rewrite land_255.
    assert (Hm : 0 <= Z.shiftr y r mod 256 < 256) by (apply Z.mod_pos_bound; lia).
    split; [|exact Hm].
    destruct (gg_kind b) as [|cv].
    + reflexivity.
    + destruct v as [bb|y'| |]; try discriminate.
      * cbn [int_of] in Ey. injection Ey as <-. rewrite Bool2byte_spec.
        f_equal. symmetry. apply Z.mod_small.
        rewrite Z.shiftr_div_pow2 by lia.
        assert (0 < 2 ^ r) by (apply Z.pow_pos_nonneg; lia).
        destruct bb; cbn [Z.b2z].
        -- split; [apply Z.div_pos; lia|]. apply Z.le_lt_trans with 1; [|lia].
           apply Z.div_le_upper_bound; lia.
        -- rewrite Z.div_0_l by lia. lia.
      * reflexivity.
  - intros Hz. injection Hz as <-. split; [reflexivity|lia].
Qed.

Lemma lookup_map_agree {A B C} (fa : A -> C) (fb : B -> C) (l1 : list (Z * A)) : forall (l2 : list (Z * B)),
  map (fun e => (fst e, fa (snd e))) l1 = map (fun e => (fst e, fb (snd e))) l2 ->
  forall k, option_map fa (lookup k l1) = option_map fb (lookup k l2).
Proof.
  induction l1 as [|h1 r1 IH]; intros [|h2 r2] E k; try discriminate; [reflexivity|].
  cbn [map] in E. injection E as E1 E2 E3. cbn [lookup]. rewrite E1.
  destruct (fst h2 =? k); cbn [option_map]; [now rewrite E2|]. apply IH, E3.
Qed.

Lemma fields_get_ref x fs : fields_ok fs -> get_ref (cls_of fs) (go_cls_of x fs).
Proof.
  intros Hok. apply get_ref_intro. intros k.
  pose proof (agree_get x fs Hok) as H. unfold depths_get, gdepths_get in H.
  apply (f_equal (map (fun t : Z * nat * bool => (fst (fst t), snd (fst t))))) in H.
  rewrite !map_map in H. cbn [fst snd] in H.
  exact (lookup_map_agree g_depth gg_depth _ _ H k).
Qed.

Lemma fields_acc_ref x fs : fields_ok fs -> acc_ref (cls_of fs) (go_cls_of x fs).
Proof.
  intros Hok acc fn stk a. unfold get_accessor, go_get_accessor.
  rewrite <- (agree_acc x fs Hok).
  destruct (lookup fn (c_acc (cls_of fs))); [apply read_ref_raw|discriminate].
Qed.

Lemma u16_get_ref : get_ref int_cls u16_cls.
Proof.
  apply get_ref_intro. intros k. cbn [int_cls u16_cls c_get gc_get lookup fst snd].
  destruct (1 =? k); reflexivity.
Qed.

Definition small_buf (x : ctx) : Prop := 0 <= ci x /\ go_lim (cs x).

(* r' refines r: whenever r succeeds r' returns the same context, which is small_buf again, so
   that the next step may assume it: refinement composes along bind *)
Definition refines (r r' : res ctx) : Prop := forall x', r = Ok x' -> r' = Ok x' /\ small_buf x'.

Lemma refines_ret x : small_buf x -> refines (Ok x) (Ok x).
Proof. intros H x' E. injection E as <-. now split. Qed.

Lemma refines_bind r r' k k' :
  refines r r' -> (forall y, small_buf y -> refines (k y) (k' y)) ->
  refines (y <- r ;; k y) (y <- r' ;; k' y).
Proof.
  intros H Hk x' E. destruct r as [y|]; [|discriminate]. destruct (H y eq_refl) as [-> Hy].
  exact (Hk y Hy x' E).
Qed.

Lemma pbt_enc_ref c g acc fn stk n :
  get_ref c g -> n <= 64 ->
  forall fuel j x, 0 <= j -> small_buf x ->
    refines (pbt_enc fuel n c acc fn stk j x) (go_pbt_enc fuel n g acc fn stk j x).
Proof.
  intros Hg Hn. induction fuel as [|f IH]; intros j x Hj Hx; cbn [pbt_enc go_pbt_enc];
    (destruct (j <? n) eqn:Ej; [|now apply refines_ret]); [discriminate|].
  intros x' Hp. destruct Hx as (Hci & Hlen).
  (* the single byte step: Python's succeeded, so the byte index is inside the buffer *)
  unfold enc_single_byte in Hp.
  destruct (get_byte c acc fn stk (GenPy.enc_rshift j)) as [b|] eqn:Eb; [|discriminate].
  cbn [bind] in Hp.
  assert (Hr : 0 <= GenPy.enc_rshift j) by (unfold GenPy.enc_rshift; Z.div_mod_to_equations; lia).
  destruct (Hg _ _ _ _ _ Hr Eb) as (Egb & Hb).
  destruct (nth_error (cs x) (Z.to_nat (GenPy.enc_index (ci x)))) as [old|] eqn:En; [|discriminate].
  assert (Hidx : (Z.to_nat (ci x / 8) < length (cs x))%nat).
  { apply nth_error_Some. unfold GenPy.enc_index in En. congruence. }
  assert (Hcx : ci x < 8 * Z.of_nat (length (cs x))) by (Z.div_mod_to_equations; lia).
  destruct (go_step_eq (cs x) (ci x) j n Hlen ltac:(lia) ltac:(lia) Hn) as (Ec & (Ei & _) & (Er & _) & Ed & Wj & Wi).
  pose proof (nbits_to_copy_range (ci x) j n ltac:(lia)) as (Hc1 & _).
  set (cnt := GenPy.get_nbits_to_copy (ci x) j n) in *.
  destruct ((0 <=? Z.lor old (GenPy.enc_d b (ci x) j cnt)) && (Z.lor old (GenPy.enc_d b (ci x) j cnt) <? 256));
    [|discriminate].
  cbn [bind cs ci] in Hp.
  rewrite Ec. unfold go_enc_single_byte. rewrite Er, Egb. cbn [bind].
  rewrite Ei, (proj1 (Ed b Hb)).
  unfold buf_at. replace (GenPy.enc_index (ci x) <? 0) with false
    by (unfold GenPy.enc_index; Z.div_mod_to_equations; lia).
  rewrite En. cbn [bind cs ci]. rewrite Wj, Wi.
  apply IH; [lia| |exact Hp]. split; [cbn [ci]; lia|]. unfold go_lim. cbn [cs]. now rewrite upd_length.
Qed.

Lemma wrap_u_16_id v : 0 <= v < 65536 -> GenGo.wrap_u 16 v = v.
Proof. intros H. apply Z.mod_small. exact H. Qed.

(* Stated for any fuel: under the literal 16 of go_enc_ahead the kernel would unfold the
   loop to compare the rewritten goal with the original one. *)
Lemma enc_ahead_ref_fuel f v x :
  0 <= v < 65536 -> small_buf x ->
  refines (pbt_enc f 16 int_cls (VM [(1, VZ v)]) 1 [] 0 x)
          (go_pbt_enc f 16 u16_cls (VM [(1, VZ (GenGo.wrap_u 16 v))]) 1 [] 0 x).
Proof.
  intros Hv Hx. rewrite (wrap_u_16_id v Hv).
  apply (pbt_enc_ref int_cls u16_cls); [exact u16_get_ref|lia|lia|exact Hx].
Qed.

Lemma ahead_opt_ref (ext : bool) v x :
  0 <= v < 65536 -> small_buf x ->
  refines (if ext then enc_ahead v x else Ok x) (if ext then go_enc_ahead v x else Ok x).
Proof. intros Hv Hx. destruct ext; [exact (enc_ahead_ref_fuel 16 v x Hv Hx)|now apply refines_ret]. Qed.

Definition enc_ref (t : ty) : Prop :=
  forall c g acc fn stk x,
    get_ref c g -> acc_ref c g -> wf t = true -> shape_ok t = true -> 0 < fn -> small_buf x ->
    refines (p_enc (proc_of t) c acc fn stk x) (go_enc (go_proc_of t) g acc (Some fn) stk x).

Lemma wf_widths t : wf t = true -> widths_ok t = true.
Proof.
  induction t as [| | n | n | n ms | t IH | x c e IH | x fs IH] using ty_ind'; intros H;
    try reflexivity.
  - exact H.
  - apply IH. exact H.
  - cbn [wf] in H. rewrite !andb_true_iff in H. apply IH. tauto.
Qed.

Lemma fields_ok_of fs : fields_wf fs = true -> fields_shape fs = true -> fields_ok fs.
Proof.
  induction fs as [|kf r IH]; intros Hw Hs k ft Hin; [destruct Hin|].
  cbn [fields_wf fields_shape] in Hw, Hs. rewrite !andb_true_iff in Hw. rewrite !andb_true_iff in Hs.
  destruct Hin as [->|Hin].
  - cbn [snd] in *. split; [tauto|]. apply wf_widths. tauto.
  - apply (IH ltac:(tauto) ltac:(tauto) k ft Hin).
Qed.

Lemma leaf_ref (n : Z) c g acc fn stk x :
  get_ref c g -> n <= 64 -> small_buf x ->
  refines (pbt_enc (fuel_of n) n c acc fn stk 0 x)
          (need_di (Some fn) (fun fn => go_pbt_enc (fuel_of n) n g acc fn stk 0 x)).
Proof. intros Hg Hn Hx. cbn [need_di]. apply (pbt_enc_ref c g); try assumption; lia. Qed.

Lemma enc_fields_ref c g acc :
  get_ref c g -> acc_ref c g ->
  forall l, Forall (fun kf => enc_ref (snd kf)) l -> fields_wf l = true -> fields_shape l = true ->
  forall y, small_buf y ->
    refines (p_enc_fields c acc (map_proc l) y) (go_enc_fields g acc (go_proc_fields l) y).
Proof.
  intros Hg Ha. induction 1 as [|kf r Hk _ IHr]; intros Hw Hs y Hy.
  - now apply refines_ret.
  - cbn [fields_wf fields_shape] in Hw, Hs. rewrite !andb_true_iff in Hw. rewrite !andb_true_iff in Hs.
    cbn [map_proc go_proc_fields p_enc_fields go_enc_fields fst snd].
    apply refines_bind; [apply (Hk c g); try assumption; try tauto; lia|intros y2 Hy2; apply IHr; tauto].
Qed.

Lemma enc_body_ref x fs acc x0 :
  Forall (fun kf => enc_ref (snd kf)) fs -> wf (TMsg x fs) = true -> fields_shape fs = true ->
  small_buf x0 ->
  refines
    (x1 <- (if x then enc_ahead (nbits (TMsg x fs)) x0 else Ok x0) ;;
     p_enc_fields (cls_of fs) acc (map_proc fs) x1)
    (x1 <- (if x then go_enc_ahead (nbits (TMsg x fs)) x0 else Ok x0) ;;
     go_enc_fields (go_cls_of x fs) acc (go_proc_fields fs) x1).
Proof.
  intros IH Hw Hs Hx. pose proof (nbits_nonneg _ Hw) as Hnn.
  rewrite wf_msg in Hw. rewrite !andb_true_iff in Hw. destruct Hw as ((Hkd & Hnb) & Hfw).
  pose proof (fields_ok_of fs Hfw Hs) as Hok.
  apply refines_bind; [apply ahead_opt_ref; [lia|assumption]|intros x1 Hx1].
  apply (enc_fields_ref (cls_of fs)); auto using fields_get_ref, fields_acc_ref.
Qed.

Theorem enc_ref_all t : enc_ref t.
Proof.
  induction t as [| | n | n | n ms | t IH | x cap e IH | x fs IH] using ty_ind';
    unfold enc_ref; intros c g acc fn stk x0 Hg Ha Hw Hs Hfn Hx.
  - cbn [proc_of go_proc_of p_enc go_enc] in *. apply (leaf_ref 1 c); try assumption; lia.
  - cbn [proc_of go_proc_of p_enc go_enc] in *. apply (leaf_ref 8 c); try assumption; lia.
  - cbn [proc_of go_proc_of p_enc go_enc wf] in *. apply (leaf_ref n c); try assumption; lia.
  - cbn [proc_of go_proc_of p_enc go_enc wf] in *. apply (leaf_ref n c); try assumption; lia.
  - cbn [proc_of go_proc_of p_enc go_enc wf] in *. rewrite !andb_true_iff in Hw.
    apply (leaf_ref n c); try assumption; lia.
  - cbn [proc_of go_proc_of p_enc go_enc wf] in *. cbn [shape_ok] in Hs.
    assert (Hs' : shape_ok t = true) by (destruct t; try discriminate; exact Hs).
    exact (IH c g acc fn stk x0 Hg Ha Hw Hs' Hfn Hx).
  - cbn [proc_of go_proc_of]. rewrite p_enc_array, go_enc_array.
    cbn [wf] in Hw. rewrite !andb_true_iff in Hw. destruct Hw as ((Hc1 & Hc2) & Hwe).
    cbn [shape_ok] in Hs.
    assert (Hs' : shape_ok e = true) by (destruct e; try discriminate; exact Hs).
    apply refines_bind; [apply ahead_opt_ref; [lia|assumption]|].
    generalize 0%nat as k. clear Hc1 Hc2.
    induction cap as [|m IHm]; intros k x1 Hx1; cbn [p_enc_arr go_enc_arr].
    + now apply refines_ret.
    + apply refines_bind; [now apply (IH c g)|apply IHm].
  - rewrite proc_of_msg, go_proc_of_msg, p_enc_msg, go_enc_msg.
    replace (GenPy.di_is_valid fn) with true by (unfold GenPy.di_is_valid; lia).
    intros x' Hp.
    destruct (get_accessor c acc fn stk) as [acc'|] eqn:Eacc; [|discriminate]. cbn [bind] in Hp.
    rewrite (Ha _ _ _ _ Eacc). cbn [bind]. rewrite shape_ok_msg in Hs.
    now apply enc_body_ref.
Qed.

Theorem go_encode_is_wire t v :
  is_msg t = true -> wf (norm t) = true -> shape_ok (norm t) = true -> has_ty (norm t) v = true ->
  go_encode t v = Ok (wire t v).
Proof.
  intros Hm Hw Hs Ht.
  pose proof (py_encode_is_wire t v Hm Hw Ht) as Hpy.
  unfold py_encode, py_encode_proc in Hpy. unfold go_encode, go_encode_proc.
  destruct (norm t) as [| | | | | | |x fs] eqn:En; try (destruct t; discriminate).
  rewrite go_proc_of_msg. cbn [go_size_of]. rewrite go_enc_msg_top.
  rewrite proc_of_msg, p_enc_msg in Hpy.
  replace (GenPy.di_is_valid (-1)) with false in Hpy by reflexivity. cbn [bind] in Hpy.
  pose proof (nbits_nonneg _ Hw) as Hnn.
  assert (Hnb : nbits (TMsg x fs) <= 65535).
  { rewrite wf_msg in Hw. rewrite !andb_true_iff in Hw. lia. }
  assert (Hsz : gc_size (go_cls_of x fs) = nbytes t).
  { cbn [go_cls_of gc_size]. rewrite type_nbytes_eq.
    rewrite <- nbytes_norm, En. reflexivity. }
  rewrite Hsz.
  set (x0 := {| cs := zeros (Z.to_nat (nbytes t)); ci := 0 |}) in *.
  assert (Hx0 : small_buf x0).
  { split; [cbn; lia|]. unfold go_lim. cbn [x0 cs]. rewrite zeros_length, <- nbytes_norm, En. unfold nbytes.
    assert (0 <= (nbits (TMsg x fs) + 7) / 8 <= 8193)
      by (split; [apply Z.div_pos|apply Z.div_le_upper_bound]; lia).
    change (2 ^ 36) with 68719476736. lia. }
  destruct (x1 <- (if x then enc_ahead _ x0 else Ok x0) ;; p_enc_fields _ v _ x1) as [xe|] eqn:Ee;
    [|discriminate].
  cbn [bind] in Hpy. injection Hpy as Hpy.
  rewrite shape_ok_msg in Hs.
  destruct (enc_body_ref x fs v x0 (proj2 (Forall_forall _ _) (fun kf _ => enc_ref_all (snd kf))) Hw Hs Hx0 xe Ee)
    as (Ge & _).
  rewrite Ge. cbn [bind]. now rewrite Hpy.
Qed.
