(* Emit.v — what the bitproto renderers EMIT, at the level of declarations (property C10).

   Input : an elaborated schema = list of files; each file has a base name, a proto name,
           imports (member name = as-name or proto name, target file), options, and its
           definitions in declaration order; messages carry their nested definitions; types
           reference definitions by resolved identity (file, enclosing messages, name) plus
           the chain of import member names through which the reference was written.
   Output: per target (C header / C source, standard and -O; Python; Go) the ordered list of
           items the renderer writes: include / import statements and declarations
           (kind, name space, generated name, the generated names it uses).

   ORDER comes from gen/GenC10.v (block lists, composite blocks, dispatch tables translated
   from /repo) and from [flat] = Scope.filter(recursive=True): children first, declaration
   order.  NAMES come from the templates of gen/GenC10.v and the hand-modelled joining
   functions of renderer/formatter.py:346-468 (pinned by skeleton digests).
   Statement bodies (the -O copy statements, accessor bodies) are not modelled. *)
From Coq Require Import String Ascii List ZArith Bool Arith.
From BP Require Import EmitBase EmitNames.
From BPGen Require Import GenC10.
Import ListNotations.
Open Scope string_scope.
Open Scope list_scope.
Open Scope nat_scope.
Local Infix "+++" := String.append (at level 60, right associativity).

Inductive cval := CvInt (z : Z) | CvBool (b : bool) | CvStr (s : string).
Inductive base := BBool | BByte | BUint (n : nat) | BInt (n : nat).
Inductive rk := RkEnum | RkMsg | RkAlias.

Record ref := mkRef {
  r_k : rk;
  r_via : list string;      (* import member names from the referencing file to the defining file *)
  r_file : nat;             (* defining file *)
  r_path : list string;     (* enclosing messages, outermost first *)
  r_name : string }.

(* capacities and enum values are binary numbers: they are never inspected by the model and must
   not be expanded to unary [nat] during evaluation *)
Inductive tyx := TBase (b : base) | TRef (r : ref) | TArr (e : tyx) (cap : N) (ext : bool).

Record field := mkField { fl_name : string; fl_num : nat; fl_ty : tyx }.

Inductive def :=
| DConst (n : string) (v : cval)
| DAlias (n : string) (t : tyx)
| DEnum (n : string) (w : nat) (ms : list (string * N))
| DMsg (n : string) (ext : bool) (nested : list def) (fs : list field).

Record opts := mkOpts { o_cprefix : string; o_calign : Z; o_pymod : string; o_gopkg : string }.

Record file := mkFile {
  f_base : string;                       (* source file name without ".bitproto" *)
  f_proto : string;                      (* proto name *)
  f_imports : list (string * nat);       (* member name (as-name or proto name), file index *)
  f_opts : opts;
  f_defs : list def }.

Definition schema := list file.

Definition no_opts : opts := mkOpts "" 0%Z "" "".
Definition nofile : file := mkFile "" "" [] no_opts [].
Definition getf (s : schema) (i : nat) : file := nth i s nofile.

Definition def_name (d : def) : string :=
  match d with DConst n _ | DAlias n _ | DEnum n _ _ | DMsg n _ _ _ => n end.
Definition dkind_of (d : def) : dkind :=
  match d with DConst _ _ => DkConstant | DAlias _ _ => DkAlias | DEnum _ _ _ => DkEnum | DMsg _ _ _ _ => DkMessage end.

(* ---- Scope.filter(BoundDefinition, recursive=True): children first, declaration order ---- *)
Record fdef := mkF { fd_path : list string; fd_def : def }.

Fixpoint flat (pth : list string) (d : def) : list fdef :=
  match d with
  | DMsg n _ nested _ =>
      (fix go (l : list def) : list fdef :=
         match l with [] => [] | c :: r => flat (pth ++ [n]) c ++ go r end) nested
      ++ [mkF pth d]
  | _ => [mkF pth d]
  end.

Definition flat_defs (pth : list string) (l : list def) : list fdef := flat_map (flat pth) l.
Definition flat_file (f : file) : list fdef := flat_defs [] (f_defs f).

Lemma flat_msg pth n x nested fs :
  flat pth (DMsg n x nested fs) = flat_defs (pth ++ [n]) nested ++ [mkF pth (DMsg n x nested fs)].
Proof.
  cbn [flat]. apply (f_equal (fun l => l ++ [mkF pth (DMsg n x nested fs)])).
  induction nested as [|c r IH]; [reflexivity|].
  cbn [flat_defs flat_map]. rewrite IH. reflexivity.
Qed.

(* ---- Message.sorted_fields(): stable sort by field number ---- *)
Fixpoint insert_fl (x : field) (l : list field) : list field :=
  match l with
  | [] => [x]
  | h :: r => if fl_num x <? fl_num h then x :: h :: r else h :: insert_fl x r
  end.
Fixpoint sort_fl (l : list field) : list field :=
  match l with [] => [] | h :: r => insert_fl h (sort_fl r) end.
(* Python's sorted() is stable and takes the first of equal keys first: insertion from the
   right with strict "<" keeps earlier elements first.  Field numbers are distinct anyway. *)

(* NsMember T: the attribute / method name space of one class or receiver type T *)
Inductive ns := NsMacro | NsTag | NsOrd | NsMod | NsMember (owner : string).
Inductive dk :=
| DkDefine | DkTypedef | DkStruct | DkProto | DkFunc            (* C *)
| DkPyAssign | DkPyClass | DkPyDef                               (* Python module level *)
| DkGoType | DkGoConst | DkGoVar | DkGoMethod.                   (* Go package level *)

Record use := mkUse { u_ns : ns; u_qual : string; u_name : string; u_eager : bool }.
Record decl := mkDecl { d_kind : dk; d_ns : ns; d_name : string; d_uses : list use; d_members : nat }.

Inductive item :=
| IDecl (d : decl)
| IImport (member : string) (target : string) (tfile : nat).
   (* include / import statement: the member name it binds ("" in C), the file or module
      name written in the statement, and the schema file the front end resolved it to *)

Inductive target := TgH | TgC | TgHO | TgCO | TgPy | TgGo.
Definition lang_of (t : target) : lang :=
  match t with TgPy => LPy | TgGo => LGo | _ => LC end.

(* names: renderer/formatter.py:346-468 *)

Definition apply_style (st : cstyle) (x : string) : string :=
  match st with SKeep => x | SSnake => snake_case x | SUpper => upper_case x | SPascal => pascal_case x end.
Definition conv (L : lang) (c : dclass) (x : string) : string :=
  fold_left (fun acc st => apply_style st acc) (case_style L c) x.

(* _get_definition_name_prefix: bound.get_option_as_string_or_raise(option_name) when the
   formatter names an option *)
Definition opt_string (o : opts) (name : string) : string :=
  if String.eqb name "c.name_prefix" then o_cprefix o
  else if String.eqb name "py.module_name" then o_pymod o
  else if String.eqb name "go.package_path" then o_gopkg o
  else "".
Definition prefix_of (L : lang) (o : opts) : string :=
  if String.eqb (name_prefix_option L) "" then "" else opt_string o (name_prefix_option L).

(* _format_definition_name_inner_proto: prefix + "_".join(enclosing messages + [name]) *)
Definition inner_name (px : string) (pth : list string) (n : string) : string :=
  px +++ join_with delim_inner (pth ++ [n]).

Definition dname (L : lang) (c : dclass) (px : string) (pth : list string) (n : string) : string :=
  conv L c (inner_name px pth n).

Fixpoint strs_eqb (a b : list string) : bool :=
  match a, b with
  | [], [] => true
  | x :: r, y :: t => String.eqb x y && strs_eqb r t
  | _, _ => false
  end.

Definition class_of_rk (k : rk) : dclass :=
  match k with RkEnum => KEnum | RkMsg => KMessage | RkAlias => KAlias end.

Section WithSchema.
Variable s : schema.

Definition ref_px (L : lang) (r : ref) : string := prefix_of L (f_opts (getf s (r_file r))).
(* format_definition_name_inner_proto(d) with class_ = d.__class__ (alias, message) or Enum *)
Definition ref_name (L : lang) (r : ref) : string :=
  dname L (class_of_rk (r_k r)) (ref_px L r) (r_path r) (r_name r).

(* format_definition_name: qualified by the member name of the parent proto only when the
   parent IS a proto (top-level definition) and that proto is imported *)
Definition ref_qual (L : lang) (r : ref) : string :=
  if import_as_member L then
    match r_via r, r_path r with
    | [], _ => ""
    | v, [] => last v ""
    | _, _ => ""
    end
  else "".
(* format_name_related_to_definition: qualified by the last proto of the scope stack *)
Definition rel_qual (L : lang) (r : ref) : string :=
  if import_as_member L then last (r_via r) "" else "".

Definition fdef_is (k : rk) (pth : list string) (n : string) (fd : fdef) : bool :=
  strs_eqb (fd_path fd) pth && String.eqb (def_name (fd_def fd)) n &&
  match k, fd_def fd with
  | RkEnum, DEnum _ _ _ | RkMsg, DMsg _ _ _ _ | RkAlias, DAlias _ _ => true
  | _, _ => false
  end.
Definition lookup_ref (r : ref) : option fdef :=
  find (fdef_is (r_k r) (r_path r) (r_name r)) (flat_file (getf s (r_file r))).
Definition enum_members (r : ref) : option (list (string * N)) :=
  match lookup_ref r with
  | Some (mkF _ (DEnum _ _ ms)) => Some ms
  | _ => None
  end.

Definition cuse (n : ns) (x : string) : use := mkUse n "" x true.

Definition c_msg_proc (m : string) := c_message_processor_name m.
Definition c_msg_json (m : string) := c_message_json_formatter_name m.

(* CFormatter.format_type: the generated names a C type expression mentions *)
Fixpoint c_type_uses (t : tyx) : list use :=
  match t with
  | TBase _ => []
  | TRef r => match r_k r with
              | RkMsg => [cuse NsTag (ref_name LC r)]
              | _ => [cuse NsOrd (ref_name LC r)]
              end
  | TArr e _ _ => c_type_uses e
  end.

(* CFormatter.format_bp_type for a non-array type *)
Definition c_bp_uses (t : tyx) : list use :=
  match t with
  | TRef r =>
      let n := ref_name LC r in
      match r_k r with
      | RkEnum => [cuse NsOrd n]
      | RkAlias => [cuse NsOrd n; cuse NsOrd (c_alias_processor_name n); cuse NsOrd (c_alias_json_formatter_name n)]
      | RkMsg => [cuse NsTag n; cuse NsOrd (c_msg_proc n); cuse NsOrd (c_msg_json n)]
      end
  | _ => []
  end.

Definition is_arr (t : tyx) : bool := match t with TArr _ _ _ => true | _ => false end.
Definition arr_elem (t : tyx) : tyx := match t with TArr e _ _ => e | _ => t end.

(* format_bp_type(field.type, field) *)
Definition c_field_bp_uses (m : string) (fl : field) : list use :=
  match fl_ty fl with
  | TArr e _ _ => c_type_uses e ++
                  [cuse NsOrd (c_array_processor_name_field m (dec (fl_num fl)));
                   cuse NsOrd (c_array_json_formatter_name_field m (dec (fl_num fl)))]
  | t => c_bp_uses t
  end.
(* format_bp_type(alias.type, alias) *)
Definition c_alias_bp_uses (a : string) (t : tyx) : list use :=
  match t with
  | TArr e _ _ => c_type_uses e ++
                  [cuse NsOrd (c_array_processor_name_alias a); cuse NsOrd (c_array_json_formatter_name_alias a)]
  | t => c_bp_uses t
  end.

Definition mk (k : dk) (n : ns) (x : string) (us : list use) : decl := mkDecl k n x us 0.
Definition mkm (k : dk) (n : ns) (x : string) (us : list use) (m : nat) : decl := mkDecl k n x us m.

Definition is_byte (t : tyx) : bool := match t with TBase BByte => true | _ => false end.

Fixpoint py_type_uses (eager : bool) (t : tyx) : list use :=
  match t with
  | TBase _ => []
  | TRef r => [mkUse NsMod (ref_qual LPy r) (ref_name LPy r) eager]
  | TArr e _ _ => if is_byte e then [] else py_type_uses eager e
  end.

Definition py_factory_use (eager : bool) (r : ref) : use :=
  mkUse NsMod (rel_qual LPy r) (py_default_factory_name (ref_name LPy r)) eager.

(* PyFormatter.format_default_value.  None stands for "the renderer raises"; no branch produces
   it: a memberless enum defaults to the literal 0 (fix "python output for an enum without
   members"), which mentions no generated name; an enum with members to <Enum>.<first member> *)
Fixpoint py_defval (eager : bool) (t : tyx) : option (list use) :=
  match t with
  | TBase _ => Some []
  | TArr e _ _ => if is_byte e then Some [] else py_defval eager e
  | TRef r =>
      match r_k r with
      | RkEnum => match enum_members r with
                  | Some (_ :: _) => Some [mkUse NsMod (ref_qual LPy r) (ref_name LPy r) eager]
                  | _ => Some []
                  end
      | RkMsg => Some [mkUse NsMod (ref_qual LPy r) (ref_name LPy r) eager]
      | RkAlias => Some [py_factory_use eager r]
      end
  end.
(* PyFormatter.format_field_default_value: arrays go into a lambda (evaluated at instantiation) *)
Definition py_field_default (t : tyx) : option (list use) :=
  if is_arr t then py_defval false t else py_defval true t.

(* PyFormatter.format_processor: names used inside bp_processor() *)
Fixpoint py_proc_uses (t : tyx) : list use :=
  match t with
  | TBase _ => []
  | TArr e _ _ => py_proc_uses e
  | TRef r =>
      match r_k r with
      | RkEnum => [mkUse NsMod (rel_qual LPy r) (py_processor_name_enum (ref_name LPy r)) false]
      | RkAlias => [mkUse NsMod (rel_qual LPy r) (py_processor_name_alias (ref_name LPy r)) false]
      | RkMsg => [mkUse NsMod (ref_qual LPy r) (ref_name LPy r) false]
      end
  end.

Fixpoint opt_concat {A} (l : list (option (list A))) : option (list A) :=
  match l with
  | [] => Some []
  | None :: _ => None
  | Some x :: r => match opt_concat r with Some y => Some (x ++ y) | None => None end
  end.

Fixpoint go_type_uses (t : tyx) : list use :=
  match t with
  | TBase _ => []
  | TRef r => [mkUse NsMod (ref_qual LGo r) (ref_name LGo r) false]
  | TArr e _ _ => go_type_uses e
  end.

Section WithFile.
Variable i : nat.
Let f := getf s i.

Definition own_px (L : lang) : string := prefix_of L (f_opts f).

Definition py_module_of (j : nat) : string :=
  let g := getf s j in
  if String.eqb (o_pymod (f_opts g)) "" then py_default_module (f_proto g) else o_pymod (f_opts g).
Definition go_path_of (j : nat) : string :=
  let g := getf s j in
  if String.eqb (o_gopkg (f_opts g)) "" then go_default_path (f_proto g) else o_gopkg (f_opts g).

(* what one leaf block writes for one definition (a default value that is None contributes no
   uses; [py_raises] below is the model's "the renderer raises") *)
Definition opt_uses (o : option (list use)) : list use := match o with Some l => l | None => [] end.

Definition leaf (b : blk) (fd : fdef) : list decl :=
  let pth := fd_path fd in
  match fd_def fd with
  | DConst n v =>
      match b with
      | H_Constant => [mk DkDefine NsMacro (dname LC KConstant (own_px LC) pth n) []]
      | P_Constant => [mk DkPyAssign NsMod (dname LPy KConstant "" pth n) []]
      | G_Constant => [mk DkGoConst NsMod (dname LGo KConstant "" pth n) []]
      | _ => []
      end
  | DAlias n t =>
      let cn := dname LC KAlias (own_px LC) pth n in
      let pn := dname LPy KAlias "" pth n in
      let gn := dname LGo KAlias "" pth n in
      match b with
      | H_AliasDef => [mk DkTypedef NsOrd cn (c_type_uses t)]
      | H_AliasProcessorDeclaration => [mk DkProto NsOrd (c_alias_processor_name cn) []]
      | H_AliasJsonFormatterDeclaration => [mk DkProto NsOrd (c_alias_json_formatter_name cn) []]
      | C_ArrayProcessorForAlias =>
          (if is_arr t then [mk DkFunc NsOrd (c_array_processor_name_alias cn) (c_bp_uses (arr_elem t))] else [])
      | C_ArrayJsonFormatterForAlias =>
          (if is_arr t then [mk DkFunc NsOrd (c_array_json_formatter_name_alias cn) (c_bp_uses (arr_elem t))] else [])
      | C_AliasProcessor => [mk DkFunc NsOrd (c_alias_processor_name cn) (c_alias_bp_uses cn t)]
      | C_AliasJsonFormatter => [mk DkFunc NsOrd (c_alias_json_formatter_name cn) (c_alias_bp_uses cn t)]
      | P_AliasDef => [mk DkPyAssign NsMod pn (py_type_uses true t)]
      | P_AliasMethodProcessor => [mk DkPyDef NsMod (py_processor_name_alias pn) (py_proc_uses t)]
      | P_AliasMethodDefaultFactory =>
          [mk DkPyDef NsMod (py_default_factory_name pn) (mkUse NsMod "" pn true :: opt_uses (py_defval false t))]
      | G_AliasDef => [mk DkGoType NsMod gn (go_type_uses t)]
      | G_AliasMethodBpProcessor => [mk DkGoMethod (NsMember gn) "BpProcessor" [mkUse NsMod "" gn false]]
      | _ => []
      end
  | DEnum n w ms =>
      let cn := dname LC KEnum (own_px LC) pth n in
      let pn := dname LPy KEnum "" pth n in
      let gn := dname LGo KEnum "" pth n in
      match b with
      | H_EnumDef => [mk DkTypedef NsOrd cn []]
      | H_EnumFieldList =>
          (map (fun m => mk DkDefine NsMacro (dname LC KEnumField (own_px LC) pth (fst m)) []) ms)
      | P_IntEnumFieldListWrapper => [mk DkPyClass NsMod pn []]
      | P_EnumFieldListWrapper =>
          (map (fun m => mk DkPyAssign NsMod (dname LPy KEnumField "" pth (fst m)) [mkUse NsMod "" pn true]) ms)
      | P_EnumValueToNameMap =>
          [mk DkPyAssign NsMod (upper_case (py_value_map_name_raw pn)) [mkUse NsMod "" pn true]]
      | P_EnumMethodProcessor => [mk DkPyDef NsMod (py_processor_name_enum pn) []]
      | G_EnumType => [mk DkGoType NsMod gn []]
      | G_EnumFieldListWrapped =>
          (map (fun m => mk DkGoConst NsMod (dname LGo KEnumField "" pth (fst m)) [mkUse NsMod "" gn false]) ms)
      | G_EnumMethodBpProcessor => [mk DkGoMethod (NsMember gn) "BpProcessor" [mkUse NsMod "" gn false]]
      | G_EnumMethodString => [mk DkGoMethod (NsMember gn) "String" [mkUse NsMod "" gn false]]
      | _ => []
      end
  | DMsg n x _ fs =>
      let cn := dname LC KMessage (own_px LC) pth n in
      let pn := dname LPy KMessage "" pth n in
      let gn := dname LGo KMessage "" pth n in
      let sf := sort_fl fs in
      let tag := cuse NsTag cn in
      let arrs := filter (fun fl => is_arr (fl_ty fl)) sf in
      let gm (suffix : string) := mk DkGoMethod (NsMember gn) suffix [mkUse NsMod "" gn false] in
      match b with
      | H_MessageLengthMacro => [mk DkDefine NsMacro (size_constant_name (upper_case (snake_case cn))) []]
      | H_MessageStruct =>
          [mkm DkStruct NsTag cn (flat_map (fun fl => c_type_uses (fl_ty fl)) sf) (length sf)]
      | H_MessageEncoderFunctionDeclaration => [mk DkProto NsOrd (c_encoder_name cn) [tag]]
      | H_MessageDecoderFunctionDeclaration => [mk DkProto NsOrd (c_decoder_name cn) [tag]]
      | H_MessageJsonFormatterFunctionDeclaration => [mk DkProto NsOrd (c_json_name cn) [tag]]
      | H_MessageProcessorDeclaration => [mk DkProto NsOrd (c_msg_proc cn) []]
      | H_MessageBpJsonFormatterDeclaration => [mk DkProto NsOrd (c_msg_json cn) []]
      | C_ArrayProcessorForMessageFieldList =>
          (map (fun fl => mk DkFunc NsOrd (c_array_processor_name_field cn (dec (fl_num fl)))
                                  (c_bp_uses (arr_elem (fl_ty fl)))) arrs)
      | C_ArrayJsonFormatterForMessageFieldList =>
          (map (fun fl => mk DkFunc NsOrd (c_array_json_formatter_name_field cn (dec (fl_num fl)))
                                  (c_bp_uses (arr_elem (fl_ty fl)))) arrs)
      | C_MessageFieldDescriptorsIniter =>
          [mk DkFunc NsOrd (c_field_descriptors_initer_name cn) (tag :: flat_map (c_field_bp_uses cn) sf)]
      | C_MessageProcessor =>
          [mk DkFunc NsOrd (c_msg_proc cn) [tag; cuse NsOrd (c_field_descriptors_initer_name cn)]]
      | C_MessageBpJsonFormatter =>
          [mk DkFunc NsOrd (c_msg_json cn) [tag; cuse NsOrd (c_field_descriptors_initer_name cn)]]
      | C_MessageEncoder => [mk DkFunc NsOrd (c_encoder_name cn) [tag; cuse NsOrd (c_msg_proc cn)]]
      | C_MessageDecoder => [mk DkFunc NsOrd (c_decoder_name cn) [tag; cuse NsOrd (c_msg_proc cn)]]
      | C_MessageJsonFormatter => [mk DkFunc NsOrd (c_json_name cn) [tag; cuse NsOrd (c_msg_json cn)]]
      | C_MessageEncoderOpMode => [mk DkFunc NsOrd (c_encoder_name cn) [tag]]
      | C_MessageDecoderOpMode => [mk DkFunc NsOrd (c_decoder_name cn) [tag]]
      | P_Message =>
          [mkm DkPyClass NsMod pn
               (flat_map (fun fl => py_type_uses true (fl_ty fl)) sf ++
                flat_map (fun fl => opt_uses (py_field_default (fl_ty fl))) sf ++
                flat_map (fun fl => py_proc_uses (fl_ty fl)) sf) (length sf)]
      | G_MessageStruct => [mkm DkGoType NsMod gn (flat_map (fun fl => go_type_uses (fl_ty fl)) sf) (length sf)]
      | G_MessageSizeConst => [mk DkGoConst NsMod (size_constant_name (upper_case (snake_case gn))) []]
      | G_MessageMethodSize => [gm "Size"]
      | G_MessageMethodString => [gm "String"]
      | G_MessageMethodEncode => [gm "Encode"]
      | G_MessageMethodDecode => [gm "Decode"]
      | G_MessageMethodBpProcessor => [gm "BpProcessor"]
      | G_MessageMethodBpGetAccessor => [gm "BpGetAccessor"]
      | G_MessageMethodBpSetByte => [gm "BpSetByte"]
      | G_MessageMethodBpGetByte => [gm "BpGetByte"]
      | G_MessageMethodBpProcessInt => [gm "BpProcessInt"]
      | _ => []
      end
  end.

(* ---- names inside one Python class / one Go struct (not module-level declarations) ---- *)
Definition is_enum_ty (t : tyx) : bool := match t with TRef r => match r_k r with RkEnum => true | _ => false end | _ => false end.
Definition py_enum_proxy_prefix : string := "_enum_field_proxy__".

(* the attributes of the dataclass of a message, in the order of impls/py/renderer.py BlockMessage:
   BYTES_LENGTH, the fields by number (an enum-typed field is followed by its integer proxy),
   __post_init__, dict_factory, a getter and a setter per enum-typed field, then the seven methods *)
Definition py_class_attrs (fd : fdef) : list string :=
  match fd_def fd with
  | DMsg _ _ _ fs =>
      let sf := sort_fl fs in
      let ef := filter (fun fl => is_enum_ty (fl_ty fl)) sf in
      "BYTES_LENGTH" ::
      flat_map (fun fl => let f := conv LPy KMessageField (fl_name fl) in
                          if is_enum_ty (fl_ty fl) then [f; py_enum_proxy_prefix +++ f] else [f]) sf ++
      ["__post_init__"; "dict_factory"] ++
      flat_map (fun fl => let f := conv LPy KMessageField (fl_name fl) in ["_get_" +++ f; "_set_" +++ f]) ef ++
      ["bp_processor"; "bp_set_byte"; "bp_get_byte"; "bp_get_accessor"; "encode"; "decode"; "bp_process_int"]
  | DEnum _ _ ms => map (fun m => dname LPy KEnumField "" (fd_path fd) (fst m)) ms
  | _ => []
  end.

(* fields of the Go struct of a message followed by the methods declared on it *)
Definition go_msg_methods : list string :=
  ["Size"; "String"; "Encode"; "Decode"; "BpProcessor"; "BpGetAccessor"; "BpSetByte"; "BpGetByte"; "BpProcessInt"].
Definition go_struct_members (fd : fdef) : list string :=
  match fd_def fd with
  | DMsg _ _ _ fs => map (fun fl => conv LGo KMessageField (fl_name fl)) (sort_fl fs) ++ go_msg_methods
  | _ => []
  end.

(* BlockComposition: members in order, composite members expanded (depth <= 3 in /repo) *)
Fixpoint expand (fuel : nat) (b : blk) : list blk :=
  match fuel with
  | O => [b]
  | S k => match blocks_of b with
           | Some l => flat_map (expand k) l
           | None => [b]
           end
  end.

Definition def_blocks (b : blk) (fd : fdef) : list decl :=
  flat_map (fun lf => leaf lf fd) (expand 4 b).

(* -F: `d.name not in filter_messages` compares the message's OWN name *)
Definition passes_filter (flt : list string) (d : def) : bool :=
  match flt with
  | [] => true
  | _ => existsb (String.eqb (def_name d)) flt
  end.

(* BlockBoundDefinitionDispatcher.blocks: what a dispatcher writes for one definition *)
Definition dispatch_one (flt : list string) (b : blk) (fd : fdef) : list decl :=
  match dispatch b (dkind_of (fd_def fd)) with
  | Some t => if dispatch_filtered b && negb (passes_filter flt (fd_def fd)) then [] else def_blocks t fd
  | None => []
  end.
Definition dispatcher (flt : list string) (b : blk) : list decl :=
  flat_map (dispatch_one flt b) (flat_file f).

Definition is_dispatcher (b : blk) : bool :=
  match b with
  | H_DataStructuresList | H_FunctionDeclarationsForUserList | H_FunctionDeclarationsForInternalList
  | H_FunctionDeclarationsForUserListOpMode | C_BoundDefinitionList | C_BoundDefinitionListOpMode
  | P_BoundDefinitionList | G_BoundDefinitionList => true
  | _ => false
  end.

(* blocks that do not depend on a definition *)
Definition top_block (flt : list string) (b : blk) : list item :=
  if is_dispatcher b then map IDecl (dispatcher flt b)
  else
    match b with
    | H_IncludeGuard => [IDecl (mk DkDefine NsMacro (h_guard_macro (upper_case (snake_case (f_proto f)))) [])]
    | H_ImportList =>
        map (fun mj => IImport "" (c_import_target (f_proto (getf s (snd mj)))) (snd mj)) (f_imports f)
    | H_DefineMacroOpMode => [IDecl (mk DkDefine NsMacro "BITPROTO_OPTIMIZATION_MODE" [])]
    | C_Include | C_IncludeOpMode => [IImport "" (out_filename (f_base f) ext_h) i]
    | P_ImportChildProtoList =>
        map (fun mj => IImport (fst mj) (py_module_of (snd mj)) (snd mj)) (f_imports f)
    | G_ImportChildProtoList =>
        map (fun mj => IImport (fst mj) (go_path_of (snd mj)) (snd mj)) (f_imports f)
    | G_AvoidGeneralImportsNotUsed =>
        [IDecl (mk DkGoVar NsMod "formatInt" []); IDecl (mk DkGoVar NsMod "jsonMarshal" [])]
    | _ => []
    end.

Definition blocklist (t : target) : list blk :=
  match t with
  | TgH => h_blocklist | TgHO => h_blocklist_opmode
  | TgC => c_blocklist | TgCO => c_blocklist_opmode
  | TgPy => p_blocklist | TgGo => g_blocklist
  end.

Definition render_items (t : target) (flt : list string) : list item :=
  flat_map (fun b => flat_map (top_block flt) (expand 4 b)) (blocklist t).

(* some default value of the definition is None (in /repo: IndexError on fields()[0]); by
   [py_defval] this is false for every definition *)
Definition py_raises (fd : fdef) : bool :=
  match fd_def fd with
  | DAlias _ t => match py_defval false t with None => true | Some _ => false end
  | DMsg _ _ _ fs => existsb (fun fl => match py_field_default (fl_ty fl) with None => true | Some _ => false end) fs
  | _ => false
  end.

Definition render (t : target) (flt : list string) : option (list item) :=
  match t with
  | TgPy => if existsb py_raises (flat_file f) then None else Some (render_items t flt)
  | _ => Some (render_items t flt)
  end.

Definition ext_of (t : target) : string :=
  match t with TgH | TgHO => ext_h | TgC | TgCO => ext_c | TgPy => ext_py | TgGo => ext_go end.
(* Formatter.format_out_filename: the SOURCE FILE's base name, not the proto name *)
Definition out_name (t : target) : string := out_filename (f_base f) (ext_of t).

End WithFile.
End WithSchema.

Definition ns_eqb (a b : ns) : bool :=
  match a, b with
  | NsMacro, NsMacro | NsTag, NsTag | NsOrd, NsOrd | NsMod, NsMod => true
  | NsMember x, NsMember y => String.eqb x y
  | _, _ => false
  end.
Definition key := (ns * string)%type.
Definition key_eqb (a b : key) : bool := ns_eqb (fst a) (fst b) && String.eqb (snd a) (snd b).
Definition dkey (d : decl) : key := (d_ns d, d_name d).
Definition is_proto (d : decl) : bool := match d_kind d with DkProto => true | _ => false end.
Definition mem_key (k : key) (l : list key) : bool := existsb (key_eqb k) l.

Definition decls_of (its : list item) : list decl :=
  flat_map (fun it => match it with IDecl d => [d] | _ => [] end) its.
Definition header_of (t : target) : target :=
  match t with TgC => TgH | TgCO => TgHO | x => x end.

(* names a translation unit / module sees after `#include` / `import` of file j.  C headers
   include transitively; a Python / Go import only binds the member name. *)
Fixpoint exports (fuel : nat) (s : schema) (t : target) (flt : list string) (j : nat) : list key :=
  match fuel with
  | O => []
  | S k =>
      flat_map (fun it => match it with
                          | IDecl d => [dkey d]
                          | IImport _ _ j' => match lang_of t with LC => exports k s t flt j' | _ => [] end
                          end) (render_items s j (header_of t) flt)
  end.

Definition fuel_of (s : schema) : nat := S (length s).

(* every generated name a declaration uses is declared earlier in the same output or comes
   from an earlier include/import (deferred uses: anywhere in the output) *)
Definition use_ok (s : schema) (t : target) (flt : list string) (seen all : list key)
           (imps : list (string * nat)) (u : use) : bool :=
  if String.eqb (u_qual u) "" then
    mem_key (u_ns u, u_name u) (if u_eager u then seen else all)
  else
    existsb (fun mj => String.eqb (fst mj) (u_qual u) &&
                       mem_key (u_ns u, u_name u) (exports (fuel_of s) s t flt (snd mj))) imps.

Fixpoint dbu_go (s : schema) (t : target) (flt : list string) (all seen : list key)
         (imps : list (string * nat)) (its : list item) : bool :=
  match its with
  | [] => true
  | IImport m _ j :: r =>
      match lang_of t with
      | LC => dbu_go s t flt all (seen ++ exports (fuel_of s) s t flt j) imps r
      | _ => dbu_go s t flt all seen ((m, j) :: imps) r
      end
  | IDecl d :: r =>
      forallb (use_ok s t flt seen all imps) (d_uses d) &&
      dbu_go s t flt all (seen ++ [dkey d]) imps r
  end.

Definition all_keys (s : schema) (t : target) (flt : list string) (its : list item) : list key :=
  flat_map (fun it => match it with
                      | IDecl d => [dkey d]
                      | IImport _ _ j => match lang_of t with LC => exports (fuel_of s) s t flt j | _ => [] end
                      end) its.

Definition dbu_b (s : schema) (t : target) (flt : list string) (its : list item) : bool :=
  dbu_go s t flt (all_keys s t flt its) [] [] its.

Fixpoint nodup_keys (l : list key) : bool :=
  match l with [] => true | k :: r => negb (mem_key k r) && nodup_keys r end.

(* no two defining declarations share a name (per name space); prototypes are unique among
   prototypes (a prototype and the definition of the same function legitimately coincide) *)
Definition unique_b (ds : list decl) : bool :=
  nodup_keys (map dkey (filter (fun d => negb (is_proto d)) ds)) &&
  nodup_keys (map dkey (filter is_proto ds)).

(* the include / import statement names the file the compiler generates for that schema *)
Definition import_ok_b (s : schema) (t : target) (it : item) : bool :=
  match it with
  | IDecl _ => true
  | IImport _ tgt j =>
      match t with
      | TgH | TgHO | TgC | TgCO => String.eqb tgt (out_name s j TgH)
      | TgPy => String.eqb (tgt +++ ext_py) (out_name s j TgPy)
      | TgGo => true      (* a Go import names a package path, not a file: not checkable here *)
      end
  end.
Definition imports_ok_b (s : schema) (t : target) (its : list item) : bool := forallb (import_ok_b s t) its.

(* Go: every imported package is mentioned *)
Definition go_imports_used_b (its : list item) : bool :=
  forallb (fun it => match it with
                     | IImport m _ _ => existsb (fun d => existsb (fun u => String.eqb (u_qual u) m) (d_uses d)) (decls_of its)
                     | _ => true
                     end) its.

(* C vs C++: a struct without members has size 0 in C (GNU) and 1 in C++ *)
Definition structs_nonempty_b (its : list item) : bool :=
  forallb (fun d => match d_kind d with DkStruct => negb (d_members d =? 0) | _ => true end) (decls_of its).

(* gcc: aligned(n) needs a power of two *)
Definition is_pow2 (v : Z) : bool := existsb (Z.eqb v) [1; 2; 4; 8; 16; 32; 64; 128]%Z.
Definition align_ok (v : Z) : bool := (v =? 0)%Z || is_pow2 v.
