(* LexValue.v — the VALUE of number tokens: int(t.value) / int(t.value, 16) on a lexeme of the rule's regex is the
   Horner value of its digits (LexSpec.digits_val). *)
From Coq Require Import ZArith List Bool Lia.
From BP Require Import TotalBase LexBase LexSpec LexActions.
Import ListNotations.

(* the digit int() reads off a character is the scanner's [digit_val], in every base up to 36: the three
   ranges of [ndigit_of] are those of [digit_val], and its filler 99 never passes the base test *)
Lemma ndigit_val base c d : (base <= 36)%Z -> ndigit_of base c = Some d -> d = digit_val c.
Proof.
  unfold ndigit_of, digit_val, is_digit. intros Hb.
  destruct (N.leb_spec 48 c), (N.leb_spec c 57), (N.leb_spec 97 c); cbn [andb];
  destruct (Z.leb_spec 48 (Z.of_N c)), (Z.leb_spec (Z.of_N c) 57); cbn [andb]; try lia;
  destruct (Z.leb_spec 97 (Z.of_N c)), (Z.leb_spec (Z.of_N c) 122); cbn [andb]; try lia;
  destruct (Z.leb_spec 65 (Z.of_N c)), (Z.leb_spec (Z.of_N c) 90); cbn [andb]; try lia;
  match goal with |- (if ?b then _ else _) = _ -> _ => destruct b eqn:E end; intro K; inversion K; try lia;
  apply Z.ltb_lt in E; lia.
Qed.

Lemma ndigits_horner base : (base <= 36)%Z -> forall ds acc z,
  ndigits_value base acc ds = Some z -> z = fold_left (fun a c => (a * base + digit_val c)%Z) ds acc.
Proof.
  intro Hb. induction ds as [|c ds IH]; intros acc z H; cbn [ndigits_value fold_left] in *.
  - inversion H. reflexivity.
  - destruct (ndigit_of base c) as [d|] eqn:E; [|discriminate]. rewrite (ndigit_val base c d Hb E) in H. apply IH. exact H.
Qed.

Theorem npy_int_value base maxd s z : (base <= 36)%Z -> npy_int base maxd s = Ok z -> z = digits_val base (nstrip_0x base s).
Proof.
  intro Hb. unfold npy_int. cbv zeta. destruct (nstrip_0x base s) as [|c r]; [discriminate|].
  destruct (negb (is_pow2_base base) && (maxd <? zlen (c :: r))%Z); [discriminate|].
  destruct (ndigits_value base 0 (c :: r)) as [v|] eqn:E; [|discriminate]. intro H. inversion H; subst v.
  exact (ndigits_horner base Hb _ _ _ E).
Qed.

Theorem npy_int_dec_value maxd ds z : npy_int 10 maxd ds = Ok z -> z = digits_val 10 ds.
Proof. intro H. rewrite <- (nstrip_10 ds). exact (npy_int_value 10 maxd ds z ltac:(lia) H). Qed.

Theorem npy_int_hex_value maxd hs z : hs <> [] -> npy_int 16 maxd (48 :: 120 :: hs)%N = Ok z -> z = digits_val 16 hs.
Proof. intros _ H. exact (npy_int_value 16 maxd (48 :: 120 :: hs)%N z ltac:(lia) H). Qed.
