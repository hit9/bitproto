(* EmitProofs.v — lemmas behind props/C10.v: the shape of each target's output (which the later
   Emit* files start from), import names, Python defaults, escaped string constants. *)
From Coq Require Import String Ascii List Bool Arith.
From BP Require Import ListFacts EmitBase EmitNames Emit EmitSpec EmitCheck.
From BPGen Require Import GenC10.
Import ListNotations.
Open Scope string_scope.
Open Scope list_scope.
Open Scope nat_scope.

(* these equalities re-check the translated block lists of gen/GenC10.v: a reordering in
   /repo makes them fail *)

Section Shape.
Variables (s : schema) (i : nat) (flt : list string).
Let f := getf s i.

Definition guard_decl : decl := mk DkDefine NsMacro (h_guard_macro (upper_case (snake_case (f_proto f)))) [].
Definition opt_decl : decl := mk DkDefine NsMacro "BITPROTO_OPTIMIZATION_MODE" [].
Definition go_vars : list decl := [mk DkGoVar NsMod "formatInt" []; mk DkGoVar NsMod "jsonMarshal" []].
Definition h_guard : item := IDecl guard_decl.
Definition h_includes : list item :=
  map (fun mj => IImport "" (c_import_target (f_proto (getf s (snd mj)))) (snd mj)) (f_imports f).
Definition c_self_include : item := IImport "" (out_filename (f_base f) ext_h) i.
Definition p_imports : list item :=
  map (fun mj => IImport (fst mj) (py_module_of s (snd mj)) (snd mj)) (f_imports f).
Definition g_imports : list item :=
  map (fun mj => IImport (fst mj) (go_path_of s (snd mj)) (snd mj)) (f_imports f).
Definition disp (b : blk) : list item := map IDecl (dispatcher s i flt b).

Lemma items_TgH :
  render_items s i TgH flt =
  h_guard :: h_includes ++ disp H_DataStructuresList ++ disp H_FunctionDeclarationsForUserList
          ++ disp H_FunctionDeclarationsForInternalList.
Proof.
  unfold render_items, blocklist, h_blocklist.
  cbn [flat_map expand blocks_of app top_block is_dispatcher]. rewrite !app_nil_r. reflexivity.
Qed.

Lemma items_TgHO :
  render_items s i TgHO flt =
  h_guard :: h_includes ++ IDecl opt_decl :: disp H_DataStructuresList ++ disp H_FunctionDeclarationsForUserListOpMode.
Proof.
  unfold render_items, blocklist, h_blocklist_opmode.
  cbn [flat_map expand blocks_of app top_block is_dispatcher]. rewrite !app_nil_r. reflexivity.
Qed.

Lemma items_TgC : render_items s i TgC flt = c_self_include :: disp C_BoundDefinitionList.
Proof.
  unfold render_items, blocklist, c_blocklist.
  cbn [flat_map expand blocks_of app top_block is_dispatcher]. rewrite !app_nil_r. reflexivity.
Qed.

Lemma items_TgCO : render_items s i TgCO flt = c_self_include :: disp C_BoundDefinitionListOpMode.
Proof.
  unfold render_items, blocklist, c_blocklist_opmode.
  cbn [flat_map expand blocks_of app top_block is_dispatcher]. rewrite !app_nil_r. reflexivity.
Qed.

Lemma items_TgPy : render_items s i TgPy flt = p_imports ++ disp P_BoundDefinitionList.
Proof.
  unfold render_items, blocklist, p_blocklist.
  cbn [flat_map expand blocks_of app top_block is_dispatcher]. rewrite !app_nil_r. reflexivity.
Qed.

Lemma items_TgGo : render_items s i TgGo flt = g_imports ++ map IDecl go_vars ++ disp G_BoundDefinitionList.
Proof.
  unfold render_items, blocklist, g_blocklist.
  cbn [flat_map expand blocks_of app top_block is_dispatcher]. rewrite !app_nil_r. reflexivity.
Qed.

End Shape.

(* what a dispatcher writes for a definition of known kind: compute through the translated
   dispatch and composition tables down to the leaf blocks *)
Ltac unfold_dispatch :=
  unfold dispatch_one; cbn [fd_def fd_path dkind_of dispatch dispatch_filtered andb def_blocks expand blocks_of flat_map app leaf].

Lemma imports_ok_decls s t (ds : list decl) : imports_ok_b s t (map IDecl ds) = true.
Proof. unfold imports_ok_b. rewrite forallb_map. apply forallb_true. Qed.

Lemma imports_ok_app s t a b : imports_ok_b s t (a ++ b) = imports_ok_b s t a && imports_ok_b s t b.
Proof. unfold imports_ok_b. apply forallb_app. Qed.

Lemma h_includes_ok s i t :
  (t = TgH \/ t = TgHO) -> g_import LC s i = true -> imports_ok_b s t (h_includes s i) = true.
Proof.
  intros Ht Hg. unfold imports_ok_b, h_includes. rewrite forallb_map.
  unfold g_import in Hg. revert Hg. apply forallb_impl. intros mj H.
  apply String.eqb_eq in H.
  assert (E : String.eqb (c_import_target (f_proto (getf s (snd mj)))) (out_name s (snd mj) TgH) = true).
  { unfold c_import_target, out_name, out_filename, ext_of, ext_h. rewrite H. cbn [String.append].
    apply String.eqb_refl. }
  destruct Ht as [-> | ->]; cbn [import_ok_b]; exact E.
Qed.

Lemma self_include_ok s i t : (t = TgC \/ t = TgCO) -> import_ok_b s t (c_self_include s i) = true.
Proof.
  intros [-> | ->]; cbn [import_ok_b c_self_include]; unfold out_name, ext_of; apply String.eqb_refl.
Qed.

Lemma p_imports_ok s i : g_import LPy s i = true -> imports_ok_b s TgPy (p_imports s i) = true.
Proof.
  intros Hg. unfold imports_ok_b, p_imports. rewrite forallb_map.
  unfold g_import in Hg. revert Hg. apply forallb_impl. intros mj H.
  apply String.eqb_eq in H. cbn [import_ok_b snd]. rewrite H.
  unfold out_name, out_filename, ext_of. rewrite sapp_assoc. apply String.eqb_refl.
Qed.

Theorem import_refers_to_generated_file s i t flt :
  g_import (lang_of t) s i = true -> imports_ok_b s t (render_items s i t flt) = true.
Proof.
  intros Hg. destruct t; cbn [lang_of] in Hg.
  - rewrite items_TgH. change (?x :: ?l) with ([x] ++ l). unfold disp.
    rewrite !imports_ok_app, !imports_ok_decls, h_includes_ok by (auto). reflexivity.
  - rewrite items_TgC. cbn [imports_ok_b forallb]. rewrite self_include_ok by auto.
    apply imports_ok_decls.
  - rewrite items_TgHO. unfold disp.
    change (h_guard s i :: ?l) with ([h_guard s i] ++ l). change (IDecl ?d :: ?l) with (map IDecl [d] ++ l).
    rewrite !imports_ok_app, !imports_ok_decls, h_includes_ok by auto. reflexivity.
  - rewrite items_TgCO. cbn [imports_ok_b forallb]. rewrite self_include_ok by auto.
    apply imports_ok_decls.
  - rewrite items_TgPy. unfold disp. rewrite imports_ok_app, imports_ok_decls, p_imports_ok by auto. reflexivity.
  - unfold imports_ok_b. apply forallb_forall. intros it _. destruct it; reflexivity.
Qed.

Lemma py_defval_some s eager t : exists us, py_defval s eager t = Some us.
Proof.
  induction t as [b | r | e IH cap x].
  - eexists. reflexivity.
  - cbn [py_defval]. destruct (r_k r).
    + destruct (enum_members s r) as [[|m ms]|]; eexists; reflexivity.
    + eexists. reflexivity.
    + eexists. reflexivity.
  - cbn [py_defval]. destruct (is_byte e); [eexists; reflexivity | exact IH].
Qed.

Lemma py_field_default_some s t : exists us, py_field_default s t = Some us.
Proof. unfold py_field_default. destruct (is_arr t); apply py_defval_some. Qed.

Theorem py_defaults_exist s i flt :
  (exists its, render s i TgPy flt = Some its) /\
  (forall fl, exists us, py_field_default s (fl_ty fl) = Some us) /\
  (* the default of an enum-typed field mentions the enum class only when the enum has a member *)
  (forall r eager, r_k r = RkEnum ->
     match enum_members s r with
     | Some (_ :: _) => py_defval s eager (TRef r) = Some [mkUse NsMod (ref_qual LPy r) (ref_name s LPy r) eager]
     | _ => py_defval s eager (TRef r) = Some []
     end).
Proof.
  split; [|split].
  - unfold render. replace (existsb (py_raises s) (flat_file (getf s i))) with false; [eexists; reflexivity|].
    symmetry. apply existsb_false_forall. intros fd _. unfold py_raises.
    destruct (fd_def fd) as [n v | n t | n w ms | n x nested fs]; try reflexivity.
    + destruct (py_defval_some s false t) as [us ->]. reflexivity.
    + apply existsb_false_forall. intros fl _. destruct (py_field_default_some s (fl_ty fl)) as [us ->]. reflexivity.
  - intros fl. apply py_field_default_some.
  - intros r eager Hk. cbn [py_defval]. rewrite Hk. destruct (enum_members s r) as [[|m ms]|]; reflexivity.
Qed.

(* every character that would end or corrupt a double-quoted literal in C, Go or Python is
   escaped by the translated Formatter.escape_str_value *)
Theorem string_constants_escaped s i : str_consts_ok s i = true.
Proof.
  unfold str_consts_ok. apply forallb_forall. intros d _. destruct d as [n v | | |]; try reflexivity.
  destruct v as [z | b | v]; try reflexivity. apply forallb_forall. intros c _.
  unfold bad_str_char, char_escaped.
  destruct (nat_of_ascii c =? 34) eqn:E1; [apply Nat.eqb_eq in E1; rewrite E1; reflexivity|].
  destruct (nat_of_ascii c =? 92) eqn:E2; [apply Nat.eqb_eq in E2; rewrite E2; reflexivity|].
  destruct (nat_of_ascii c =? 10) eqn:E3; [apply Nat.eqb_eq in E3; rewrite E3; reflexivity|].
  destruct (nat_of_ascii c =? 13) eqn:E4; [apply Nat.eqb_eq in E4; rewrite E4; reflexivity|].
  reflexivity.
Qed.
