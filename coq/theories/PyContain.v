(* PyContain.v — C07, Python half: the bits a field contributes depend only on its low n
   bits.  Integer fields may hold ARBITRARY integers (shape_ty): the encoder model still
   returns Spec.wire, and wire only looks at each leaf modulo 2^n, so an out-of-range value
   changes no bit of another field or of the padding. *)
From Coq Require Import ZArith List Bool Lia.
From BP Require Import Bits Schema Spec PyRt PyEncProofs PyEncTop.
Import ListNotations.
Open Scope Z_scope.

(* same structure, integer leaves congruent modulo 2^width *)
Fixpoint val_cong (t : ty) (a b : val) : bool :=
  match t with
  | TBool => match a, b with VB x, VB y => Bool.eqb x y | _, _ => false end
  | TByte => match a, b with VZ x, VZ y => x mod 2 ^ 8 =? y mod 2 ^ 8 | _, _ => false end
  | TUint n => match a, b with VZ x, VZ y => x mod 2 ^ n =? y mod 2 ^ n | _, _ => false end
  | TInt n => match a, b with VZ x, VZ y => x mod 2 ^ n =? y mod 2 ^ n | _, _ => false end
  | TEnum _ _ => match a, b with VZ x, VZ y => x =? y | _, _ => false end
  | TAlias t' => val_cong t' a b
  | TArr _ _ e =>
      match a, b with
      | VL l1, VL l2 =>
          (fix go (l1 l2 : list val) : bool :=
             match l1, l2 with
             | [], [] => true
             | x :: r1, y :: r2 => val_cong e x y && go r1 r2
             | _, _ => false
             end) l1 l2
      | _, _ => false
      end
  | TMsg _ fs =>
      (fix go (l : list (Z * ty)) : bool :=
         match l with
         | [] => true
         | kf :: r => val_cong (snd kf) (vfield (fst kf) a) (vfield (fst kf) b) && go r
         end) fs
  end.

Definition list_cong (e : ty) :=
  fix go (l1 l2 : list val) : bool :=
    match l1, l2 with
    | [], [] => true
    | x :: r1, y :: r2 => val_cong e x y && go r1 r2
    | _, _ => false
    end.

Theorem enc_bits_cong t : forall a b,
  wf t = true -> val_cong t a b = true -> enc_bits t a = enc_bits t b.
Proof.
  induction t as [| | n | n | n ms | t IH | x c e IH | x fs IH] using ty_ind'; intros a b Hw Hc.
  - destruct a, b; cbn in *; try discriminate. f_equal. now apply eqb_prop.
  - destruct a, b; cbn [val_cong enc_bits zof] in *; try discriminate.
    apply (bits_of_congr 8). change (Z.of_nat 8) with 8. lia.
  - destruct a, b; cbn [val_cong enc_bits zof wf] in *; try discriminate.
    apply bits_of_congr. rewrite Z2Nat.id by lia. lia.
  - destruct a, b; cbn [val_cong enc_bits zof wf] in *; try discriminate.
    apply bits_of_congr. rewrite Z2Nat.id by lia. lia.
  - destruct a, b; cbn [val_cong enc_bits zof] in *; try discriminate.
    f_equal. lia.
  - cbn [val_cong enc_bits wf] in *. now apply IH.
  - cbn [wf] in Hw. rewrite !andb_true_iff in Hw. destruct Hw as [_ He].
    destruct a as [?|?|l1|?], b as [?|?|l2|?]; cbn [val_cong] in Hc; try discriminate.
    change (list_cong e l1 l2 = true) in Hc.
    cbn [enc_bits vlist]. f_equal.
    revert l2 Hc; induction l1 as [|h1 r1 IHl]; intros [|h2 r2] Hc; cbn [list_cong] in Hc;
      try discriminate; [reflexivity|].
    rewrite andb_true_iff in Hc. destruct Hc as [H1 H2]. cbn [flat_map].
    rewrite (IH h1 h2 He H1). f_equal. now apply IHl.
  - rewrite !enc_bits_msg. f_equal. apply fields_bits_ext. intros k ft Hin.
    apply (proj1 (Forall_forall _ _) IH _ Hin); [apply (wf_msg_In _ _ _ _ Hw Hin)|].
    change (forallb (fun kf => val_cong (snd kf) (vfield (fst kf) a) (vfield (fst kf) b)) fs = true) in Hc.
    exact (proj1 (forallb_forall _ _) Hc _ Hin).
Qed.

Theorem py_contained t v1 v2 :
  is_msg t = true -> wf (norm t) = true ->
  shape_ty (norm t) v1 = true -> shape_ty (norm t) v2 = true ->
  val_cong (norm t) v1 v2 = true ->
  py_encode t v1 = py_encode t v2.
Proof.
  intros Hm Hw H1 H2 Hc.
  rewrite (py_encode_any_ints t v1 Hm Hw H1), (py_encode_any_ints t v2 Hm Hw H2).
  unfold wire. now rewrite (enc_bits_cong _ v1 v2 Hw Hc).
Qed.
