(* PyDecStep.v — process_base_type in the decode direction: the leaf addressed by
   (field number, index stack) ends up holding exactly the n stream bits under the cursor,
   combined chunk by chunk as the generated bp_set_byte does (|=, with the bp.intN caster
   for signed fields), for every n, cursor and buffer (no bound).  Before that, the laws of the
   path functions (set_idx, set_field, at_leaf) and [slice], the n bits of a buffer at bit i. *)
From Coq Require Import ZArith List Lia.
From BP Require Import Bits Schema PyRt ByteStep PyEncProofs.
From BPGen Require Import GenPy.
Import ListNotations.
Open Scope Z_scope.

Fixpoint set_idx (v : val) (idx : list nat) (nv : val) : val :=
  match idx with
  | [] => nv
  | k :: r => match v with
              | VL l => VL (upd l k (set_idx (nth k l (VZ 0)) r nv))
              | _ => v
              end
  end.

Lemma nth_error_upd_same {A} (l : list A) k x :
  (k < length l)%nat -> nth_error (upd l k x) k = Some x.
Proof. revert k; induction l as [|a r IH]; intros [|k] H; cbn in *; try lia; auto. apply IH. lia. Qed.

Lemma upd_twice {A} (l : list A) k x y : upd (upd l k x) k y = upd l k y.
Proof. revert k; induction l as [|a r IH]; intros [|k]; cbn; auto. now rewrite IH. Qed.

Lemma nth_upd_same (l : list val) k x d : (k < length l)%nat -> nth k (upd l k x) d = x.
Proof. revert k; induction l as [|a r IH]; intros [|k] H; cbn in *; try lia; auto. apply IH. lia. Qed.

Lemma nth_error_some_lt {A} (l : list A) k x : nth_error l k = Some x -> (k < length l)%nat.
Proof. intros H. apply nth_error_Some. congruence. Qed.

Lemma update_val_set_idx v idx nv cur :
  index_val v idx = Ok cur -> update_val v idx nv = Ok (set_idx v idx nv).
Proof.
  revert v; induction idx as [|k r IH]; intros v H; [reflexivity|].
  cbn [index_val update_val set_idx] in *. destruct v as [?|?|l|?]; try discriminate.
  destruct (nth_error l k) as [x|] eqn:E; [|discriminate].
  rewrite (IH x H). cbn [bind]. now rewrite (nth_error_nth _ _ (VZ 0) E).
Qed.

Lemma index_set_idx v idx nv cur :
  index_val v idx = Ok cur -> index_val (set_idx v idx nv) idx = Ok nv.
Proof.
  revert v; induction idx as [|k r IH]; intros v H; [reflexivity|].
  cbn [index_val set_idx] in *. destruct v as [?|?|l|?]; try discriminate.
  destruct (nth_error l k) as [x|] eqn:E; [|discriminate].
  rewrite nth_error_upd_same by (eapply nth_error_some_lt; eassumption).
  rewrite (nth_error_nth _ _ (VZ 0) E). now apply IH.
Qed.

Lemma set_idx_twice v idx x y cur :
  index_val v idx = Ok cur -> set_idx (set_idx v idx x) idx y = set_idx v idx y.
Proof.
  revert v; induction idx as [|k r IH]; intros v H; [reflexivity|].
  cbn [index_val set_idx] in *. destruct v as [?|?|l|?]; try discriminate.
  destruct (nth_error l k) as [e|] eqn:E; [|discriminate].
  pose proof (nth_error_some_lt _ _ _ E) as Hk.
  rewrite upd_twice, nth_upd_same by assumption.
  rewrite (nth_error_nth _ _ (VZ 0) E). now rewrite (IH e H).
Qed.

Lemma upd_nth_id (l : list val) k : (k < length l)%nat -> upd l k (nth k l (VZ 0)) = l.
Proof. revert k; induction l as [|a r IH]; intros [|k] H; cbn in *; try lia; auto. now rewrite IH by lia. Qed.

Lemma set_idx_id v idx cur : index_val v idx = Ok cur -> set_idx v idx cur = v.
Proof.
  revert v; induction idx as [|k r IH]; intros v H.
  - cbn in *. congruence.
  - cbn [index_val set_idx] in *. destruct v as [?|?|l|?]; try discriminate.
    destruct (nth_error l k) as [e|] eqn:E; [|discriminate].
    rewrite (nth_error_nth _ _ (VZ 0) E), (IH e H).
    rewrite <- (nth_error_nth _ _ (VZ 0) E) at 1.
    now rewrite upd_nth_id by (eapply nth_error_some_lt; eassumption).
Qed.

Lemma lookup_set_field_same k x (vs : list (Z * val)) a :
  lookup k vs = Some a -> lookup k (set_field k x vs) = Some x.
Proof.
  induction vs as [|h r IH]; cbn [lookup set_field]; intros H; [discriminate|].
  destruct (fst h =? k) eqn:E; cbn [lookup fst snd].
  - now rewrite Z.eqb_refl.
  - rewrite E. now apply IH.
Qed.

Lemma set_field_twice k x y (vs : list (Z * val)) :
  set_field k y (set_field k x vs) = set_field k y vs.
Proof.
  induction vs as [|h r IH]; cbn [set_field]; [reflexivity|].
  destruct (fst h =? k) eqn:E; cbn [set_field fst].
  - now rewrite Z.eqb_refl.
  - rewrite E. now rewrite IH.
Qed.

Lemma set_field_id k (vs : list (Z * val)) a : lookup k vs = Some a -> set_field k a vs = vs.
Proof.
  induction vs as [|h r IH]; cbn [lookup set_field]; intros H; [reflexivity|].
  destruct (fst h =? k) eqn:E.
  - apply Z.eqb_eq in E. destruct h as [k' v']. cbn in *. subst. congruence.
  - now rewrite IH.
Qed.

Definition slice (s : list Z) (i n : Z) : Z := (bufZ s / 2 ^ i) mod 2 ^ n.

(* bits [ci, ci+c) of the buffer, read through the byte under the cursor *)
Lemma cursor_slice s ci c :
  bytes_ok s -> 0 <= ci -> 0 <= c -> c <= 8 - ci mod 8 ->
  Z.shiftr (nth (Z.to_nat (ci / 8)) s 0) (ci mod 8) mod 2 ^ c = slice s ci c.
Proof.
  intros Hs Hci Hc Hle. pose proof (Z.mod_pos_bound ci 8 ltac:(lia)).
  rewrite Z.shiftr_div_pow2 by lia. now apply chunk_through_byte.
Qed.

Lemma slice_range s i n : 0 <= n -> 0 <= slice s i n < 2 ^ n.
Proof. apply chunk_range. Qed.

(* the chunk one decode step hands to the accessor, positioned by the accessor's lshift *)
Lemma dec_chunk_at s i j cnt :
  bytes_ok s -> 0 <= i -> 0 <= j -> 1 <= cnt -> cnt <= 8 - i mod 8 -> cnt <= 8 - j mod 8 ->
  let d := dec_d (nth (Z.to_nat (i / 8)) s 0) i j cnt in
  0 <= d < 256 /\ Z.shiftl d (dec_lshift j) = slice s i cnt * 2 ^ j.
Proof.
  intros Hs Hi Hj Hc1 Hci Hcj d.
  pose proof (Z.mod_pos_bound i 8 ltac:(lia)) as Hmi.
  pose proof (Z.mod_pos_bound j 8 ltac:(lia)) as Hmj.
  pose proof (Z.div_mod j 8 ltac:(lia)) as Hdmj.
  assert (Hqj : 0 <= j / 8) by (apply Z.div_pos; lia).
  pose proof (nth_bytes_ok s (Z.to_nat (i / 8)) Hs) as Hbr. unfold is_byte in Hbr.
  assert (Hdv : d = slice s i cnt * 2 ^ (j mod 8)).
  { unfold d. rewrite dec_d_enc_d, enc_d_spec by lia. now rewrite cursor_slice by (try assumption; lia). }
  pose proof (slice_range s i cnt ltac:(lia)) as Hm.
  assert (Hpj : 0 < 2 ^ (j mod 8)) by (apply pow2_pos; lia).
  assert (Hpw : 2 ^ cnt * 2 ^ (j mod 8) <= 256).
  { rewrite <- Z.pow_add_r by lia. change 256 with (2 ^ 8). apply Z.pow_le_mono_r; lia. }
  split; [rewrite Hdv; nia|].
  rewrite Hdv. unfold dec_lshift. rewrite Z.shiftl_mul_pow2 by lia.
  rewrite <- Z.mul_assoc, <- Z.pow_add_r by lia. do 2 f_equal. lia.
Qed.

Lemma dec_single_byte_spec c acc fn stk j cnt s i :
  0 <= i < 8 * Z.of_nat (length s) ->
  dec_single_byte c acc fn stk j cnt {| cs := s; ci := i |} =
  set_byte c acc fn stk (dec_lshift j) (dec_d (nth (Z.to_nat (i / 8)) s 0) i j cnt).
Proof.
  intros Hi. unfold dec_single_byte, dec_index. cbn [cs ci].
  assert (0 <= i / 8 < Z.of_nat (length s))
    by (split; [apply Z.div_pos|apply Z.div_lt_upper_bound]; lia).
  now rewrite (nth_error_nth' s 0) by lia.
Qed.

Section Leaf.
  Variables (c : cls) (vs : list (Z * val)) (fn : Z) (stk : list nat) (a : val).
  Hypothesis Hl : lookup fn vs = Some a.
  Variable cur0 : val.
  Hypothesis Hidx : index_val a stk = Ok cur0.

  Definition at_leaf (x : val) : val := VM (set_field fn (set_idx a stk x) vs).

  Lemma at_leaf_id : at_leaf cur0 = VM vs.
  Proof. unfold at_leaf. rewrite (set_idx_id _ _ _ Hidx). now rewrite (set_field_id _ _ _ Hl). Qed.

  Lemma lookup_at_leaf x : lookup fn (set_field fn (set_idx a stk x) vs) = Some (set_idx a stk x).
  Proof. eapply lookup_set_field_same; eassumption. Qed.

  Lemma read_attr_raw_at x : stk = [] -> read_attr_raw (at_leaf x) fn = Ok x.
  Proof. intros E. unfold at_leaf, read_attr_raw. rewrite lookup_at_leaf. rewrite E. reflexivity. Qed.

  Lemma write_attr_at x y : stk = [] -> write_attr (at_leaf x) fn y = Ok (at_leaf y).
  Proof. intros E. unfold at_leaf, write_attr. rewrite set_field_twice. rewrite E. reflexivity. Qed.

  Section NoProxy.
    Hypothesis Hnp : lookup fn (c_proxy c) = None.

    Lemma read_ref_at x : read_ref c (at_leaf x) fn stk (length stk) = Ok x.
    Proof.
      unfold read_ref. rewrite stack_prefix_full. cbn [bind].
      unfold read_attr, at_leaf. rewrite lookup_at_leaf, Hnp. cbn [bind].
      eapply index_set_idx; eassumption.
    Qed.

    Lemma write_ref_at x y : write_ref c (at_leaf x) fn stk (length stk) y = Ok (at_leaf y).
    Proof.
      unfold write_ref. rewrite stack_prefix_full. cbn [bind].
      assert (Hgen : (a' <- read_attr c (at_leaf x) fn ;; a'' <- update_val a' stk y ;; write_attr (at_leaf x) fn a'')
                     = Ok (at_leaf y)).
      { unfold read_attr, at_leaf. rewrite lookup_at_leaf, Hnp. cbn [bind].
        rewrite (update_val_set_idx _ _ y x) by (eapply index_set_idx; eassumption). cbn [bind].
        unfold write_attr. rewrite set_field_twice.
        now rewrite (set_idx_twice _ _ _ _ _ Hidx). }
      destruct stk as [|k r] eqn:Es.
      - exact (write_attr_at x y Es).
      - exact Hgen.
    Qed.
  End NoProxy.
End Leaf.

(* A chunk loop over the n-bit field at bit i0 of the buffer s, whatever the runtime: P fuel acc j x
   is the runtime's loop from chunk offset j (PyRt.pbt_dec, GoRt.go_pbt_dec), setb its byte setter.
   A runtime shows it by showing that its helpers compute the Python formulas and that its buffer
   index is in range (py_chunks, GoDecStep.go_chunks). *)
Definition is_chunk_loop (P : nat -> val -> Z -> ctx -> res (val * ctx)) (setb : val -> Z -> Z -> res val)
    (n i0 : Z) (s : list Z) : Prop :=
  (forall f acc x, P f acc n x = Ok (acc, x)) /\
  (forall f acc j, 0 <= j < n ->
     let cnt := get_nbits_to_copy (i0 + j) j n in
     P (S f) acc j {| cs := s; ci := i0 + j |} =
     (acc' <- setb acc (dec_lshift j) (dec_d (nth (Z.to_nat ((i0 + j) / 8)) s 0) (i0 + j) j cnt) ;;
      P f acc' (j + cnt) {| cs := s; ci := i0 + j + cnt |})).

(* the loop is generic in how a chunk is combined into the leaf (comb) *)
Section Chunks.
  Variable P : nat -> val -> Z -> ctx -> res (val * ctx).
  Variable setb : val -> Z -> Z -> res val.
  Variables (n i0 : Z) (s : list Z).
  Hypothesis HP : is_chunk_loop P setb n i0 s.
  Hypothesis Hi0 : 0 <= i0.
  Hypothesis Hs : bytes_ok s.
  Variable leaf : val -> val.
  Variable comb : Z -> Z -> Z.
  Hypothesis Hset : forall z lshift d, 0 <= d < 256 -> 0 <= lshift < n -> lshift mod 8 = 0 ->
    setb (leaf (VZ z)) lshift d = Ok (leaf (VZ (comb z (Z.shiftl d lshift)))).
  (* F j: the integer in the leaf once the chunks below bit j of the field are combined in *)
  Variable F : Z -> Z.
  Hypothesis Hstep : forall j cnt,
    0 <= j -> 1 <= cnt -> j + cnt <= n ->
    comb (F j) (slice s (i0 + j) cnt * 2 ^ j) = F (j + cnt).

  Lemma chunk_loop :
    forall fuel j,
      (Z.to_nat (n - j) <= fuel)%nat -> 0 <= j <= n ->
      P fuel (leaf (VZ (F j))) j {| cs := s; ci := i0 + j |} =
      Ok (leaf (VZ (F n)), {| cs := s; ci := i0 + n |}).
  Proof.
    destruct HP as [P_end P_step].
    induction fuel as [|f IH]; intros j Hfuel Hj;
      (destruct (Z.eq_dec j n) as [->|Hne]; [apply P_end|]); [lia|].
    rewrite P_step by lia. cbv zeta.
    pose proof (nbits_to_copy_range (i0 + j) j n ltac:(lia)) as (Hc1 & Hc2 & Hc3 & Hc4).
    set (cnt := get_nbits_to_copy (i0 + j) j n) in *.
    destruct (dec_chunk_at s (i0 + j) j cnt Hs ltac:(lia) ltac:(lia) Hc1 Hc4 Hc3) as (Hdr & Hd).
    rewrite Hset by (try exact Hdr; unfold dec_lshift; Z.div_mod_to_equations; lia).
    cbn [bind]. rewrite Hd, Hstep by lia.
    replace (i0 + j + cnt) with (i0 + (j + cnt)) by lia.
    apply IH; lia.
  Qed.
End Chunks.

Lemma py_chunks c fn stk n i0 s :
  0 <= i0 -> i0 + n <= 8 * Z.of_nat (length s) ->
  is_chunk_loop (fun f acc j x => pbt_dec f n c acc fn stk j x) (fun acc l d => set_byte c acc fn stk l d)
                n i0 s.
Proof.
  intros Hi0 Hlen. split.
  - intros [|f] acc x; cbn [pbt_dec]; now rewrite Z.ltb_irrefl.
  - intros f acc j Hj. cbn [pbt_dec cs ci]. replace (j <? n) with true by lia.
    now rewrite dec_single_byte_spec by lia.
Qed.
