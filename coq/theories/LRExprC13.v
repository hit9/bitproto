(* LRExprC13.v — link between C13's expression model (ConstExpr.v: precedence-climbing evaluator
   driven by the translated precedence table, proved equal to [denote] on [pretty e]) and the REAL
   LALR tables: what ConstExpr.pretty prints for a tree is exactly the token sequence LRFacts
   feeds to the tables, which parse it back to that tree ([c13_expr_all], for every tree over the four
   operators with integer leaves; C13_lr states it on LRFacts.expr_domain). *)
From Coq Require Import NArith List Arith Bool String Lia.
From BP Require Import LR LRConcrete LRFacts ConstExpr.
Import ListNotations.

Definition op_of (o : nat) : ConstExpr.op :=
  match o with 0 => OPlus | 1 => OMinus | 2 => OTimes | _ => ODivide end.

Fixpoint embed (e : ex) : ConstExpr.expr :=
  match e with
  | XInt => EDec 1%N
  | XBin o a b => EBin (op_of o) (embed a) (embed b)
  end.

Definition tok_id (t : ConstExpr.token) : nat :=
  match t with
  | TInt _ => term_id "INT_LITERAL"
  | THex _ => term_id "HEX_LITERAL"
  | TIdent _ => term_id "IDENTIFIER"
  | TOp OPlus => term_id "PLUS"
  | TOp OMinus => term_id "MINUS"
  | TOp OTimes => term_id "TIMES"
  | TOp ODivide => term_id "DIVIDE"
  | TLParen => term_id "("
  | TRParen => term_id ")"
  end%string.

(* LRFacts.cur_tr again: [c13_expr_all] applies [expr_parsed] up to this conversion *)
Definition lr_tr : ex -> list nat * list nat :=
  ex_tr p_binop p_calc_bin p_grp p_calc_grp p_intl p_calc_int (term_id "(") (term_id ")")
        (term_id "INT_LITERAL") (map op_tok [0; 1; 2; 3]).

Definition par_t : list nat * list nat -> list nat * list nat :=
  par p_grp p_calc_grp (term_id "(") (term_id ")").

(* C13's printer and the LR-side printer agree on every tree whose operators are among the four
   (op_of and op_tok send any larger index to DIVIDE, ex_tr's table lookup does not): both put
   parentheses around an operand exactly when it binds less tightly than its context. *)
Lemma pp_embed e : ops_ok e = true -> forall ctx, ctx <= 3 ->
  map tok_id (ConstExpr.pp ctx (embed e)) =
  fst (if Nat.ltb (eprec e) ctx then par_t (lr_tr e) else lr_tr e).
Proof.
  induction e as [|o a IHa b IHb]; intros Ho ctx Hc.
  - cbn [eprec]. destruct (Nat.ltb_spec 9 ctx); [lia|reflexivity].
  - cbn [ops_ok] in Ho. apply andb_true_iff in Ho. destruct Ho as [Ho Hb].
    apply andb_true_iff in Ho. destruct Ho as [Ho Ha].
    assert (Hs : sprec (op_of o) = xprec o /\ xprec o <= 2 /\
                 tok_id (TOp (op_of o)) = nth o (map op_tok [0; 1; 2; 3]) 0).
    { destruct o as [|[|[|[|]]]]; try discriminate Ho; repeat split; repeat constructor. }
    destruct Hs as (Hs & Hx & Ht).
    cbn [embed ConstExpr.pp eprec]. rewrite Hs.
    assert (Body : map tok_id (ConstExpr.pp (xprec o) (embed a) ++
                               TOp (op_of o) :: ConstExpr.pp (S (xprec o)) (embed b)) =
                   fst (lr_tr (XBin o a b))).
    { rewrite map_app. cbn [map]. rewrite (IHa Ha), (IHb Hb), Ht by auto using le_n_S, le_S.
      reflexivity. }
    destruct (Nat.ltb (xprec o) ctx).
    + cbn [map]. rewrite map_app, Body. reflexivity.
    + exact Body.
Qed.

Lemma c13_expr_all e : ops_ok e = true ->
  parse (ctx_pre_t ++ map tok_id (ConstExpr.pretty (embed e)) ++ ctx_post_t) =
  Accept (fst ctx_reds ++ snd (lr_tr e) ++ snd ctx_reds)%list.
Proof. intros Ho. rewrite (pp_embed e Ho 0 (Nat.le_0_l _) : map tok_id (ConstExpr.pretty (embed e)) = fst (lr_tr e)). exact (expr_parsed e Ho). Qed.

Lemma c13_expr_pointwise : forall e, In e expr_domain ->
  exists rs, parse (ctx_pre_t ++ map tok_id (ConstExpr.pretty (embed e)) ++ ctx_post_t) = Accept rs /\
             rs = (fst ctx_reds ++ snd (lr_tr e) ++ snd ctx_reds)%list.
Proof. intros e I. eexists. split; [|reflexivity]. exact (c13_expr_all e (proj1 (forallb_forall _ _) expr_domain_ops_ok e I)). Qed.
