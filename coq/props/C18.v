(* C18 — Compilation is deterministic.   PARTIAL BY NATURE.

   What is proved here (for ALL histories of operations, by induction):
     the in-process half — the memoisation of the compiler (utils.conditional_cache /
     _ast.cache_if_frozen / functools.cache over identity-hashed, freezable AST nodes) is
     TRANSPARENT: every operation returns what the uncached reference semantics returns, whatever
     was compiled before or in between in the same process, including when the collector
     frees nodes and the allocator re-uses their addresses (id()).
   What is NOT expressible in a Gallina model and is only SAMPLED by tools/props/c18.py:
     hash-seed / process / cwd / outdir / path independence of CPython running the compiler.

   Model: theories/Memo.v (decision functions re-translated from the source on every run:
   gen/GenMemo.v).  Only statements here; proofs in theories/MemoProofs.v, MemoRules.v,
   MemoWitness.v. *)
From Coq Require Import ZArith List String.
From BPGen Require Import GenMemo.
From BP Require Import Memo MemoProofs MemoRules MemoWitness MemoCase.
Import ListNotations.
Open Scope Z_scope.

(* F: the cached methods, arbitrary functions of what a method can see of its node (to depth D);
   [always f]: f is under the unconditional functools.cache (must read class-level data only).
   Preconditions, exactly what the code and its environment guarantee:
     disciplined : a node is frozen only after everything it points to is frozen (the parser
                   completes children before parents; checked on the real parser in T2);
     env_ok      : the allocator never returns the address of a live object.
   Everything else (frozen nodes reject mutation, memo keys stay alive, only frozen nodes are
   memoised) is maintained by the machine's own transitions, whose decisions are the
   translated source. *)
Theorem C18_memo_transparent :
  forall (F : fid -> tree -> Z -> option Z) (always : fid -> bool) (D : nat),
  (forall f, always f = true -> forall t t' x, root_tag t = root_tag t' -> F f t x = F f t' x) ->
  forall h : list op,
  disciplined F D r0 h = true ->
  env_ok F always real_cond real_pin D c0 h = true ->
  map fst (crun F always real_cond real_pin D c0 h) = rrun F D r0 h.
Proof. exact memo_transparent_real. Qed.
Print Assumptions C18_memo_transparent.

(* the invariant behind it: after any history every memo entry belongs to a LIVE node that is
   frozen (or the method is class-level) and holds the method's value on the node's CURRENT view *)
Theorem C18_memo_table_sound :
  forall (F : fid -> tree -> Z -> option Z) (always : fid -> bool) (D : nat),
  (forall f, always f = true -> forall t t' x, root_tag t = root_tag t' -> F f t x = F f t' x) ->
  forall h : list op,
  disciplined F D r0 h = true ->
  env_ok F always real_cond real_pin D c0 h = true ->
  forall f a x r, In (f, a, x, r) (memo (cfinal F always real_cond real_pin D c0 h)) ->
    exists cc, heap (cfinal F always real_cond real_pin D c0 h) a = Some cc /\
               (c_fr cc = true \/ always f = true) /\
               F f (cview D (heap (cfinal F always real_cond real_pin D c0 h)) a) x = Some r.
Proof. exact memo_table_sound_real. Qed.
Print Assumptions C18_memo_table_sound.

(* the discipline is an invariant: frozen nodes only point to frozen nodes, after any history *)
Theorem C18_frozen_closed_invariant :
  forall (F : fid -> tree -> Z -> option Z) (always : fid -> bool) (D : nat),
  (forall f, always f = true -> forall t t' x, root_tag t = root_tag t' -> F f t x = F f t' x) ->
  forall h : list op,
  disciplined F D r0 h = true ->
  env_ok F always real_cond real_pin D c0 h = true ->
  forall n c, rfinal F D r0 h n = Some c -> r_fr c = true ->
    forall d, In d (r_deps c) -> r_frozen (rfinal F D r0 h) d = true.
Proof. exact discipline_keeps_frozen_closed_real. Qed.
Print Assumptions C18_frozen_closed_invariant.

(* th: a joint history, each operation tagged with the compilation it belongs to; the two
   compilations work on disjoint names (P).  Each one obtains, operation by operation, what it
   obtains when run alone in a fresh process. *)
Theorem C18_interleaving :
  forall (F : fid -> tree -> Z -> option Z) (always : fid -> bool) (D : nat),
  (forall f, always f = true -> forall t t' x, root_tag t = root_tag t' -> F f t x = F f t' x) ->
  forall (P : name -> bool) (th : list (bool * op)) (b : bool),
  separated P th = true ->
  disciplined F D r0 (map snd th) = true ->
  env_ok F always real_cond real_pin D c0 (map snd th) = true ->
  env_ok F always real_cond real_pin D c0 (sel b th) = true ->
  sel_out b th (map fst (crun F always real_cond real_pin D c0 (map snd th))) =
  map fst (crun F always real_cond real_pin D c0 (sel b th)).
Proof. exact interleaving_real. Qed.
Print Assumptions C18_interleaving.

(* the same on the uncached reference machine, with the discipline inherited *)
Theorem C18_interleaving_reference :
  forall (F : fid -> tree -> Z -> option Z) (D : nat) (P : name -> bool)
         (th : list (bool * op)) (b : bool),
  separated P th = true ->
  sel_out b th (rrun F D r0 (map snd th)) = rrun F D r0 (sel b th) /\
  (disciplined F D r0 (map snd th) = true -> disciplined F D r0 (sel b th) = true).
Proof. exact interleave_ref. Qed.
Print Assumptions C18_interleaving_reference.

(* the source's decisions (T0): only a frozen node goes through the memo table; a frozen node
   rejects setattr, delattr, push_member and a second freeze; the memo key is the node object
   itself *)
Theorem C18_source_decisions :
  (forall fr, real_cond fr = true -> fr = true) /\ real_cond true = true /\
  frozen_setattr_raises true = true /\ frozen_delattr_raises true = true /\
  push_member_raises true = true /\ frozen_freeze_raises true = true /\
  frozen_setattr_raises false = false /\ push_member_raises false = false /\
  frozen_freeze_raises false = false /\
  real_pin = true /\ (forall a b, safe_hash_key a = safe_hash_key b -> a = b).
Proof. exact source_decisions. Qed.
Print Assumptions C18_source_decisions.

(* purity of the generator's decision inputs (static, PARTIAL), over the tables extracted from
   the current source: identity-hashed freezable classes; cached methods read their node
   downwards only (so each is an instance of the arbitrary F above); no process-level input and no cross-compilation mutable state outside the
   allow-lists of theories/MemoRules.v.  Syntactic scan only. *)
Theorem C18_decision_inputs_partial :
  classes_ok = true /\ methods_ok = true /\
  sites_ok = true /\ globals_ok = true /\ no_other_cache_users = true.
Proof. exact decision_inputs_hold. Qed.
Print Assumptions C18_decision_inputs_partial.

(* the environment does not decide what is compiled or what is left behind (T0, PARTIAL): relative
   imports of a file are resolved against that file's directory, never the working directory;
   Renderer.render writes unconditionally (reads nothing of the output directory) *)
Theorem C18_environment_decisions_partial :
  (forall f, import_base true f = 0) /\ import_base false true = 1 /\ import_base false false = 2 /\
  render_writes_unconditionally = true.
Proof. exact environment_decisions. Qed.
Print Assumptions C18_environment_decisions_partial.

(* each precondition is needed, the decorators alone are not transparent.  A parent frozen before
   its child: the real cache_if_frozen returns a stale value (replayed on the real decorators,
   corpus/C18/undisciplined.json).  Not reachable through the parser. *)
Theorem C18_memo_without_discipline_refuted :
  exists h, env_ok F_test always_test real_cond real_pin DW c0 h = true /\
            disciplined F_test DW r0 h = false /\
            outs_eqb (run_c real_cond real_pin h) (run_r h) = false.
Proof. exact undisciplined_refuted. Qed.
Print Assumptions C18_memo_without_discipline_refuted.

(* mutant: memo key = id(node) (no strong reference): address re-use yields a stale value *)
Theorem C18_memo_weak_key_refuted :
  exists h, env_ok F_test always_test real_cond false DW c0 h = true /\
            disciplined F_test DW r0 h = true /\
            outs_eqb (run_c real_cond false h) (run_r h) = false.
Proof. exact weak_key_refuted. Qed.
Print Assumptions C18_memo_weak_key_refuted.

(* mutant: cache_if_frozen memoises unfrozen nodes too *)
Theorem C18_memo_cache_unfrozen_refuted :
  exists h, env_ok F_test always_test (fun _ => true) real_pin DW c0 h = true /\
            disciplined F_test DW r0 h = true /\
            outs_eqb (run_c (fun _ => true) real_pin h) (run_r h) = false.
Proof. exact cache_unfrozen_refuted. Qed.
Print Assumptions C18_memo_cache_unfrozen_refuted.

(* mutant: an unconditionally cached method that reads the node's state *)
Theorem C18_memo_always_reads_state_refuted :
  exists h, env_ok F_test (fun _ => true) real_cond real_pin DW c0 h = true /\
            disciplined F_test DW r0 h = true /\
            outs_eqb (map fst (crun F_test (fun _ => true) real_cond real_pin DW c0 h)) (run_r h) = false.
Proof. exact always_reads_state_refuted. Qed.
Print Assumptions C18_memo_always_reads_state_refuted.

(* a history with hit / miss / direct / exception / rejected mutation / reclamation / address
   re-use satisfies the hypotheses, and the conclusion computes *)
Example C18_nonvacuous :
  disciplined F_test DW r0 h_ex = true /\
  env_ok F_test always_test real_cond real_pin DW c0 h_ex = true /\
  outs_eqb (run_c real_cond real_pin h_ex) (run_r h_ex) = true /\
  existsb (aux_eqb AHit) (run_aux h_ex) = true /\
  existsb (aux_eqb AReclaimed) (run_aux h_ex) = true /\
  existsb (aux_eqb ARefused) (run_aux h_ex) = true /\
  List.length h_ex = 29%nat.
Proof. vm_compute. repeat split; reflexivity. Qed.

(* the evaluator used for the correspondence with the real decorators accepts the model's own run
   of that history and rejects a stale answer *)
Example C18_case_evaluator :
  memo_case h_ex (crun F_test always_test real_cond real_pin D_case c0 h_ex)
            (live_addrs (cfinal F_test always_test real_cond real_pin D_case c0 h_ex)) = 0 /\
  memo_case h_undisciplined (crun F_test always_test real_cond real_pin D_case c0 h_undisciplined) [100; 200] = 32.
Proof. vm_compute. split; reflexivity. Qed.

Example C18_interleaving_nonvacuous :
  separated P_ex th_ex = true /\
  disciplined F_test DW r0 (map snd th_ex) = true /\
  env_ok F_test always_test real_cond real_pin DW c0 (map snd th_ex) = true /\
  env_ok F_test always_test real_cond real_pin DW c0 (sel true th_ex) = true /\
  List.length (sel true th_ex) = 7%nat /\ List.length (sel false th_ex) = 7%nat.
Proof. vm_compute. repeat split; reflexivity. Qed.

Example C18_rules_nonvacuous :
  class_ok ("X", ["dataclass"; "frozen"], ["Node"])%string = false /\
  method_ok ("X", "f", "cache_if_frozen", ["members"; "scope_stack[]"])%string = false /\
  method_ok ("X", "f", "cache", ["members"])%string = false /\
  pair_in ("renderer/impls/c/renderer_c.py:X.render", "os.getcwd")%string allowed_sites = false /\
  Nat.leb 19 (List.length cached_methods) = true /\ Nat.leb 30 (List.length ast_classes) = true.
Proof. vm_compute. repeat split; reflexivity. Qed.
