(* C16 — JSON output is valid JSON that states the message's values.
   Only statements, each closed by [exact] of a lemma proved in theories/JsonProofs.v or
   theories/JsonText.v, followed by Print Assumptions; plus Examples showing the hypotheses are satisfiable.

   Json.expected t v   the JSON value the property demands: object keyed by field names in
                       field-NUMBER order; integers as numbers (negative when negative),
                       booleans, arrays (byte arrays included) as lists, nested messages as
                       objects, enum values as numbers
   Json.c_text         the characters the C runtime writes (walk of BpJsonFormat*, format
                       strings / casts / thresholds / case labels from gen/GenJson.v)
   Json.store          the C object tree after assigning the fields
   Json.py_tree        dataclasses.asdict + generated dict_factory + json.dumps *)
From Coq Require Import ZArith List String.
From BP Require Import Schema Json JsonWf JsonProofs JsonText.
Import ListNotations.
Open Scope string_scope.
Open Scope Z_scope.

(* C: for every accepted message type and every in-range value, Json<Msg>() writes exactly
   the compact print of the specified JSON value *)
Theorem C16_c_text : forall t v,
  shape_ok t = true -> wf (erase t) = true -> has_ty (erase t) v = true ->
  (exists x fs, t = NMsg x fs) ->
  c_text t (store t v) = Some (print_compact (expected t v)).
Proof. exact c_text_correct. Qed.
Print Assumptions C16_c_text.

(* the same at every place a value can stand (message field, alias target, array element) *)
Theorem C16_c_text_everywhere : forall t,
  shape_ok t = true -> wf (erase t) = true ->
  forall s v, site_allows s t = true -> has_ty (erase t) v = true ->
  c_dispatch s t (store t v) = Some (print_compact (expected t v)).
Proof. exact dispatch_correct. Qed.
Print Assumptions C16_c_text_everywhere.

(* Python: outside the one refuted region (field names with the enum-proxy prefix),
   json.dumps(to_dict(), default=_json_default) states the specified value — byte arrays
   included, as lists (the hook is read from bp.py into gen/GenJson.v; /repo fix b3480f8) *)
Theorem C16_py_tree : forall t v,
  no_proxy_names t = true -> names_distinct t = true ->
  has_ty (erase t) v = true ->
  py_tree t v = POk (expected t v).
Proof. exact py_tree_correct. Qed.
Print Assumptions C16_py_tree.

(* to_dict() holds the value tree with names in number order; a `byte[n]` field is still a
   bytearray object there (Json.dict_spec) — only to_json() converts it *)
Theorem C16_py_to_dict : forall t,
  no_proxy_names t = true -> names_distinct t = true ->
  forall v, has_ty (erase t) v = true ->
  py_asdict t v = POk (dict_spec t v).
Proof. exact asdict_correct. Qed.
Print Assumptions C16_py_to_dict.

(* json.dumps with the hook writes the specified value for whatever to_dict() is specified
   to hold: no tree, no value raises *)
Theorem C16_py_dumps_total : forall t v, py_dumps (dict_spec t v) = POk (expected t v).
Proof. exact dumps_dict_spec. Qed.
Print Assumptions C16_py_dumps_total.

(* the case of finding json-bytes (fixed in /repo by b3480f8; corpus/C16/json_bytes.json):
   Python JSON = C JSON = specified text, while to_dict() keeps the bytearray *)
Theorem C16_py_bytearray_regression :
  py_asdict bytes_t bytes_v = POk (PJDict [("b", PJBytes [7])]) /\
  py_to_json "," ":" bytes_t bytes_v = POk "{""b"":[7]}" /\
  c_text bytes_t (store bytes_t bytes_v) = Some "{""b"":[7]}" /\
  print_compact (expected bytes_t bytes_v) = "{""b"":[7]}".
Proof. exact py_bytearray_regression. Qed.
Print Assumptions C16_py_bytearray_regression.

(* REFUTED on the current tree (finding json-proxy-name): a field whose name starts with
   the enum-proxy prefix is dropped by the generated dict_factory *)
Theorem C16_py_proxy_name_refuted :
  exists t v, shape_ok t = true /\ wf (erase t) = true /\ has_ty (erase t) v = true /\
              names_distinct t = true /\ no_proxy_names t = false /\
              py_tree t v = POk (JObj []) /\
              expected t v = JObj [("_enum_field_proxy__x", JBool true)] /\
              c_text t (store t v) = Some (print_compact (expected t v)).
Proof. exact py_proxy_name_refuted. Qed.
Print Assumptions C16_py_proxy_name_refuted.

(* Python and C produce equal JSON values for equal messages: to_json(separators=(",",":"))
   and Json<Msg>() write the same characters *)
Theorem C16_c_eq_py : forall t v,
  shape_ok t = true -> wf (erase t) = true -> has_ty (erase t) v = true ->
  (exists x fs, t = NMsg x fs) ->
  no_proxy_names t = true -> names_distinct t = true ->
  exists s, py_to_json "," ":" t v = POk s /\ c_text t (store t v) = Some s.
Proof. exact c_eq_py. Qed.
Print Assumptions C16_c_eq_py.

(* every width the compiler admits: the storage type the renderer chooses, the cast the
   runtime reads through and the printf conversion agree (finite sweep 1..64 over the
   translated tables) *)
Theorem C16_widths : forall n, 1 <= n <= 64 -> width_ok n = true.
Proof. exact width_ok_at. Qed.
Print Assumptions C16_widths.

(* wf_json is a recogniser for JSON texts (RFC 8259 grammar restricted to
   what can occur: no white space, integers without leading zeros, true/false, arrays,
   objects whose keys are strings of unescaped characters).  It accepts whatever
   print_compact writes for a tree with plain keys ... *)
Theorem C16_wf_json : forall j, keys_safe j = true -> wf_json (print_compact j) = true.
Proof. exact wf_json_print. Qed.
Print Assumptions C16_wf_json.

(* ... hence the text the C runtime writes is a JSON text (field names are identifiers) *)
Theorem C16_c_text_wf_json : forall t v,
  shape_ok t = true -> wf (erase t) = true -> has_ty (erase t) v = true ->
  (exists x fs, t = NMsg x fs) -> names_safe t = true ->
  exists s, c_text t (store t v) = Some s /\ wf_json s = true.
Proof. exact c_text_wf_json. Qed.
Print Assumptions C16_c_text_wf_json.

(* ... and so is Python's to_json(separators=(",", ":")) in the guarded region *)
Theorem C16_py_compact_wf_json : forall t v,
  no_proxy_names t = true -> names_distinct t = true ->
  has_ty (erase t) v = true -> names_safe t = true ->
  exists s, py_to_json "," ":" t v = POk s /\ wf_json s = true.
Proof. exact py_compact_wf_json. Qed.
Print Assumptions C16_py_compact_wf_json.

(* identifiers of the schema language are plain keys *)
Theorem C16_identifiers_plain : forall s, ident_string s = true -> safe_string s = true.
Proof. exact ident_string_safe. Qed.
Print Assumptions C16_identifiers_plain.

(* read_dec reads a printed numeral back; hence equal numerals, equal numbers *)
Theorem C16_decimal_roundtrip : forall z, read_dec (dec_Z z) = z.
Proof. exact read_dec_Z. Qed.
Print Assumptions C16_decimal_roundtrip.

(* the recogniser is not trivial: it rejects what is not JSON *)
Example C16_wf_json_rejects :
  map wf_json ["[1,]"; "{""a"":1,}"; "{""a"":1"; "01"; "tru"; "[1 2]"; "-"; "{a:1}"; "[1]]"; ""]
  = [false; false; false; false; false; false; false; false; false; false]
  /\ map wf_json ["{""a"":[1,-2,0],""b"":{""c"":true,""d"":false},""e"":[]}"; "{}"; "-0"]
  = [true; true; true].
Proof. vm_compute. split; reflexivity. Qed.

(* non-vacuity: a permuted, nested example with aliases, enums, arrays of messages, negative
   wide integers meets every hypothesis and the conclusions compute *)
Definition ex_inner : nty := NMsg false [(2, ("ok", NBool)); (1, ("x", NInt 13))].
Definition ex_t : nty :=
  NMsg true [ (3, ("a", NUint 5)); (1, ("c", NEnum 3 [0; 2])); (2, ("t", NAlias (NInt 48)));
              (7, ("w", NAlias (NArr true 3 (NUint 33)))); (9, ("raw", NArr false 2 NByte)); (4, ("inn", ex_inner));
              (5, ("arr", NArr false 2 ex_inner)); (6, ("small", NArr false 3 (NInt 7)));
              (8, ("tt", NArr false 2 (NAlias (NInt 64)))) ].
Definition ex_iv (b : bool) (x : Z) : val := VM [(2, VB b); (1, VZ x)].
Definition ex_v : val :=
  VM [ (3, VZ 31); (1, VZ 2); (2, VZ (-140737488355328)); (7, VL [VZ 1; VZ 8589934591; VZ 0]); (9, VL [VZ 255; VZ 0]);
       (4, ex_iv true (-4096)); (5, VL [ex_iv false 4095; ex_iv true (-1)]);
       (6, VL [VZ (-64); VZ 63; VZ (-1)]); (8, VL [VZ 9223372036854775807; VZ (-9223372036854775808)]) ].

Example C16_nonvacuous :
  shape_ok ex_t = true /\ wf (erase ex_t) = true /\ has_ty (erase ex_t) ex_v = true /\
  no_proxy_names ex_t = true /\ names_distinct ex_t = true /\
  c_text ex_t (store ex_t ex_v) =
    Some "{""c"":2,""t"":-140737488355328,""a"":31,""inn"":{""x"":-4096,""ok"":true},""arr"":[{""x"":4095,""ok"":false},{""x"":-1,""ok"":true}],""small"":[-64,63,-1],""w"":[1,8589934591,0],""tt"":[9223372036854775807,-9223372036854775808],""raw"":[255,0]}" /\
  py_to_json "," ":" ex_t ex_v = POk (print_compact (expected ex_t ex_v)) /\
  c_text ex_t (store ex_t ex_v) = Some (print_compact (expected ex_t ex_v)) /\
  names_safe ex_t = true /\ wf_json (print_compact (expected ex_t ex_v)) = true.
Proof. vm_compute. repeat split; reflexivity. Qed.

(* non-vacuity on further shape classes: a key of 61 characters, zero-bit wrapper messages
   (no bit on the wire, yet fields) as field, array element and nested three deep, in an
   all-zero-bit top-level message — the hypotheses hold and the conclusions compute *)
Definition ex_nothing : nty := NMsg false [].
Definition ex_slot : nty := NMsg false [(1, ("reserved", ex_nothing))].
Definition ex_rack : nty := NMsg false [(2, ("spare", NArr false 2 ex_nothing)); (1, ("slot", ex_slot))].
Definition ex_long : string := "propeller_front_left_rotation_speed_rpm_measurement_channel_x".
Definition ex_shapes : nty :=
  NMsg false [ (2, (ex_long, ex_slot)); (1, ("racks", NArr false 2 ex_rack)); (3, ("e", ex_nothing)) ].
Definition ex_rack_v : val := VM [(2, VL [VM []; VM []]); (1, VM [(1, VM [])])].
Definition ex_shapes_v : val := VM [(2, VM [(1, VM [])]); (1, VL [ex_rack_v; ex_rack_v]); (3, VM [])].

Example C16_nonvacuous_shapes :
  String.length ex_long = 61%nat /\ nbits (erase ex_shapes) = 0 /\
  shape_ok ex_shapes = true /\ wf (erase ex_shapes) = true /\ has_ty (erase ex_shapes) ex_shapes_v = true /\
  no_proxy_names ex_shapes = true /\ names_distinct ex_shapes = true /\ names_safe ex_shapes = true /\
  c_text ex_shapes (store ex_shapes ex_shapes_v) =
    Some "{""racks"":[{""slot"":{""reserved"":{}},""spare"":[{},{}]},{""slot"":{""reserved"":{}},""spare"":[{},{}]}],""propeller_front_left_rotation_speed_rpm_measurement_channel_x"":{""reserved"":{}},""e"":{}}" /\
  py_to_json "," ":" ex_shapes ex_shapes_v = POk (print_compact (expected ex_shapes ex_shapes_v)) /\
  c_text ex_shapes (store ex_shapes ex_shapes_v) = Some (print_compact (expected ex_shapes ex_shapes_v)) /\
  wf_json (print_compact (expected ex_shapes ex_shapes_v)) = true.
Proof. vm_compute. repeat split; reflexivity. Qed.
