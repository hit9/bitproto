(* C08 at the SYNTAX level: what the LALR parser (ply's tables built from /repo's docstring grammar,
   driven by the model of ply's loop) accepts is in the documented grammar's language, and the
   sequence of p_ functions called is a rightmost derivation in reverse.
   Model: theories/LR.v; generic proofs: LRProofs.v; per-run obligations over gen/GenLR.v
   (validator + ranking by vm_compute): LRConcrete.v. *)
From Coq Require Import String List.
From BP Require Import LR LRProofs LRConcrete LRFacts.
From BPGen Require Import GenLR.
Import ListNotations.

Theorem C08_lr_sound : forall G TB H, validate G TB H = true ->
  forall start fuel ts rs, start_of G = Some start -> ~ In eof ts ->
  lr_run TB fuel ts = Accept rs -> sr G [NT start] ts rs.
Proof. exact lr_sound. Qed.
Print Assumptions C08_lr_sound.

Theorem C08_lr_sr_derives : forall G st w rs, sr G st w rs -> derives G (rev st) w.
Proof. exact sr_derives. Qed.
Print Assumptions C08_lr_sr_derives.

Theorem C08_lr_sr_rightmost : forall G start ts rs, sr G [NT start] ts rs -> rm_check G start rs ts = true.
Proof. exact sr_rm_check. Qed.
Print Assumptions C08_lr_sr_rightmost.

(* the per-run obligation: the tables ply built from the CURRENT grammar pass the validator *)
Theorem C08_lr_tables_valid : validate grammar tables hints = true.
Proof. exact tables_valid. Qed.
Print Assumptions C08_lr_tables_valid.

Theorem C08_lr_accepted_documented : forall fuel ts rs, ~ In eof ts ->
  lr_run tables fuel ts = Accept rs ->
  sr grammar [NT start_symbol] ts rs /\
  derives grammar [NT start_symbol] ts /\
  rm_check grammar start_symbol rs ts = true.
Proof. exact accepted_documented. Qed.
Print Assumptions C08_lr_accepted_documented.

(* a syntax error cites the first token after a prefix that was consumed and correctly reduced *)
Theorem C08_lr_error_prefix : forall fuel ts idx tok rs, lr_run tables fuel ts = SyntaxError idx tok rs ->
  (exists syms, sr grammar syms (firstn idx ts) rs) /\
  (nth_error ts idx = Some tok \/ (idx = List.length ts /\ tok = eof)).
Proof. exact error_prefix. Qed.
Print Assumptions C08_lr_error_prefix.

(* claims of the language documentation, derived from the tables *)
Theorem C08_lr_semicolon_optional : semicolon_facts = true.
Proof. exact semicolon_facts_ok. Qed.
Print Assumptions C08_lr_semicolon_optional.

Theorem C08_lr_field_name_keywords : field_name_facts = true.
Proof. exact field_name_facts_ok. Qed.
Print Assumptions C08_lr_field_name_keywords.

Theorem C08_lr_unsupported_items_parsed : unsupported_facts = true.
Proof. exact unsupported_facts_ok. Qed.
Print Assumptions C08_lr_unsupported_items_parsed.

(* comments: in every accepted token sequence each COMMENT is immediately followed by NEWLINE, so a
   sequence ending in COMMENT is never accepted (a fact about the grammar/tables, for ALL
   sequences).  Finding comment-at-eof (`proto a\nmessage M {} // tail` without a final newline:
   "Grammar error at eof", line 0; /repo fix ca58921): Parser.parse_string terminates
   the last line (translated: GenLR.appends_final_newline), so a text that does not
   end in a newline reaches the driver with a final NEWLINE and the witness is accepted.
   Not proved (this level starts from token types; the tokenizer model, theories/Lex.v, is not
   composed with it): that a text ENDING in a newline character lexes to a sequence ending in
   NEWLINE; T2 compares LRConcrete.text_tokens with the tokens really fetched. *)
Theorem C08_lr_accepted_comment_newline : forall fuel ts rs, ~ In eof ts ->
  lr_run tables fuel ts = Accept rs -> followed t_comment t_newline ts = true.
Proof. exact accepted_comment_newline. Qed.
Print Assumptions C08_lr_accepted_comment_newline.

Theorem C08_lr_trailing_comment_rejected : forall fuel ts rs, ~ In eof ts ->
  lr_run tables fuel (ts ++ [t_comment]) <> Accept rs.
Proof. exact trailing_comment_rejected. Qed.
Print Assumptions C08_lr_trailing_comment_rejected.

Theorem C08_lr_text_ends_in_newline : appends_final_newline = true ->
  forall raw, last (text_tokens raw false) eof = t_newline.
Proof. exact text_tokens_end_newline. Qed.
Print Assumptions C08_lr_text_ends_in_newline.

Theorem C08_lr_comment_at_eof_accepted : exists rs, parse_text comment_eof_witness false = Accept rs.
Proof. exact comment_eof_text_accepted. Qed.
Print Assumptions C08_lr_comment_at_eof_accepted.

Theorem C08_lr_text_path_facts : comment_eof_facts = true.
Proof. exact comment_eof_facts_ok. Qed.
Print Assumptions C08_lr_text_path_facts.

(* completeness on the expression sub-language, bounded: every expression tree of LRFacts.expr_domain (4141
   trees of depth <= 3 over the four operators) prints (minimal parentheses) to tokens the tables parse back to the
   SAME tree (PARTIAL as stated; for every tree over the four operators: LRFacts.expr_parsed, by induction
   over the tree from the rows of the expression states) *)
Theorem C08_lr_expr_complete_partial : expr_facts = true.
Proof. exact expr_facts_ok. Qed.
Print Assumptions C08_lr_expr_complete_partial.

(* non-vacuity: a schema text's token sequence is accepted, with its reductions *)
Example C08_lr_example :
  exists rs, parse example_tokens = Accept rs /\ List.length rs = 47 /\
             rm_check grammar start_symbol rs example_tokens = true.
Proof. eexists. split; [vm_compute; reflexivity | split; vm_compute; reflexivity]. Qed.

Example C08_lr_example_reject :
  exists idx rs, parse example_bad = SyntaxError idx (term_id "CONST"%string) rs /\ idx = 7.
Proof. eexists. eexists. split; vm_compute; reflexivity. Qed.
