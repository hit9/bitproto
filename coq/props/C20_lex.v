(* C20_lex.v — C20 (diagnostics point at the right line), TEXT LEVEL: for every input string, the
   lineno / lexpos of every token the tokenizer produces, and of its LexerError. *)
From Coq Require Import String ZArith List Bool.
From BP Require Import Lint.
From BP Require Import TotalBase LexBase Lex LexCase LexProofs LexLint.
From BPGen Require Import GenLexer.
Import ListNotations.

(* every token: its lexeme is the non-empty slice s[lexpos:end]; lineno = 1 + the number of "\n" in
   s[:lexpos] (the line the lexeme STARTS on); the lexeme contains no "\n" unless it is the NEWLINE
   lexeme "\n" itself *)
Theorem C20_lex_token_position : forall uw s its e rem t,
  lex_run uw s = (its, e, rem) -> In t (tokens_of its) ->
  exists lx, lx <> [] /\ slice (t_pos t) (t_end t) s = lx
    /\ t_line t = (1 + count_nl (prefix (t_pos t) s))%Z
    /\ (count_nl lx = 0%Z \/ lx = [NL])
    /\ (0 <= t_pos t < t_end t)%Z /\ (t_end t <= zlen s)%Z.
Proof. exact lex_token_position. Qed.
Print Assumptions C20_lex_token_position.

(* a LexerError (t_error) reports the offending character and the line that character is on *)
Theorem C20_lex_error_position : forall uw s its cls c l rem,
  lex_run uw s = (its, LError cls c l, rem) ->
  cls = t_error_class /\ (exists r, rem = c :: r) /\ s = (items_text its ++ rem)%list
  /\ l = (1 + count_nl (prefix (zlen (items_text its)) s))%Z.
Proof. exact lex_error_position. Qed.
Print Assumptions C20_lex_error_position.

(* connection with the cli module (Lint.v): the lineno of a token and the column that Parser._get_col
   (translated: Lint.col_of) computes from its lexpos are the 1-based (line, column) of the first
   character of the lexeme — on every line, for every input ([shadow]: same length, same newlines) *)
Theorem C20_lex_token_linecol : forall uw s its e rem t,
  lex_run uw s = (its, e, rem) -> In t (tokens_of its) ->
  linecol (shadow s) (Z.to_nat (t_pos t)) = (t_line t, col_of (shadow s) (Z.to_nat (t_pos t))).
Proof. exact token_linecol. Qed.
Print Assumptions C20_lex_token_linecol.

(* only the newline rule can match a "\n": COMMENT, STRING_LITERAL, ... never span a line *)
Theorem C20_lex_only_newline_spans_lines :
  forallb (fun r => no_nl (r_rx r) || is_single_nl (r_rx r)) lex_rules = true.
Proof. exact only_newline_rule_spans_lines. Qed.
Print Assumptions C20_lex_only_newline_spans_lines.

(* non-vacuity: "a\n//c\r\n  @": tokens on lines 1,1,2,2 and the error on line 3 *)
Example C20_lex_nonvacuous :
  map t_line (fst (lex uni_word [97;10;47;47;99;13;10;32;32;64]%N)) = [1;1;2;2]%Z
  /\ snd (lex uni_word [97;10;47;47;99;13;10;32;32;64]%N) = LError "LexerError" 64%N 3%Z.
Proof. vm_compute. split; reflexivity. Qed.
