(* C06 — the wire is little-endian whatever the host byte order: runtime library, then
   optimization mode, then why the BP_BIG_ENDIAN build can be observed on a little-endian host. *)
From Coq Require Import ZArith List.
From BP Require Import Schema Spec CMem CRt CTop CBeExact.
(* qualified: OpMode has an [endian], [rd], [wr], [store] of its own *)
From BP Require OpMode OpModeProofs.
Import ListNotations.
Open Scope Z_scope.

(* the runtime built with BP_BIG_ENDIAN, running on a big-endian host, on storage laid out in
   big-endian order, produces exactly the specified (little-endian) wire bytes ... *)
Theorem C06_runtime_encode : forall t v,
  c_schema t -> has_ty (norm t) v = true ->
  c_encode_ty BE BE t (store BE (norm t) v) = COk (wire t v).
Proof. exact c_encode_be. Qed.
Print Assumptions C06_runtime_encode.

(* ... i.e. the same bytes as the little-endian build on a little-endian host *)
Theorem C06_runtime_encode_eq_le : forall t v,
  c_schema t -> has_ty (norm t) v = true ->
  c_encode_ty BE BE t (store BE (norm t) v) = c_encode_ty LE LE t (store LE (norm t) v).
Proof. exact c_encode_be_eq_le. Qed.
Print Assumptions C06_runtime_encode_eq_le.

Theorem C06_runtime_decode : forall t v,
  c_schema t -> has_ty (norm t) v = true ->
  c_decode_ty BE BE t (wire t v) = COk (store BE (norm t) v).
Proof. exact c_decode_be. Qed.
Print Assumptions C06_runtime_decode.

(* the word fast paths and the array batch path are compiled out of the BE build
   (both facts are read off the TRANSLATED source, BPGen.GenC) *)
Theorem C06_fast_paths_off : fast_paths BE = false /\ forall a b c, batch_pred BE a b c = false.
Proof. exact be_paths_off. Qed.
Print Assumptions C06_fast_paths_off.

Definition ex_t : ty :=
  TMsg true [ (3, TAlias (TArr true 3 (TUint 3))); (2, TAlias (TInt 13)); (9, TInt 32);
              (10, TArr true 2 (TMsg false [(2, TUint 5); (1, TBool)])); (11, TArr false 3 (TInt 16)) ].
Definition ex_v : val :=
  VM [ (3, VL [VZ 1; VZ 7; VZ 2]); (2, VZ (-171)); (9, VZ (-2));
       (10, VL [VM [(2, VZ 3); (1, VB true)]; VM [(2, VZ 30); (1, VB false)]]);
       (11, VL [VZ (-1); VZ 2; VZ (-32768)]) ].
Example C06_nonvacuous :
  c_schema ex_t /\ has_ty (norm ex_t) ex_v = true /\
  c_encode_ty BE BE ex_t (store BE (norm ex_t) ex_v) = COk (wire ex_t ex_v) /\
  c_decode_ty BE BE ex_t (wire ex_t ex_v) = COk (store BE (norm ex_t) ex_v) /\
  store BE (norm ex_t) ex_v <> store LE (norm ex_t) ex_v /\
  c_encode_ty BE LE ex_t (store LE (norm ex_t) ex_v) <> COk (wire ex_t ex_v).
Proof. vm_compute. repeat split; try reflexivity; intros H; discriminate H. Qed.

(* the statements emitted under --endian big (and under --endian both with BP_BIG_ENDIAN
   defined) use only the VALUES of the fields (shifts and masks, never the bytes of an object),
   which is why OpMode.exec has no host byte order; they encode / decode exactly Spec.wire *)
Theorem C06_opmode_be_enc : forall t v,
  OpMode.opmode_ok (norm t) = true -> wf (norm t) = true -> has_ty (norm t) v = true ->
  OpMode.run_encode (OpMode.c_be_body true t) t v = Some (wire t v).
Proof. exact OpModeProofs.c_be_encode. Qed.
Print Assumptions C06_opmode_be_enc.

Theorem C06_opmode_be_dec : forall t v,
  OpMode.opmode_ok (norm t) = true -> wf (norm t) = true -> has_ty (norm t) v = true ->
  OpMode.run_decode (OpMode.c_be_body false t) t (wire t v) = Some (OpMode.store (norm t) v).
Proof. exact OpModeProofs.c_be_decode. Qed.
Print Assumptions C06_opmode_be_dec.

(* whatever --endian setting and whether or not BP_BIG_ENDIAN is defined: same wire bytes *)
Theorem C06_opmode_endian_select : forall t v,
  OpMode.opmode_ok (norm t) = true -> wf (norm t) = true -> has_ty (norm t) v = true ->
  forall (e : OpMode.endian) (macro_defined : bool),
  OpMode.run_encode (OpMode.select macro_defined (OpMode.c_body e true t)) t v = Some (wire t v) /\
  OpMode.run_decode (OpMode.select macro_defined (OpMode.c_body e false t)) t (wire t v)
    = Some (OpMode.store (norm t) v).
Proof. exact OpModeProofs.endian_select. Qed.
Print Assumptions C06_opmode_endian_select.

(* On descriptors without extensible nodes whose signed fields are 8/16/32/64 bits wide (sign
   fix-up skipped) or stored in one byte, the BE build executes no native multi-byte access:
   its model does not depend on the host byte order at all.  Hence running the
   -DBP_BIG_ENDIAN build on x86 on BIG-ENDIAN storage is an observation of (B,E) = (BE,BE), and
   the check compares it with Spec.wire / store BE (class cboundary.be_exact; membership of every
   executed schema is re-checked in Coq by CCase.bex_case). *)
Theorem C06_be_build_host_independent : forall E1 E2 enc d,
  dexact d = true -> forall x o, call_processor BE E1 enc d x o = call_processor BE E2 enc d x o.
Proof. exact call_processor_be. Qed.
Print Assumptions C06_be_build_host_independent.

Theorem C06_be_encode_host_independent : forall E1 E2 t o,
  dexact (render (norm t)) = true -> c_encode_ty BE E1 t o = c_encode_ty BE E2 t o.
Proof. exact c_encode_be_host_indep. Qed.
Print Assumptions C06_be_encode_host_independent.

Theorem C06_be_decode_host_independent : forall E1 E2 t s,
  dexact (render (norm t)) = true -> c_decode_ty BE E1 t s = c_decode_ty BE E2 t s.
Proof. exact c_decode_be_host_indep. Qed.
Print Assumptions C06_be_decode_host_independent.

Example C06_be_exact_nonvacuous :
  dexact (render (norm (TMsg false [(1, TArr false 100 (TUint 16)); (2, TArr false 6 (TAlias (TInt 5))); (3, TInt 32)]))) = true /\
  dexact (render (norm (TMsg false [(1, TInt 13)]))) = false /\
  dexact (render (norm (TMsg true [(1, TUint 3)]))) = false.
Proof. vm_compute. repeat split; reflexivity. Qed.
