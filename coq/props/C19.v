(* C19 — Go standard-mode output describes the same messages as the Python output.
   Statements whose proofs only assemble lemmas proved elsewhere, each followed by
   Print Assumptions; plus Examples showing the hypotheses are satisfiable.

   The statements are about the model of the Go renderer (GoRt.go_proc_of / go_cls_of /
   go_type_of) and about the helpers TRANSLATED from lib/go/bitproto.go (BPGen.GenGo); the
   emitted .go text is tied to the model by T1 (tools/t1_go.py) on every run.  Go itself is
   never executed. *)
From Coq Require Import ZArith List.
From BP Require Import Bits Schema Spec PyRt Eqb PyEncTop PyDecProofs GoRt GoEqb GoHelpers GoTables GoEncProofs
                       GoDecProofs.
From BPGen Require GenPy GenGo.
Import ListNotations.
Open Scope Z_scope.

(* the Go runtime's pure helpers return what the Python runtime's return, on their whole
   domain: ints in 0..2^62 for the unbounded ones (Go's int is 64-bit, / and % truncate),
   k in 0..7, c in 0..8 for getMask; smartShift only AFTER the mask (byte << k truncates) *)
Theorem C19_helpers_eq :
  (forall a b, GenGo.go_min a b = Z.min a b) /\
  (forall i j n, small i -> small j -> small n ->
     GenGo.getNbitsToCopy i j n = GenPy.get_nbits_to_copy i j n) /\
  (forall k c, 0 <= k < 8 -> 0 <= c < 9 -> GenGo.getMask k c = GenPy.get_mask k c) /\
  (forall b s k c, 0 <= b < 256 -> -7 <= s <= 7 -> 0 <= k < 8 -> 0 <= c <= 8 - k ->
     Z.land (GenGo.smartShift b s) (GenGo.wrap_u 8 (GenGo.getMask k c)) =
     Z.land (GenPy.smart_shift b s) (GenPy.get_mask k c)) /\
  (forall b, 0 <= b -> GenGo.Byte2bool b = negb (b =? 0)) /\
  (forall b, GenGo.Bool2byte b = Z.b2z b).
Proof.
  exact (conj go_min_eq (conj getNbitsToCopy_eq (conj getMask_eq (conj smartShift_masked_eq
        (conj Byte2bool_spec Bool2byte_spec))))).
Qed.
Print Assumptions C19_helpers_eq.

(* without the mask the two shifts differ: the guard is exact *)
Theorem C19_smartShift_unmasked_differs : GenGo.smartShift 255 (-1) <> GenPy.smart_shift 255 (-1).
Proof. exact smartShift_unmasked_differs. Qed.
Print Assumptions C19_smartShift_unmasked_differs.

(* the expressions of encodeSingleByte / decodeSingleByte (shift, mask, byte index, accessor
   shift) equal Python's wherever the copy loop evaluates them *)
Theorem C19_single_byte_eq :
  (forall b ci j c, 0 <= b < 256 -> small ci -> small j -> 0 <= c <= 8 - ci mod 8 ->
     GenGo.enc_d b ci j c = GenPy.enc_d b ci j c) /\
  (forall b ci j c, 0 <= b < 256 -> small ci -> small j -> 0 <= c <= 8 - j mod 8 ->
     GenGo.dec_d b ci j c = GenPy.dec_d b ci j c) /\
  (forall ci, small ci -> GenGo.enc_index ci = GenPy.enc_index ci /\ GenGo.dec_index ci = GenPy.dec_index ci) /\
  (forall j, small j -> GenGo.enc_rshift j = GenPy.enc_rshift j /\ GenGo.dec_lshift j = GenPy.dec_lshift j).
Proof. exact (conj go_enc_d_eq (conj go_dec_d_eq (conj go_index_eq go_shift_eq))). Qed.
Print Assumptions C19_single_byte_eq.

(* the two skip formulas and the test (used by C05 for the Go runtime) *)
Theorem C19_ito_eq :
  (forall i ahead, small i -> 0 <= ahead < 65536 -> GenGo.message_ito i ahead = GenPy.message_ito i ahead) /\
  (forall i ahead cap ci, 0 <= i < 2 ^ 40 -> 0 <= ahead < 65536 -> 0 < cap < 65536 -> i + 16 <= ci < 2 ^ 40 ->
     GenGo.array_ito i ahead cap ci = GenPy.array_ito i ahead cap ci) /\
  (forall ito ci, GenGo.ito_taken ito ci = GenPy.ito_taken ito ci).
Proof. exact (conj go_message_ito_eq (conj go_array_ito_eq go_ito_taken_eq)). Qed.
Print Assumptions C19_ito_eq.

(* struct field types: the smallest of 8/16/32/64 covering the width, for all widths *)
Theorem C19_struct_types : forall n, 1 <= n <= 64 ->
  go_type_of (TUint n) = GUint (smallest_cover n) /\
  go_type_of (TInt n) = GInt (smallest_cover n) /\
  (forall ms, go_type_of (TEnum n ms) = GNamed (GUint (smallest_cover n))) /\
  In (smallest_cover n) [8; 16; 32; 64] /\ n <= smallest_cover n /\
  (forall w, In w [8; 16; 32; 64] -> n <= w -> smallest_cover n <= w).
Proof.
  intros n H. exact (conj (go_type_uint n H) (conj (go_type_int n H)
    (conj (fun ms => go_type_enum n ms H) (smallest_cover_spec n H)))).
Qed.
Print Assumptions C19_struct_types.

(* a field's declared Go type is its array layers (through alias names) around the type of the
   innermost type; the size constant is ceil(nbits/8) *)
Theorem C19_struct_layers : forall t, shape_ok t = true ->
  exists g, strip_arrays (go_type_of t) (arr_layers t) = Some g /\
            under g = under (go_type_of (innermost t)).
Proof. exact go_type_layers. Qed.
Print Assumptions C19_struct_layers.

Theorem C19_size_const : forall x fs, 0 <= nbits (TMsg x fs) ->
  gc_size (go_cls_of x fs) = (nbits (TMsg x fs) + 7) / 8 /\ gc_size (go_cls_of x fs) = nbytes (TMsg x fs).
Proof. intros x fs H. split; apply type_nbytes_eq. Qed.
Print Assumptions C19_size_const.

(* the accessor tables address, for each field number, exactly that field: array depth =
   number of array layers through aliases, conversion type = that of the innermost single
   type, `=` exactly for bool, sign extension exactly for signed n not in {8,16,32,64} *)
Theorem C19_tables_address_fields : forall x fs k ft,
  keys_distinct (map fst fs) = true -> In (k, ft) fs ->
  shape_ok ft = true -> is_single (innermost ft) = true ->
  let c := go_cls_of x fs in
  let s := innermost ft in
  let d := arr_layers ft in
  (exists e, lookup k (gc_set c) = Some e /\ gs_depth e = d /\
             under (gs_conv e) = under (go_type_of s) /\
             gs_kind e = (if is_boolb s then GSBool else GSOr)) /\
  (exists e, lookup k (gc_get c) = Some e /\ gg_depth e = d /\
             (if is_boolb s then exists cv, gg_kind e = GGBool cv else gg_kind e = GGInt)) /\
  lookup k (gc_int c) = (match s with TInt n => sign_entry d n | _ => None end) /\
  lookup k (gc_acc c) = None /\
  lookup k (gc_struct c) = Some (go_type_of ft).
Proof. exact tables_single. Qed.
Print Assumptions C19_tables_address_fields.

Theorem C19_tables_address_messages : forall x fs k ft,
  keys_distinct (map fst fs) = true -> In (k, ft) fs ->
  shape_ok ft = true -> is_msgb (innermost ft) = true ->
  let c := go_cls_of x fs in
  lookup k (gc_acc c) = Some (arr_layers ft) /\
  lookup k (gc_set c) = None /\ lookup k (gc_get c) = None /\ lookup k (gc_int c) = None /\
  lookup k (gc_struct c) = Some (go_type_of ft).
Proof. exact tables_msg. Qed.
Print Assumptions C19_tables_address_messages.

Theorem C19_sign_extension : forall d n, 1 <= n <= 64 ->
  sign_entry d n = if is_std_width n then None
                   else Some {| gi_depth := d; gi_d := smallest_cover n - n |}.
Proof. exact sign_entry_spec. Qed.
Print Assumptions C19_sign_extension.

(* processor tree: same field numbers, widths, capacities, extensible flags, nesting and
   nbits as the Python output's, for every type tree *)
Theorem C19_tree_eq_py : forall t, gskel (go_proc_of t) = pskel (proc_of t).
Proof. exact tree_eq_py. Qed.
Print Assumptions C19_tree_eq_py.

(* ... and the four tables address the same fields at the same depths as Python's *)
Theorem C19_tables_eq_py : forall x fs,
  keys_distinct (map fst fs) = true -> fields_ok fs ->
  depths_get (cls_of fs) = gdepths_get (go_cls_of x fs) /\
  depths_set (cls_of fs) = gdepths_set (go_cls_of x fs) /\
  depths_int (cls_of fs) = gdepths_int (go_cls_of x fs) /\
  c_acc (cls_of fs) = gc_acc (go_cls_of x fs).
Proof.
  intros x fs Hd Hok. exact (conj (agree_get x fs Hok) (conj (agree_set x fs Hok)
    (conj (agree_int x fs Hd Hok) (agree_acc x fs Hok)))).
Qed.
Print Assumptions C19_tables_eq_py.

(* semantics: the Go encoder model (translated helpers + typed accessors as emitted)
   produces the specified wire, for every schema and every in-range value *)
Theorem C19_go_accessors_spec_encode : forall t v,
  is_msg t = true -> wf (norm t) = true -> shape_ok (norm t) = true -> has_ty (norm t) v = true ->
  go_encode t v = Ok (wire t v).
Proof. exact go_encode_is_wire. Qed.
Print Assumptions C19_go_accessors_spec_encode.

(* single-leaf decode: <<= d; >>= d at the storage type, d = w - n, applied to the n-bit field u
   that the |= of the chunks has left, yields the sign-extended value, for every Go integer type
   and every width (the |= itself is the next theorem) *)
Theorem C19_go_sign_extend : forall w n u,
  In w [8; 16; 32; 64] -> 1 <= n <= w -> 0 <= u < 2 ^ n ->
  Z.shiftr (GenGo.wrap_s w (Z.shiftl u (w - n))) (w - n) = sext n u.
Proof. exact GoDecStep.go_sign_extend. Qed.
Print Assumptions C19_go_sign_extend.

(* single-leaf decode: the operand of the typed `m.F |= (T(b) << lshift)` is exactly what the
   Python accessor ORs in (bp.intW(int(b) << lshift) resp. int(b) << lshift): converting the
   byte to T before the shift loses nothing, for every Go integer type, byte and chunk offset *)
Theorem C19_go_chunk_eq_py : forall w b l,
  In w [8; 16; 32; 64] -> 0 <= b < 256 -> 0 <= l -> l + 8 <= w ->
  conv_to (GInt w) (Z.shiftl (GenGo.wrap_s w b) l) = Ok (cast_w w (Z.shiftl b l)) /\
  conv_to (GUint w) (Z.shiftl (GenGo.wrap_u w b) l) = Ok (Z.shiftl b l).
Proof. exact GoDecStep.go_chunk_eq_py. Qed.
Print Assumptions C19_go_chunk_eq_py.

(* semantics, decode half: the Go decoder model (translated helpers, typed accessors as
   emitted, sign extension by <<= d; >>= d, bool via Byte2bool), run on the specified wire of v
   into a zero-valued Go struct, leaves exactly the canonical storage of v:
   [canon (norm t) v] = fields in field-number order, every bool a Go bool, every integer leaf the
   value itself (signed ones sign-extended into their intN), arrays element by element.
   Go's zero value of an enum is 0, so no condition on the first enum member is needed
   (Python's decoder needs dec_guard, finding enum-default). *)
Theorem C19_go_accessors_spec_decode : forall t v,
  is_msg t = true -> wf (norm t) = true -> shape_ok (norm t) = true -> has_ty (norm t) v = true ->
  go_decode t (wire t v) = Ok (canon (norm t) v).
Proof. exact go_decode_wire. Qed.
Print Assumptions C19_go_accessors_spec_decode.

(* at any nested position (inside arrays, aliases, sub-messages) the decoder writes exactly
   canon t v at the addressed place, touches nothing else and advances the cursor by nbits t *)
Theorem C19_go_decode_at_position : forall t g vs fn stk a v s i0,
  wf t = true -> shape_ok t = true -> has_ty t v = true ->
  gdreach t g fn (length stk) -> 1 <= fn ->
  lookup fn vs = Some a -> PyRt.index_val a stk = Ok (go_default t) ->
  bytes_ok s -> 0 <= i0 -> i0 + nbits t <= 8 * Z.of_nat (length s) -> Z.of_nat (length s) < 2 ^ 36 ->
  PyDecStep.slice s i0 (nbits t) = Z_of_bits (enc_bits t v) ->
  go_dec (go_proc_of t) g (VM vs) (Some fn) stk {| cs := s; ci := i0 |} =
  Ok (VM (set_field fn (PyDecStep.set_idx a stk (canon t v)) vs), {| cs := s; ci := i0 + nbits t |}).
Proof. exact go_dec_ok_all. Qed.
Print Assumptions C19_go_decode_at_position.

(* Decode(Encode(v)) equals v field by field, and re-encoding the decoded struct gives the bytes *)
Theorem C19_go_roundtrip : forall t v,
  is_msg t = true -> wf (norm t) = true -> shape_ok (norm t) = true -> has_ty (norm t) v = true ->
  exists b v',
    go_encode t v = Ok b /\ go_decode t b = Ok v' /\
    val_sim (norm t) v' v = true /\ go_encode t v' = Ok b /\ b = wire t v /\ v' = canon (norm t) v.
Proof. exact go_roundtrip. Qed.
Print Assumptions C19_go_roundtrip.

(* non-vacuity: a permuted, extensible, nested example meets every hypothesis *)
Definition ex_t : ty :=
  TMsg true [ (3, TAlias (TArr true 3 (TUint 3)));
              (1, TEnum 3 [0; 1; 5]);
              (2, TAlias (TInt 13));
              (5, TMsg false [(2, TUint 5); (1, TBool)]);
              (7, TArr false 2 (TAlias (TArr false 2 TByte)));
              (8, TArr true 2 (TMsg true [(1, TInt 33)]));
              (9, TInt 32) ].
Definition ex_v : val :=
  VM [ (3, VL [VZ 1; VZ 7; VZ 2]); (1, VZ 5); (2, VZ (-171));
       (5, VM [(2, VZ 19); (1, VB true)]); (7, VL [VL [VZ 255; VZ 1]; VL [VZ 0; VZ 128]]);
       (8, VL [VM [(1, VZ (-4294967296))]; VM [(1, VZ 5)]]); (9, VZ (-2)) ].
Example C19_nonvacuous :
  is_msg ex_t = true /\ wf (norm ex_t) = true /\ shape_ok (norm ex_t) = true /\
  has_ty (norm ex_t) ex_v = true /\
  go_encode ex_t ex_v = Ok (wire ex_t ex_v) /\
  res_val_sim ex_t (go_decode ex_t (wire ex_t ex_v)) (Ok ex_v) = true /\
  go_decode ex_t (wire ex_t ex_v) = Ok (canon (norm ex_t) ex_v) /\
  gproc_diff (go_proc_of (norm ex_t)) (go_proc_of (norm ex_t)) = 0 /\
  lookup 7 (gc_set (go_cls_of true (match norm ex_t with TMsg _ fs => fs | _ => [] end))) =
    Some {| gs_depth := 2; gs_conv := GByte; gs_kind := GSOr |} /\
  lookup 2 (gc_int (go_cls_of true (match norm ex_t with TMsg _ fs => fs | _ => [] end))) =
    Some {| gi_depth := 0; gi_d := 3 |}.
Proof. vm_compute. repeat split; reflexivity. Qed.

(* the statements are for ANY number of array dimensions: a field with six dimensions through
   aliases (the emitted accessors then index di.I(0) .. di.I(5)), and two arrays whose bit totals
   differ exactly by the 16-bit prefix (uint3[8]' / uint5[8]) keep distinct processors *)
Definition ex_deep6 : ty :=
  TAlias (TArr false 1 (TAlias (TArr true 2 (TAlias (TArr false 1 (TAlias (TArr false 2
    (TAlias (TArr true 1 (TAlias (TArr false 2 (TInt 13)))))))))))).
Definition ex_t2 : ty := TMsg false [(4, ex_deep6); (2, TArr true 8 (TUint 3)); (3, TArr false 8 (TUint 5))].
Definition ex_v2 : val :=
  VM [(4, VL [VL [VL [VL [VL [VL [VZ (-4096); VZ 4095]]; VL [VL [VZ 1; VZ (-1)]]]];
                  VL [VL [VL [VL [VZ 0; VZ 7]]; VL [VL [VZ (-2); VZ 2]]]]]]);
      (2, VL [VZ 1; VZ 2; VZ 3; VZ 4; VZ 5; VZ 6; VZ 7; VZ 0]);
      (3, VL [VZ 31; VZ 2; VZ 3; VZ 4; VZ 5; VZ 6; VZ 7; VZ 0])].
Example C19_nonvacuous_deep :
  shape_ok (norm ex_t2) = true /\ wf (norm ex_t2) = true /\ has_ty (norm ex_t2) ex_v2 = true /\
  arr_layers ex_deep6 = 6%nat /\
  lookup 4 (gc_set (go_cls_of false [(4, ex_deep6)])) =
    Some {| gs_depth := 6; gs_conv := GInt 16; gs_kind := GSOr |} /\
  lookup 4 (gc_int (go_cls_of false [(4, ex_deep6)])) = Some {| gi_depth := 6; gi_d := 3 |} /\
  go_encode ex_t2 ex_v2 = Ok (wire ex_t2 ex_v2) /\
  go_decode ex_t2 (wire ex_t2 ex_v2) = Ok (canon (norm ex_t2) ex_v2) /\
  gskel (go_proc_of (TArr true 8 (TUint 3))) <> gskel (go_proc_of (TArr false 8 (TUint 5))) /\
  nbits (TArr true 8 (TUint 3)) = nbits (TArr false 8 (TUint 5)).
Proof. vm_compute. repeat split; try reflexivity. discriminate. Qed.
