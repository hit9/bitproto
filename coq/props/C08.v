(* C08 — a schema is accepted if and only if it satisfies the documented constraints.
   Statements (proved in theories/FrontValidProofs.v and FrontWf.v), each followed by Print
   Assumptions; plus Examples (boundary values on both sides of every numeric limit, and
   non-vacuity).

   [Valid fs root trad] (theories/FrontValid.v) transcribes the property text: every clause is a
   named predicate with the documented bound as a literal (width_ok 1..64, cap_ok 1..65535,
   number_ok 1..255 and unique per message, enum_value_fits / unique, fresh = names unique per
   scope, msg_bits_ok <= 65535 bits, msg_bytes_ok, alias_target_unnamed, one-dimensional arrays by
   construction, in_file_scope / in_message_scope = nothing declared where it is forbidden,
   option_ok, references resolve (C11's lookup) to an earlier definition of the right kind,
   imports neither cyclic nor duplicated).  [check] is the model of the parser (theories/Front.v)
   whose numeric tests are re-translated from _ast.py on every run (gen/GenFront.v). *)
From Coq Require Import ZArith List String.
From BP Require Import Schema FrontBase Front FrontValid FrontValidProofs FrontWf.
Import ListNotations.
Open Scope Z_scope.

Theorem C08_sound : forall fs root trad e, check fs root trad = Ok e -> Valid fs root trad.
Proof. exact check_sound. Qed.
Print Assumptions C08_sound.

Theorem C08_complete : forall fs root trad, Valid fs root trad -> exists e, check fs root trad = Ok e.
Proof. exact check_complete. Qed.
Print Assumptions C08_complete.

(* and what it elaborates to is what the specification says *)
Theorem C08_elaboration : forall fs root trad e,
  check fs root trad = Ok e <-> exists n, file_ok n fs trad false [] root e.
Proof. exact check_ok_iff_file_ok. Qed.
Print Assumptions C08_elaboration.

(* the model never gives up: the import depth bound S (length fs) is always enough *)
Theorem C08_check_total : forall fs root trad f l, check fs root trad <> Err KFuel f l.
Proof. exact check_not_fuel. Qed.
Print Assumptions C08_check_total.

(* A REJECTION is never a crash (every error kind of the model is a ParserError class, except
   the OS error for a missing file) and cites either a file-level condition (missing file,
   missing proto statement, an import whose name is taken: no line) or the line of a statement
   of the cited file; for the kinds of the numeric rules that statement breaks the documented
   bound ([rule_broken]) *)
Theorem C08_error_cites : forall fs root trad k f l,
  check fs root trad = Err k f l -> cited fs k f l.
Proof. exact check_error_cites. Qed.
Print Assumptions C08_error_cites.

(* the translated validators ARE the documented bounds *)
Theorem C08_bounds :
  (forall n, GenFront.uint_cap_raises n = false <-> 1 <= n <= 64) /\
  (forall n, GenFront.int_cap_raises n = false <-> 1 <= n <= 64) /\
  (forall n, GenFront.array_cap_raises n = false <-> 1 <= n <= 65535) /\
  (forall n, GenFront.field_number_raises n = false <-> 1 <= n <= 255) /\
  (forall nb, GenFront.message_size_raises nb = false <-> nb <= 65535) /\
  (forall v n, 0 <= v -> 0 <= n -> (GenFront.enum_value_overflows v n = false <-> v < 2 ^ n)) /\
  (forall t, ty_nbits t = nbits t).
Proof.
  exact (conj uint_cap_bridge (conj int_cap_bridge (conj array_cap_bridge (conj field_number_bridge
        (conj message_size_bridge (conj (fun v n Hv _ => enum_overflow_bridge v n Hv) ty_nbits_eq)))))).
Qed.
Print Assumptions C08_bounds.

(* every message type of an accepted schema is well formed in the sense the wire-level theorems
   (C01, C02, C12) assume, also after normalisation: widths 1..64, capacities 1..65535, numbers
   1..255 and distinct, enum members within the width, at most 65535 bits at every level *)
Theorem C08_accepted_types_wf : forall fs root trad e p t,
  check fs root trad = Ok e -> msg_ty_at (Ok e) p = Some t -> wf t = true /\ wf (norm t) = true.
Proof. exact accepted_types_wf. Qed.
Print Assumptions C08_accepted_types_wf.

(* The property text has no clause about dividing by zero in a constant expression; the compiler
   rejects such a schema (a CalculationExpressionError at the line of the expression, /repo fix
   ba6c9a1), so [Valid] carries the clause "divisors are non-zero" that
   [ValidText] (the clauses the text lists, literally) lacks: *)
Definition ex_div0 : files := [("r"%string, [IProto 1 "r"; IConst 2 "A" (CExpr (EDiv (EInt 1) (EInt 0)))]%string)].

Theorem C08_text_has_no_division_clause :
  exists fs root, ValidText fs root false /\ check fs root false = Err KCalcExpr root 2.
Proof. exact text_has_no_division_clause. Qed.
Print Assumptions C08_text_has_no_division_clause.

(* Witnesses of three findings (corpus/C08/; /repo fixes ba6c9a1 and 5271e56): division by
   zero, an import inside a message and an import inside an enum are parser errors citing the
   offending statement of the importing file. *)
Definition ex_import_in_msg : files :=
  [("r"%string, [IProto 1 "r"; IMsg 2 "M" false [IImport 3 None "lib"]]%string);
   ("lib"%string, [IProto 1 "lib"]%string)].

Example C08_fixed_findings_cite_the_statement :
  check ex_div0 "r" false = Err KCalcExpr "r" 2 /\
  check ex_import_in_msg "r" false = Err KImportInMessage "r" 3 /\
  check [("r"%string, [IProto 1 "r"; IEnum 2 "E" (SUint 3) [IImport 3 None "lib"]]%string);
         ("lib"%string, [IProto 1 "lib"]%string)] "r" false = Err KImportInEnum "r" 3.
Proof. repeat apply conj; vm_compute; reflexivity. Qed.

Definition is_ok {A} (r : res A) : bool := match r with Ok _ => true | Err _ _ _ => false end.
Definition one (its : list item) : files := [("r"%string, IProto 1 "r" :: its)].
Definition msg (x : bool) (body : list item) : list item := [IMsg 2 "M" x body].
Definition fld (l : Z) (t : tyx) (n : string) (k : Z) : item := IField l t n k.

Example C08_width_64_65 :
  is_ok (check (one (msg false [fld 3 (XSingle (SUint 64)) "a" 1; fld 4 (XSingle (SInt 64)) "b" 2;
                                fld 5 (XSingle (SUint 1)) "c" 3; fld 6 (XSingle (SInt 1)) "d" 4])) "r" false) = true /\
  check (one (msg false [fld 3 (XSingle (SUint 65)) "a" 1])) "r" false = Err KInvalidUintCap "r" 3 /\
  check (one (msg false [fld 3 (XSingle (SInt 65)) "a" 1])) "r" false = Err KInvalidIntCap "r" 3 /\
  check (one (msg false [fld 3 (XSingle (SUint 0)) "a" 1])) "r" false = Err KInvalidUintCap "r" 3 /\
  check (one (msg false [fld 3 (XArr (SInt 0) (CapLit 2) false) "a" 1])) "r" false = Err KInvalidIntCap "r" 3 /\
  check (one [IEnum 2 "E" (SUint 65) []]) "r" false = Err KInvalidUintCap "r" 2 /\
  is_ok (check (one [IEnum 2 "E" (SUint 64) [IEnumField 3 "A" 18446744073709551615]]) "r" false) = true /\
  check (one [IEnum 2 "E" (SUint 64) [IEnumField 3 "A" 18446744073709551616]]) "r" false = Err KEnumValueOverflow "r" 3.
Proof. repeat apply conj; vm_compute; reflexivity. Qed.

Example C08_field_number_255_256 :
  is_ok (check (one (msg false [fld 3 (XSingle SBool) "a" 255; fld 4 (XSingle SBool) "b" 1])) "r" false) = true /\
  check (one (msg false [fld 3 (XSingle SBool) "a" 256])) "r" false = Err KInvalidFieldNumber "r" 3 /\
  check (one (msg false [fld 3 (XSingle SBool) "a" 0])) "r" false = Err KInvalidFieldNumber "r" 3 /\
  check (one (msg false [fld 3 (XSingle SBool) "a" 7; fld 4 (XSingle SBool) "b" 7])) "r" false = Err KDupFieldNumber "r" 4.
Proof. repeat apply conj; vm_compute; reflexivity. Qed.

Example C08_capacity_0_1_65535_65536 :
  is_ok (check (one [IAlias 2 "T" (XArr SBool (CapLit 1) false)]) "r" false) = true /\
  is_ok (check (one [IAlias 2 "T" (XArr SBool (CapLit 65535) true)]) "r" false) = true /\
  check (one [IAlias 2 "T" (XArr SBool (CapLit 0) false)]) "r" false = Err KInvalidArrayCap "r" 2 /\
  check (one [IAlias 2 "T" (XArr SBool (CapLit 65536) false)]) "r" false = Err KInvalidArrayCap "r" 2 /\
  check (one [IConst 2 "N" (CExpr (EAdd (EInt 65535) (EInt 1))); IAlias 3 "T" (XArr SBool (CapRef ["N"%string]) false)])
        "r" false = Err KInvalidArrayCap "r" 3.
Proof. repeat apply conj; vm_compute; reflexivity. Qed.

(* 65535 / 65536 bits, without and with the 16-bit prefix of an extensible message *)
Example C08_message_65535_65536_bits :
  is_ok (check (one (msg false [fld 3 (XArr SBool (CapLit 65535) false) "a" 1])) "r" false) = true /\
  check (one (msg false [fld 3 (XArr SBool (CapLit 65535) false) "a" 1; fld 4 (XSingle SBool) "b" 2])) "r" false
    = Err KMessageSizeOverflows "r" 2 /\
  is_ok (check (one (msg true [fld 3 (XArr SBool (CapLit 65519) false) "a" 1])) "r" false) = true /\
  check (one (msg true [fld 3 (XArr SBool (CapLit 65520) false) "a" 1])) "r" false = Err KMessageSizeOverflows "r" 2 /\
  is_ok (check (one (msg false [fld 3 (XArr SBool (CapLit 65520) false) "a" 1])) "r" false) = true /\
  (* the prefix of an extensible ARRAY counts too: 16 + 65519 = 65535 *)
  is_ok (check (one (msg false [fld 3 (XArr SBool (CapLit 65519) true) "a" 1])) "r" false) = true /\
  check (one (msg false [fld 3 (XArr SBool (CapLit 65520) true) "a" 1])) "r" false = Err KMessageSizeOverflows "r" 2.
Proof. repeat apply conj; vm_compute; reflexivity. Qed.

Example C08_max_bytes :
  is_ok (check (one (msg false [IOption 3 "max_bytes" (OLit (CVInt 2)); fld 4 (XSingle (SUint 16)) "a" 1])) "r" false) = true /\
  check (one (msg false [IOption 3 "max_bytes" (OLit (CVInt 2)); fld 4 (XSingle (SUint 17)) "a" 1])) "r" false
    = Err KMessageSizeOverflows "r" 2 /\
  check (one (msg false [fld 3 (XSingle (SUint 17)) "a" 1; IOption 4 "max_bytes" (OLit (CVInt 2))])) "r" false
    = Err KMessageSizeOverflows "r" 2 /\
  is_ok (check (one (msg false [IOption 3 "max_bytes" (OLit (CVInt 0)); fld 4 (XSingle (SUint 64)) "a" 1])) "r" false) = true.
Proof. repeat apply conj; vm_compute; reflexivity. Qed.

(* non-vacuity of the specification: a schema with an import, shadowing, an alias, an enum, a
   constant expression as array capacity and an extensible message is Valid *)
Definition ex_valid : files :=
  [("r"%string,
    [IImport 1 (Some "L") "lib"; IProto 2 "r";
     IConst 3 "N" (CExpr (EDiv (EMul (EInt 3) (EInt 5)) (EInt 4)));
     IAlias 4 "Vec" (XArr (SRef ["L"; "Color"]) (CapRef ["N"]) true);
     IMsg 5 "M" true
       [IOption 6 "max_bytes" (OLit (CVInt 64));
        IEnum 7 "Color" (SUint 2) [IEnumField 7 "A" 0; IEnumField 7 "B" 3];
        IField 8 (XSingle (SRef ["Color"])) "c" 2;
        IField 9 (XSingle (SRef ["Vec"])) "v" 1;
        IField 10 (XSingle (SInt 64)) "w" 255]]%string);
   ("lib"%string, [IProto 1 "lib"; IEnum 2 "Color" (SUint 7) [IEnumField 3 "RED" 0; IEnumField 4 "TOP" 127]]%string)].

Example C08_valid_example : Valid ex_valid "r" false.
Proof. apply (check_sound _ _ _ _ (eq_refl : check ex_valid "r" false = Ok _)). Qed.
