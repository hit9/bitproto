(* C12 — the wire format depends only on field numbers and resolved types.
   Statements (proved in theories/WireEq.v for the wire level and FrontRewrite.v, FrontCongr.v,
   FrontRenumber.v for the front end), each followed by Print Assumptions; plus Examples.

   Spec.wire takes a resolved type [ty]: it contains no names, no comments, no declaration
   order of definitions and no import structure.  So a rewrite of the schema text can change
   the bytes only through the [ty] the front end elaborates; the wire-level theorems below say
   which changes of [ty] are invisible, for EVERY type, value, nesting depth and sequence. *)
From Coq Require Import ZArith List String Ascii Permutation.
From BP Require Import Schema Spec WireEq FrontBase Front FrontValid FrontRewrite FrontCongr FrontSim FrontRenumber.
Import ListNotations.
Open Scope Z_scope.

(* introducing or inlining a type alias (anywhere in the type) *)
Theorem C12_alias_transparent : forall t v, wire (TAlias t) v = wire t v.
Proof. exact (fun t v => eq_refl). Qed.
Print Assumptions C12_alias_transparent.

Theorem C12_alias_anywhere : forall t t', strip t = strip t' -> forall v, wire t v = wire t' v.
Proof. exact wire_alias_insensitive. Qed.
Print Assumptions C12_alias_anywhere.

(* reordering field declarations while keeping their numbers *)
Theorem C12_reorder_fields : forall x fs fs' v,
  Permutation fs fs' -> NoDup (map fst fs) -> wire (TMsg x fs) v = wire (TMsg x fs') v.
Proof. exact (fun x fs fs' v HP ND => weq_wire _ _ _ (weq_msg_perm x fs fs' HP ND) v). Qed.
Print Assumptions C12_reorder_fields.

(* renumbering fields order-preservingly; the value is mapped through the rewrite *)
Theorem C12_renumber_monotone : forall x fs f v,
  mono_on f (map fst fs) ->
  wire (TMsg x fs) v = wire (TMsg x (renumber_fields f fs)) (renumber_val f fs v).
Proof. exact (fun x fs f v Hm => weq_wire _ _ _ (weq_msg_renumber x fs f Hm) v). Qed.
Print Assumptions C12_renumber_monotone.

(* every one of these steps may be applied at any depth (inside an alias, an array element,
   a field of a message whose numbers are distinct) and in any sequence *)
Theorem C12_sequences : forall t t' m, rw_star t t' m -> forall v, wire t v = wire t' (m v).
Proof. exact rw_star_wire. Qed.
Print Assumptions C12_sequences.

(* sizes are preserved as well (the 16-bit prefix of every enclosing extensible message) *)
Theorem C12_sequences_nbits : forall t t' m, rw_star t t' m -> nbits t = nbits t'.
Proof. exact (fun t t' m H => proj1 (rw_star_weq t t' m H)). Qed.
Print Assumptions C12_sequences_nbits.

(* non-vacuity: a nested, extensible example; alias introduced inside an array element of a
   field, fields of the outer message permuted, inner message renumbered 1,2 -> 4,9 *)
Definition ex_inner : ty := TMsg true [(2, TInt 13); (1, TEnum 3 [0; 1; 5])].
Definition ex_t : ty := TMsg true [(3, TArr true 2 ex_inner); (1, TUint 5); (7, TBool)].
Definition ex_f (k : Z) : Z := if k =? 1 then 4 else 9.
Definition ex_inner' : ty := TAlias (TMsg true (renumber_fields ex_f [(2, TInt 13); (1, TEnum 3 [0; 1; 5])])).
Definition ex_t' : ty := TMsg true [(7, TBool); (3, TArr true 2 ex_inner'); (1, TUint 5)].
Definition ex_v : val :=
  VM [(1, VZ 21); (7, VB true);
      (3, VL [VM [(1, VZ 5); (2, VZ (-7))]; VM [(2, VZ 4095); (1, VZ 1)]])].

Example C12_example_rw :
  exists m, rw_star ex_t ex_t' m /\ wire ex_t ex_v = wire ex_t' (m ex_v).
Proof.
  eexists. split.
  - eapply RwCons.
    { apply (RwInField true [] [(1, TUint 5); (7, TBool)] 3).
      - cbn. intros [H|[H|[]]]; discriminate.
      - apply RwInArr. apply (RwRenumber true [(2, TInt 13); (1, TEnum 3 [0; 1; 5])] ex_f).
        intros a b [<-|[<-|[]]] [<-|[<-|[]]] H; cbn; try reflexivity; exfalso; revert H; apply Z.lt_irrefl || (intros H; inversion H). }
    eapply RwCons.
    { apply (RwInField true [] [(1, TUint 5); (7, TBool)] 3).
      - cbn. intros [H|[H|[]]]; discriminate.
      - apply RwInArr. apply RwAliasIntro. }
    eapply RwCons.
    { apply (RwReorder true _ [(7, TBool); (3, TArr true 2 ex_inner'); (1, TUint 5)]).
      - cbn [app]. eapply perm_trans; [apply perm_skip, perm_swap|]. eapply perm_trans; [apply perm_swap|].
        apply perm_skip. apply Permutation_refl.
      - cbn. repeat constructor; cbn; intuition discriminate. }
    apply RwNil.
  - vm_compute. reflexivity.
Qed.

Example C12_example_bytes : wire ex_t ex_v = wire ex_t' (VM [(7, VB true); (1, VZ 21);
      (3, VL [VM [(4, VZ 5); (9, VZ (-7))]; VM [(9, VZ 4095); (4, VZ 1)]])]).
Proof. vm_compute. reflexivity. Qed.

(* RENAMING messages, fields, enums, enum members, aliases, constants, import `as` names and
   proto names by any injective map on identifiers (option names are not identifiers of the
   schema and stay): the rewritten schema is accepted and every message elaborates to the SAME
   resolved type, so its bytes are the same for every value (value map = identity) *)
Theorem C12_rename : forall rho fs root trad e,
  (forall a b, rho a = rho b -> a = b) ->
  rho GenFront.max_bytes_option_name = GenFront.max_bytes_option_name ->
  opts_fixed rho fs ->
  check fs root trad = Ok e ->
  exists e', check (rename rho fs) root trad = Ok e' /\
             forall p, msg_ty_at (Ok e') (map rho p) = msg_ty_at (Ok e) p.
Proof. exact rename_preserves_types. Qed.
Print Assumptions C12_rename.

(* COMMENTS, WHITESPACE, OPTIONAL SEMICOLONS: absent from the surface tree except for the line
   attribute of every statement; any per-file relabelling of lines leaves acceptance and every
   elaborated type unchanged (that the printed text with different trivia parses to the same
   tree is what every T2 case checks) *)
Theorem C12_trivia : forall lam fs root trad e,
  (forall f, lam f 0 = 0) ->
  check fs root trad = Ok e ->
  exists e', check (relabel lam fs) root trad = Ok e' /\
             forall p, msg_ty_at (Ok e') p = msg_ty_at (Ok e) p.
Proof. exact trivia_preserves_types. Qed.
Print Assumptions C12_trivia.

(* in fact [check] commutes with both at once, rejections included (same class, corresponding line) *)
Theorem C12_check_commutes : forall rho lam,
  (forall a b, rho a = rho b -> a = b) -> (forall f, lam f 0 = 0) ->
  rho GenFront.max_bytes_option_name = GenFront.max_bytes_option_name ->
  forall fs root trad, opts_fixed rho fs ->
  check (rn_files rho lam fs) root trad = rn_res lam (rn_def rho lam) (check fs root trad).
Proof. exact check_rn. Qed.
Print Assumptions C12_check_commutes.

(* non-vacuity: prefixing every identifier with "x" and doubling every line number *)
Definition ex_fs : files :=
  [("r"%string,
    [IProto 1 "r"; IImport 2 None "lib";
     IConst 3 "N" (CExpr (EInt 2));
     IMsg 4 "M" true
       [IOption 5 "max_bytes" (OLit (CVInt 0));
        IEnum 6 "E" (SUint 3) [IEnumField 6 "A" 0; IEnumField 6 "B" 5];
        IField 7 (XArr (SRef ["E"]) (CapRef ["N"]) true) "es" 2;
        IField 8 (XSingle (SRef ["lib"; "T"])) "t" 1]]%string);
   ("lib"%string, [IProto 1 "lib"; IAlias 2 "T" (XSingle (SInt 13))]%string)].

Definition ex_rho (s : string) : string := if String.eqb s "max_bytes" then s else String "x"%char s.

Example C12_rename_example :
  msg_ty_at (check (rn_files ex_rho (fun _ l => 2 * l) ex_fs) "r" false) ["xM"%string] =
  msg_ty_at (check ex_fs "r" false) ["M"%string] /\
  msg_ty_at (check ex_fs "r" false) ["M"%string] =
  Some (TMsg true [(2, TArr true 2 (TEnum 3 [0; 5])); (1, TAlias (TInt 13))]).
Proof. split; vm_compute; reflexivity. Qed.

(* REPLACING A LITERAL BY A CONSTANT EXPRESSION OF EQUAL VALUE (and any expression by another of
   equal value; expressions that mention no constant by name: FrontCongr.cvalue), in any number of
   constant statements of any file at any depth: [check] is UNCHANGED — same acceptance, same
   errors, same elaborated types, hence the same bytes *)
Theorem C12_const_expr : forall fs fs' root trad,
  frel const_expr_step fs fs' -> check fs' root trad = check fs root trad.
Proof. exact const_expr_check. Qed.
Print Assumptions C12_const_expr.

Definition ex_ce (e : cexpr) : files :=
  [("r"%string, [IProto 1 "r"; IConst 2 "N" (CExpr e);
                 IMsg 3 "M" false [IField 4 (XArr SByte (CapRef ["N"]) false) "d" 1; IField 5 (XSingle (SUint 7)) "t" 2]]%string)].

Example C12_const_expr_example :
  frel const_expr_step (ex_ce (EInt 7)) (ex_ce (EDiv (EMul (EInt 2) (EInt 7)) (EInt 2))) /\
  msg_ty_at (check (ex_ce (EDiv (EMul (EInt 2) (EInt 7)) (EInt 2))) "r" false) ["M"%string] =
  Some (TMsg false [(1, TArr false 7 TByte); (2, TUint 7)]).
Proof.
  split; [|vm_compute; reflexivity].
  cbn [ex_ce frel FrontCongr.lrel fst snd]. split; [reflexivity|]. split; [|exact I].
  split; [now left|]. split; [|split; [now left|exact I]].
  right. left. exists 2, "N"%string, (EInt 7), (EDiv (EMul (EInt 2) (EInt 7)) (EInt 2)), 7. now repeat split.
Qed.

(* RENUMBERING FIELDS ORDER-PRESERVINGLY, front end + wire: g0 is an injective map on numbers that
   stays within 1..255; [renumbered g0 fs fs'] says that fs' is fs with the fields of some
   messages (any file, any nesting depth) renumbered by g0, g0 being monotone on the numbers of
   each such message.  Then the rewritten schema is accepted and every message elaborates to a
   type of the same size and the same wire format, the value mapped through the rewrite *)
Theorem C12_renumber : forall g0,
  (forall a b, g0 a = g0 b -> a = b) -> (forall k, number_ok k -> number_ok (g0 k)) ->
  forall fs fs' root trad e,
  renumbered g0 fs fs' -> check fs root trad = Ok e ->
  exists e', check fs' root trad = Ok e' /\
    forall p t, msg_ty_at (Ok e) p = Some t ->
      exists t' m, msg_ty_at (Ok e') p = Some t' /\ nbits t = nbits t' /\ forall v, wire t v = wire t' (m v).
Proof. exact renumber_check. Qed.
Print Assumptions C12_renumber.

(* non-vacuity: Inner's fields 1,2 become 2,5 (the cycle 1->2->5->1); Outer embeds Inner twice *)
Definition ex_g (k : Z) : Z := if k =? 1 then 2 else if k =? 2 then 5 else if k =? 5 then 1 else k.
Definition ex_rn (a b : Z) : files :=
  [("r"%string,
    [IProto 1 "r";
     IMsg 2 "Outer" true
       [IMsg 3 "Inner" true [IField 4 (XSingle (SInt 13)) "x" a; IField 5 (XSingle (SUint 3)) "y" b];
        IField 6 (XArr (SRef ["Inner"]) (CapLit 2) true) "arr" 3;
        IField 7 (XSingle (SRef ["Inner"])) "one" 1]]%string)].

Example C12_renumber_example :
  (forall a b, ex_g a = ex_g b -> a = b) /\ (forall k, number_ok k -> number_ok (ex_g k)) /\
  renumbered ex_g (ex_rn 1 2) (ex_rn 2 5) /\
  msg_ty_at (check (ex_rn 2 5) "r" false) ["Outer"%string] =
  Some (TMsg true [(3, TArr true 2 (TMsg true [(2, TInt 13); (5, TUint 3)])); (1, TMsg true [(2, TInt 13); (5, TUint 3)])]).
Proof.
  split; [|split; [|split; [|vm_compute; reflexivity]]].
  - intros a b. unfold ex_g.
    repeat match goal with |- context [?x =? ?y] => destruct (Z.eqb_spec x y) end; intros; subst; try reflexivity; try congruence.
  - intros k. unfold ex_g, number_ok.
    repeat match goal with |- context [?x =? ?y] => destruct (Z.eqb_spec x y) end; intros; subst; repeat split; try (apply Z.leb_le; reflexivity); tauto.
  - unfold renumbered. cbn [ex_rn frelT FrontSim.lrel fst snd]. split; [reflexivity|]. split; [|exact I].
    split; [now left|]. split; [|exact I].
    right. split; [reflexivity|]. split; [reflexivity|]. split; [reflexivity|].
    exists idz. split; [now left|].
    split; [|split; [now left|split; [now left|exact I]]].
    right. split; [reflexivity|]. split; [reflexivity|]. split; [reflexivity|].
    exists ex_g. split.
    + right. split; [reflexivity|]. intros a b [<-|[<-|[]]] [<-|[<-|[]]] H; cbn; try reflexivity; exfalso; revert H; cbv; congruence.
    + split; [now left|]. split; [now left|exact I].
Qed.

(* NOT A THEOREM in general: reordering field declarations preserves the bytes (wire level:
   C12_reorder_fields) but not always ACCEPTANCE — a field named like a type of an enclosing scope
   hides that type for the fields declared after it (replayed on the real parser) *)
Example C12_reorder_fields_acceptance_caveat :
  (exists e, check [("r"%string, [IProto 1 "r"; IEnum 2 "Color" (SUint 3) [IEnumField 2 "R" 0];
      IMsg 3 "M" false [IField 4 (XSingle (SRef ["Color"])) "c" 2; IField 5 (XSingle (SUint 3)) "Color" 1]]%string)] "r" false = Ok e) /\
  check [("r"%string, [IProto 1 "r"; IEnum 2 "Color" (SUint 3) [IEnumField 2 "R" 0];
      IMsg 3 "M" false [IField 4 (XSingle (SUint 3)) "Color" 1; IField 5 (XSingle (SRef ["Color"])) "c" 2]]%string)] "r" false
  = Err KRefNotType "r" 5.
Proof. split; [eexists|]; vm_compute; reflexivity. Qed.

(* PARTIAL (front-end side): for reorder_fields (see the caveat above), reorder_defs, alias
   intro/inline, nest/un-nest and move to import the statement
   "check fs = Ok e -> check (rw fs) = Ok e' /\ the elaborated types are related by rw_star"
   is NOT proved; the wire-level half above holds for them (any such relation between the
   elaborated types preserves the bytes), and the front-end half is evaluated per generated pair
   by T2 (tools/props/c12.py).  Missing for them: a member-ORDER-insensitive version of
   FrontRewrite.mrel (reorder_fields, reorder_defs), and a link between an alias statement and its uses / a moved
   definition and its new path (alias, nest, import). *)
