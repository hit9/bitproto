(* C09 at the SYNTAX level: ply's LR driver on the tables built from /repo's grammar never raises
   IndexError / KeyError (only bitproto's GrammarError via p_error) and never hangs: on every
   token sequence it stops within an explicit number of iterations. *)
From Coq Require Import List.
From BP Require Import LR LRProofs LRConcrete.
From BPGen Require Import GenLR.
Import ListNotations.

(* for any validated tables; W (weight of a stack entry) and R (bound of the ranks): LRProofs, at Section Ranked *)
Theorem C09_lr_safe : forall G TB H, validate G TB H = true ->
  forall fuel ts e rs, lr_run TB fuel ts <> Crash e rs.
Proof. exact lr_safe. Qed.
Print Assumptions C09_lr_safe.

Theorem C09_lr_terminates : forall G TB H, validate G TB H = true ->
  forall RT nterm W R, validate_rank TB H RT nterm W R = true ->
  forall ts, lr_run TB (lr_bound W R (length ts)) ts <> OutOfFuel.
Proof. exact lr_terminates. Qed.
Print Assumptions C09_lr_terminates.

Theorem C09_lr_tables_valid : validate grammar tables hints = true.
Proof. exact tables_valid. Qed.
Print Assumptions C09_lr_tables_valid.

Theorem C09_lr_ranking_valid : validate_rank tables hints rank_tab n_terms rank_weight rank_bound = true.
Proof. exact ranking_valid. Qed.
Print Assumptions C09_lr_ranking_valid.

Theorem C09_lr_no_crash : forall fuel ts e rs, lr_run tables fuel ts <> Crash e rs.
Proof. exact no_crash. Qed.
Print Assumptions C09_lr_no_crash.

Theorem C09_lr_never_hangs : forall ts, lr_run tables (fuel_for (length ts)) ts <> OutOfFuel.
Proof. exact terminates. Qed.
Print Assumptions C09_lr_never_hangs.

Theorem C09_lr_total : forall ts,
  (exists rs, parse ts = Accept rs) \/ (exists idx tok rs, parse ts = SyntaxError idx tok rs).
Proof. exact total. Qed.
Print Assumptions C09_lr_total.

Example C09_lr_bound_is_linear : fuel_for 100 = (rank_bound + rank_weight) * 101 + 1.
Proof. reflexivity. Qed.

Example C09_lr_example : exists idx tok rs, parse [3; 3; 3] = SyntaxError idx tok rs.
Proof. do 3 eexists. vm_compute. reflexivity. Qed.
