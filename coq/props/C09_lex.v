(* C09_lex.v — C09 (compilation is total), TEXT LEVEL: the tokenizer (bitproto.lexer.Lexer driven by
   ply.lex.Lexer.token, modelled in coq/theories/Lex.v from the generated coq/gen/GenLexer.v)
   terminates on EVERY input string — any sequence of code points, for every word-character
   table uw — with a complete token list or exactly one exception. *)
From Coq Require Import String ZArith List Bool.
From BP Require Import Re TotalBase LexBase Lex LexSpec LexProofs LexActions LexRe.
From BPGen Require Import GenLexer.
Import ListNotations.

(* every rule of the master regex consumes: no rule can match the empty string, and every
   repeated sub-expression consumes (so sre's empty-iteration rules never matter) *)
Theorem C09_lex_rules_consume :
  forallb (fun r => consumes (r_rx r) && rx_wf (r_rx r)) lex_rules = true.
Proof.
  apply forallb_forall. intros r Hr.
  rewrite (proj1 (forallb_forall _ _) rules_consume r Hr), (proj1 (forallb_forall _ _) rules_wf r Hr). reflexivity.
Qed.
Print Assumptions C09_lex_rules_consume.

Theorem C09_lex_rule_progress : forall uw fuel r s s',
  In r lex_rules -> In s' (mres uw fuel (r_rx r) s) -> (length (snd s') < length (snd s))%nat.
Proof. exact rule_progress. Qed.
Print Assumptions C09_lex_rule_progress.

(* the token loop never runs out of fuel |s| + 1: it ends with None (LDone), the LexerError of
   t_error, a ParserError raised by a rule body, or an exception of a rule body *)
Theorem C09_lex_terminates : forall uw s, snd (fst (lex_run uw s)) <> LFuel.
Proof. exact lex_terminates. Qed.
Print Assumptions C09_lex_terminates.

(* the lexeme handed to a rule body is in the language of the rule's regex *)
Theorem C09_lex_lexeme_in_language : forall uw fuel s r s',
  first_rule uw fuel lex_rules s = Some (r, s') ->
  In r lex_rules /\ exists w, snd s = w ++ snd s' /\ fst s' = lastc (fst s) w /\ dm uw (r_rx r) (fst s) w (snd s').
Proof. intros uw fuel s r s'. exact (first_rule_sound uw fuel lex_rules s r s'). Qed.
Print Assumptions C09_lex_lexeme_in_language.

(* how a run can end, for EVERY input: token() returns None (LDone); t_error raises its LexerError; a
   rule body raises one of three ParserErrors (width outside 1..64, unknown escape); or — the exact
   guard, known finding huge-literal — int() raises ValueError at a run of more than 4300 DECIMAL
   digits (a literal, or the width after uint / int).  Nothing else: no IndexError / KeyError in the
   escape loop, no ValueError from int() on a hex literal, never out of fuel. *)
Theorem C09_lex_end_good : forall uw s its e rem,
  lex_run uw s = (its, e, rem) ->
  match e with
  | LDone | LError _ _ _ => True
  | LActErr k _ => In k ["InvalidUintCap"; "InvalidIntCap"; "InvalidEscapingChar"]%string
  | LCrash ex => ex = ValueError /\
      exists pre ds post, rem = pre ++ ds ++ post /\ (pre = [] \/ pre = W_uint \/ pre = W_int)
                          /\ forallb dig10 ds = true /\ (py_int_max_str_digits < zlen ds)%Z
  | LFuel => False
  end.
Proof. exact lex_end_good. Qed.
Print Assumptions C09_lex_end_good.

(* every rule body is total on every lexeme its regex admits (same guard) *)
Theorem C09_lex_action_total : forall uw r p w post line,
  In r lex_rules -> dm uw (r_rx r) p w post ->
  act_good (run_action (r_name r) (r_act r) w line) w post.
Proof. exact action_good. Qed.
Print Assumptions C09_lex_action_total.

(* the escape loop on a STRING_LITERAL lexeme: a value or InvalidEscapingChar, never an exception *)
Theorem C09_lex_unescape_total : forall uw p w post,
  dm uw rx_t_STRING_LITERAL p w post ->
  (exists v, unescape_token w = Ok v) \/ unescape_token w = ParserError "InvalidEscapingChar"%string.
Proof. exact lexeme_unescape_total. Qed.
Print Assumptions C09_lex_unescape_total.

(* the guard is needed: 4301 digits crash, 4300 do not (known finding huge-literal) *)
Theorem C09_lex_huge_literal_refuted : forall uw,
  snd (lex uw (repeat 49%N 4301)) = LCrash ValueError /\ snd (lex uw (repeat 49%N 4300)) = LDone.
Proof. exact huge_literal_witness. Qed.
Print Assumptions C09_lex_huge_literal_refuted.

(* bridge to the declarative semantics of Re.v: every Latin-1 lexeme the backtracking matcher can choose for a
   rule is in the language (Re.matches) of the rule's regex with \b and laziness erased; for the rules the C09
   module translates, the erased regex is syntactically the term of coq/gen/GenC09.v *)
Theorem C09_lex_lexeme_matches : forall uw r p w post,
  dm uw r p w post -> Forall (fun c => (c < 256)%N) w -> matches (erase r) (map Ascii.ascii_of_N w).
Proof. exact dm_matches. Qed.
Print Assumptions C09_lex_lexeme_matches.

Theorem C09_lex_same_regexes_as_GenC09 :
  erase rx_t_STRING_LITERAL = BPGen.GenC09.string_literal_re
  /\ erase rx_t_INT_LITERAL = BPGen.GenC09.int_literal_re
  /\ erase rx_t_HEX_LITERAL = BPGen.GenC09.hex_literal_re.
Proof. repeat split. Qed.
Print Assumptions C09_lex_same_regexes_as_GenC09.

(* non-vacuity: a text with every kind of token; an unterminated string; a bad width *)
Example C09_lex_nonvacuous :
  snd (lex uni_word [117;105;110;116;56;32;120;61;34;97;92;34;98;34;47;47;99;10;48;120;49;70]%N) = LDone
  /\ length (fst (lex uni_word [117;105;110;116;56;32;120;61;34;97;92;34;98;34;47;47;99;10;48;120;49;70]%N)) = 7%nat
  /\ lex uni_word [34;97;98;99]%N = ([], LError "LexerError" 34%N 1%Z)
  /\ snd (lex uni_word [105;110;116;48]%N) = LActErr "InvalidIntCap" 1%Z.
Proof. vm_compute. repeat split. Qed.
