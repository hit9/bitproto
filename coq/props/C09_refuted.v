(* C09 — witnesses of the known findings: on the CURRENT tree each of these operations crashes
   (a Python traceback instead of a diagnostic).  They make the guards of props/C09.v exact.
   When a defect is fixed its witness stops compiling: delete it and flip the entry of
   known_findings.jsonl to "fixed". *)
From Coq Require Import Ascii ZArith List.
From BP Require Import Re TotalBase Schema Total TotalRefuted.
From BPGen Require Import GenC09.
Import ListNotations.
Open Scope Z_scope.

(* beyond the limit every literal of the token language crashes, not just the witness *)
Theorem C09_int_literal_crashes_beyond_limit :
  forall tv, matches int_literal_re tv -> py_int_max_str_digits < zlen tv ->
             lex_int_literal tv = Crash ValueError.
Proof. exact int_literal_crashes_beyond_limit. Qed.
Print Assumptions C09_int_literal_crashes_beyond_limit.

(* huge-literal: const A = 111…1 (4301 digits) *)
Theorem C09_int_literal_refuted :
  exists tv, matches int_literal_re tv /\ lex_int_literal tv = Crash ValueError.
Proof.
  exists (repeat "1"%char 4301). split; [exact (ones_match 4300)|].
  apply int_literal_crashes_beyond_limit; [exact (ones_match 4300)|reflexivity].
Qed.
Print Assumptions C09_int_literal_refuted.

(* huge-literal: uint111…1 (4301 digits) *)
Theorem C09_uint_width_refuted :
  exists tv, matches uint_type_re tv /\ lex_uint_cap tv = Crash ValueError.
Proof.
  assert (H : matches uint_type_re (asc [117; 105; 110; 116]%nat ++ repeat "1"%char 4301)).
  { do 4 (apply (MSeq _ _ [_] _); [apply MAtom; reflexivity|]). exact (ones_match 4300). }
  eexists. split; [exact H|]. apply uint_width_crashes_beyond_limit; [exact H|reflexivity].
Qed.
Print Assumptions C09_uint_width_refuted.

(* huge-literal: int111…1 (4301 digits) *)
Theorem C09_int_width_refuted :
  exists tv, matches int_type_re tv /\ lex_int_cap tv = Crash ValueError.
Proof.
  assert (H : matches int_type_re (asc [105; 110; 116]%nat ++ repeat "1"%char 4301)).
  { do 3 (apply (MSeq _ _ [_] _); [apply MAtom; reflexivity|]). exact (ones_match 4300). }
  eexists. split; [exact H|]. apply int_width_crashes_beyond_limit; [exact H|reflexivity].
Qed.
Print Assumptions C09_int_width_refuted.

(* huge-int-str: p_error *)
Theorem C09_p_error_refuted :            (* uint8[0xFFF…F] : str(p.value) in p_error *)
  exists path z, In path p_error_paths /\ p_error_path_outcome path (TInt z) = Crash ValueError.
Proof. exact p_error_huge. Qed.
Print Assumptions C09_p_error_refuted.

(* huge-int-str: p_array_type *)
Theorem C09_array_token_refuted :        (* uint8[A] with a constant A >= 10^4300 *)
  exists cap, array_type_token cap = Crash ValueError.
Proof. exact array_token_huge. Qed.
Print Assumptions C09_array_token_refuted.

(* huge-int-str: format_int_value *)
Theorem C09_render_huge_int_refuted :     (* const A = 0xFFF…F (>= 10^4300): all three languages *)
  exists c, forall l, render l (TMsg false []) [c] = Crash ValueError.
Proof. exact render_huge. Qed.
Print Assumptions C09_render_huge_int_refuted.

(* non-utf8-source *)
Theorem C09_read_source_refuted : exists bytes, read_source bytes = Crash UnicodeDecodeError.
Proof. exists [255]. vm_compute. reflexivity. Qed.
Print Assumptions C09_read_source_refuted.

(* nul-in-path *)
Theorem C09_import_path_refuted : exists p, import_path p = Crash ValueError.
Proof. exists (asc [97; 0; 98]%nat). vm_compute. reflexivity. Qed.
Print Assumptions C09_import_path_refuted.
