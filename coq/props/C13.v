(* C13 — Constants evaluate arithmetically and reach every target language intact.
   Only statements, each closed by [exact] of a lemma proved in theories/Const*Proofs.v, followed
   by Print Assumptions; plus Examples showing the hypotheses are satisfiable.

   eval_tokens / run_stmt are the MODEL of the parser (driven by Parser.precedence, the semantic
   actions, the literal bases and escaping_chars translated from the source on every run);
   denote / pretty / the per-language readers are the SPECIFICATION side. *)
From Coq Require Import ZArith List String Lia.
From BPGen Require Import GenC13.
From BP Require Import ConstLit ConstLitProofs ConstExpr ConstExprProofs.
Import ListNotations.
Open Scope list_scope.
Open Scope Z_scope.

(* For every expression tree and environment: evaluating the tokens [pretty] prints (only the
   parentheses that standard precedence and left associativity need) gives ordinary arithmetic —
   * and / bind tighter than + and -, left associativity, parentheses group, / is floor division,
   decimal and hexadecimal literals denote their values, a reference denotes the earlier constant.
   Every error outcome agrees as well: undefined / non-integer reference, and a zero divisor is
   the diagnosed error EDivisionByZero (the DIVIDE action raises CalculationExpressionError:
   divide_guard, translated from the source, is true). *)
Theorem C13_parse_eval : forall E e, eval_tokens E (pretty e) = denote e E.
Proof. exact parse_eval_all. Qed.
Print Assumptions C13_parse_eval.

(* the same statement whatever the DIVIDE action does on a zero divisor (crashify is the
   identity when divide_guard = true); it is the form the proof goes through *)
Theorem C13_parse_eval_exact : forall E e, eval_tokens E (pretty e) = crashify (denote e E).
Proof. exact eval_pretty. Qed.
Print Assumptions C13_parse_eval_exact.

(* 1 / 0 is a diagnosed error, in the specification and in the model of the parser *)
Theorem C13_div_zero_diagnosed :
  denote (EBin ODivide (EDec 1) (EDec 0)) [] = Err EDivisionByZero /\
  eval_tokens [] (pretty (EBin ODivide (EDec 1) (EDec 0))) = Err EDivisionByZero.
Proof. exact div_zero_diagnosed. Qed.
Print Assumptions C13_div_zero_diagnosed.

(* the evaluated value is the one used for array capacities and option values, also after any
   number of further declarations *)
Theorem C13_used_for_caps_and_options : forall done st x e v ss st'',
  lookup x (own st) = None -> denote e (visible st) = Ok v ->
  exists st', run_stmt done st (SConst x (RCalc (pretty e))) = Ok st' /\
    (run_stmts done st' ss = Ok st'' ->
       cap_value (visible st'') (URef x) = Ok (VInt v) /\
       opt_value (visible st'') (URef x) = Ok (VInt v)).
Proof. exact used_for_caps_and_options. Qed.
Print Assumptions C13_used_for_caps_and_options.

(* the grammar rules and pass-through actions the evaluator stands for are the ones in
   grammars.py / parser.py *)
Theorem C13_grammar_as_modelled :
  grammar_eqb grammar expected_grammar = true /\ passthrough_eqb passthrough expected_passthrough = true.
Proof. exact grammar_as_modelled. Qed.
Print Assumptions C13_grammar_as_modelled.

Theorem C13_int_literal_c : forall z, in_range_c z -> read_int LC (format_int LC z) = Some z.
Proof. exact int_literal_c. Qed.
Print Assumptions C13_int_literal_c.

Theorem C13_int_literal_go : forall bits z, in_range_go bits z ->
  go_read_int bits (format_int LGo z) = Some z.
Proof. exact int_literal_go. Qed.
Print Assumptions C13_int_literal_go.

Theorem C13_int_literal_py : forall z, in_range_py z -> read_int LPy (format_int LPy z) = Some z.
Proof. exact int_literal_py. Qed.
Print Assumptions C13_int_literal_py.

(* outside the ranges the statement is false: 2^63 written as a decimal literal has no exact
   meaning as a C constant (gcc: "so large that it is unsigned") and overflows Go's int *)
Theorem C13_int_literal_out_of_range_refuted :
  read_int LC (format_int LC (2 ^ 63)) = None /\ read_int LGo (format_int LGo (2 ^ 63)) = None.
Proof. exact (conj int_literal_c_out_of_range int_literal_go_out_of_range). Qed.
Print Assumptions C13_int_literal_out_of_range_refuted.

Theorem C13_bool_literal : forall l b, read_bool l (format_bool l b) = Some b.
Proof. exact bool_literal. Qed.
Print Assumptions C13_bool_literal.

(* every string is declarable: the lexer's escape loop returns v on the canonical spelling of v,
   which lies in the token's regular language *)
Theorem C13_string_declarable : forall v,
  unescape (src_escape v) [] = LexOk v /\ lexable (src_escape v) = true.
Proof. exact (fun v => conj (string_declarable v) (src_escape_lexable v)). Qed.
Print Assumptions C13_string_declarable.

(* the supported escapes and the boolean spellings mean what they conventionally mean: the lexer's
   escape loop (with the translated Lexer.escaping_chars) is the loop over the standard table
   (t TAB, r CR, n LF; backslash, single and double quote stand for themselves); true / yes are true,
   false / no are false *)
Theorem C13_escapes_standard : forall raw,
  lex_string raw = match spec_unescape raw [] with
                   | LexOk v => Ok (VStr v)
                   | LexInvalidEscape => Err EInvalidEscape
                   | LexIndexError => Err ECrashIndex
                   end.
Proof. exact lex_string_standard. Qed.
Print Assumptions C13_escapes_standard.

Theorem C13_bool_spellings : forall sp,
  lex_bool sp = match spec_bool sp with Some b => Ok (VBool b) | None => Err EGrammar end.
Proof. exact bool_spellings_standard. Qed.
Print Assumptions C13_bool_spellings.

(* the escaping helper of the formatters (table, control-character rule and prefix translated from
   Formatter.escape_str_value; the three format_str_value call it) is the standard escaping *)
Theorem C13_escaping_standard : forall l s, format_str l s = format_str_fixed s.
Proof. exact format_str_is_fixed. Qed.
Print Assumptions C13_escaping_standard.

(* every string constant is emitted into C, Go and Python as a literal that the language reads
   back as exactly the declared value — for ALL strings (codes >= 0; bytes >= 128 pass through) *)
Theorem C13_string_literal : forall l s, Forall (fun c => 0 <= c) s ->
  read_string l (format_str l s) = RdOk s.
Proof. exact string_literal. Qed.
Print Assumptions C13_string_literal.

Definition ex_env : env := [("lib.LA"%string, VInt 7); ("A"%string, VInt 38)].
Definition ex_e : expr :=
  EBin OTimes (EBin OPlus (EDec 1) (EHex 31))
              (EBin ODivide (EBin OMinus (ERef "A") (EBin OMinus (EDec 100) (EDec 2)))
                            (EBin OMinus (EDec 1) (ERef "lib.LA"))).
Example C13_parse_eval_nonvacuous :
  denote ex_e ex_env = Ok 320 /\ eval_tokens ex_env (pretty ex_e) = Ok 320 /\
  List.length (pretty ex_e) = 23%nat.
Proof. vm_compute. repeat split; reflexivity. Qed.

Example C13_used_nonvacuous :
  run_files [] [[SConst "LA" (RCalc [TInt [55]])];
                [SImport "lib" 0; SConst "A" (RCalc (pretty (EBin OTimes (ERef "lib.LA") (EDec 2))));
                 SConst "S" (RStr [104; 92; 110]); SCap (URef "A"); SOpt (URef "lib.LA")]]
  = [Ok ([("LA"%string, VInt 7)], []);
     Ok ([("A"%string, VInt 14); ("S"%string, VStr [104; 10])], [VInt 14; VInt 7])].
Proof. vm_compute. reflexivity. Qed.

Example C13_int_ranges_nonvacuous :
  in_range_c (- (2 ^ 63 - 1)) /\ in_range_go 64 (- 2 ^ 63) /\ in_range_py (10 ^ 4300 - 1).
Proof.
  unfold in_range_c, in_range_go, in_range_py, c_llong_max, py_max_str_digits.
  change (64 - 1) with 63.
  pose proof (Z.pow_pos_nonneg 10 4300 eq_refl ltac:(discriminate)).
  pose proof (Z.pow_pos_nonneg 2 63 eq_refl ltac:(discriminate)).
  (* the powers must be opaque to lia: it evaluates a closed 10 ^ 4300 it can see *)
  set (P := 10 ^ 4300) in *. set (Q := 2 ^ 63) in *. clearbody P Q. lia.
Qed.

Example C13_literals_nonvacuous :
  read_int LC (format_int LC (- (2 ^ 63 - 1))) = Some (- (2 ^ 63 - 1)) /\
  read_int LC (format_int LC (2 ^ 63)) = None /\
  read_int LPy (format_int LPy (- 10 ^ 50)) = Some (- 10 ^ 50) /\
  read_string LPy (format_str LPy [104; 105; 9; 39; 195; 169]) = RdOk [104; 105; 9; 39; 195; 169].
Proof. vm_compute. repeat split; reflexivity. Qed.

Example C13_string_examples :
  let v := [97; 34; 98; 92; 99; 10; 13; 9; 0; 127; 195; 169] in
  format_str LC v = [34; 97; 92; 34; 98; 92; 92; 99; 92; 110; 92; 114; 92; 116; 92; 48; 48; 48;
                     92; 49; 55; 55; 195; 169; 34] /\
  read_string LC (format_str LC v) = RdOk v /\ read_string LGo (format_str LGo v) = RdOk v /\
  read_string LPy (format_str LPy v) = RdOk v.
Proof. vm_compute. repeat split; reflexivity. Qed.

(* why the escaping is needed (/repo commit 2f32229 introduced it): the same values written
   verbatim between quotes are rejected or read as other strings *)
Example C13_verbatim_would_fail :
  read_string LPy (34 :: [97; 92; 98] ++ [34]) = RdOk [97; 8] /\
  read_string LC (34 :: [97; 92; 10; 98] ++ [34]) = RdOk [97; 98] /\
  read_string LC (34 :: [34; 34] ++ [34]) = RdOk [] /\
  read_string LGo (34 :: [97; 10; 98] ++ [34]) = RdErr /\
  read_string LPy (34 :: [97; 13; 98] ++ [34]) = RdErr.
Proof. vm_compute. repeat split; reflexivity. Qed.
