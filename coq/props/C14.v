(* C14 — every width x bit-offset x signedness combination is bit-exact: Python runtime, C
   runtime (both builds) and optimization mode.  Corollaries of C01/C02, C03/C06 and C04, stated
   for ALL values of the leaf, not only the basis values; the proofs here only put together
   lemmas proved in theories/. *)
From Coq Require Import ZArith List Bool.
From BP Require Import Bits Schema Spec PyRt Eqb PyEncTop PyDecProofs PyDecTop.
From BP Require CMem CRt CTop OpMode OpModeProofs OpModeLeaf OpModeLeafDec.
Import ListNotations.
Open Scope Z_scope.

Definition is_leaf_ty (t : ty) : bool :=
  match t with TBool | TByte | TUint _ | TInt _ => true | _ => false end.

(* position of the leaf: scalar, element of an array of [cap], or behind an alias *)
Inductive pos := PScalar | PArray (cap : nat) | PAlias.
Definition place (p : pos) (t : ty) : ty :=
  match p with PScalar => t | PArray c => TArr false c t | PAlias => TAlias t end.

(* [uintK pad = 1; T x = 2] (no pad field when K = 0) *)
Definition c14_schema (k : Z) (p : pos) (t : ty) : ty :=
  TMsg false ((if k =? 0 then [] else [(1, TUint k)]) ++ [(2, place p t)]).

Lemma c14_py_all k p t v :
  wf (norm (c14_schema k p t)) = true -> dec_guard (norm (c14_schema k p t)) = true ->
  has_ty (norm (c14_schema k p t)) v = true ->
  py_encode (c14_schema k p t) v = Ok (wire (c14_schema k p t) v) /\
  py_decode (c14_schema k p t) (wire (c14_schema k p t) v) = Ok (canon (norm (c14_schema k p t)) v) /\
  val_sim (norm (c14_schema k p t)) (canon (norm (c14_schema k p t)) v) v = true.
Proof.
  intros Hw Hg Ht. repeat split.
  - now apply py_encode_is_wire.
  - now apply py_decode_wire.
  - now apply val_sim_canon.
Qed.

Theorem C14_py : forall k p t v,
  wf (norm (c14_schema k p t)) = true -> dec_guard (norm (c14_schema k p t)) = true ->
  has_ty (norm (c14_schema k p t)) v = true ->
  py_encode (c14_schema k p t) v = Ok (wire (c14_schema k p t) v) /\
  py_decode (c14_schema k p t) (wire (c14_schema k p t) v) = Ok (canon (norm (c14_schema k p t)) v) /\
  val_sim (norm (c14_schema k p t)) (canon (norm (c14_schema k p t)) v) v = true.
Proof. exact c14_py_all. Qed.
Print Assumptions C14_py.

(* the hypotheses hold on the whole finite space of the property: every leaf type,
   every offset 0..7, every position (scalar, arrays of 1 and of 3 elements, alias) *)
Definition all_leaf_types : list ty :=
  [TBool; TByte] ++ map (fun n => TUint (Z.of_nat n)) (seq 1 64) ++ map (fun n => TInt (Z.of_nat n)) (seq 1 64).

Theorem C14_space_wf :
  forallb (fun t => forallb (fun k => forallb (fun p =>
     wf (norm (c14_schema k p t)) && dec_guard (norm (c14_schema k p t)))
     [PScalar; PArray 1; PArray 3; PAlias]) [0; 1; 2; 3; 4; 5; 6; 7]) all_leaf_types = true.
Proof. vm_compute. reflexivity. Qed.
Print Assumptions C14_space_wf.


(* C runtime, little-endian build/host and big-endian build/host *)

Theorem C14_c_le : forall k p t v,
  CTop.c_schema (c14_schema k p t) -> has_ty (norm (c14_schema k p t)) v = true ->
  CRt.c_encode_ty CMem.LE CMem.LE (c14_schema k p t) (CRt.store CMem.LE (norm (c14_schema k p t)) v)
    = CMem.COk (wire (c14_schema k p t) v) /\
  CRt.c_decode_ty CMem.LE CMem.LE (c14_schema k p t) (wire (c14_schema k p t) v)
    = CMem.COk (CRt.store CMem.LE (norm (c14_schema k p t)) v).
Proof. intros k p t v Hs Ht. split; [now apply CTop.c_encode_le|now apply CTop.c_decode_le]. Qed.
Print Assumptions C14_c_le.

Theorem C14_c_be : forall k p t v,
  CTop.c_schema (c14_schema k p t) -> has_ty (norm (c14_schema k p t)) v = true ->
  CRt.c_encode_ty CMem.BE CMem.BE (c14_schema k p t) (CRt.store CMem.BE (norm (c14_schema k p t)) v)
    = CMem.COk (wire (c14_schema k p t) v) /\
  CRt.c_decode_ty CMem.BE CMem.BE (c14_schema k p t) (wire (c14_schema k p t) v)
    = CMem.COk (CRt.store CMem.BE (norm (c14_schema k p t)) v).
Proof. intros k p t v Hs Ht. split; [now apply CTop.c_encode_be|now apply CTop.c_decode_be]. Qed.
Print Assumptions C14_c_be.

(* optimization-mode statement generator: one scalar at an arbitrary offset,
   all widths, storage sizes, kinds, object contents, C-LE / C-BE / Go (C04's single-field
   theorems are exactly the C14 statement) *)

Theorem C14_opmode_enc : forall L lf ch M u i0 s,
  OpModeLeaf.leaf_ok lf -> OpModeLeaf.pat_ok lf u ->
  OpMode.mem_get M ch = Some (OpMode.mkcell (OpMode.leaf_cty lf) u) ->
  0 <= i0 -> bytes_ok s -> 0 <= bufZ s < 2 ^ i0 ->
  i0 + OpMode.leaf_bits lf <= 8 * Z.of_nat (length s) ->
  exists s',
    OpMode.run (OpMode.leaf_stmts L true (ch, lf) i0) (OpMode.mkst s M) = Some (OpMode.mkst s' M) /\
    bytes_ok s' /\ length s' = length s /\
    bufZ s' = bufZ s + 2 ^ i0 * (u mod 2 ^ OpMode.leaf_bits lf).
Proof. exact OpModeLeaf.leaf_encode. Qed.
Print Assumptions C14_opmode_enc.

Theorem C14_opmode_dec : forall L lf ch M0 S i0,
  OpModeLeaf.leaf_ok lf -> OpMode.mem_get M0 ch = Some (OpMode.mkcell (OpMode.leaf_cty lf) 0) ->
  0 <= i0 -> bytes_ok S -> i0 + OpMode.leaf_bits lf <= 8 * Z.of_nat (length S) ->
  OpMode.run (OpMode.leaf_stmts L false (ch, lf) i0) (OpMode.mkst S M0) =
  Some (OpMode.mkst S (OpMode.mem_set M0 ch (OpModeLeafDec.dec_pat lf (bufZ S / 2 ^ i0)))).
Proof. exact OpModeLeafDec.leaf_decode. Qed.
Print Assumptions C14_opmode_dec.

Example C14_nonvacuous :
  let s := c14_schema 5 (PArray 3) (TInt 13) in
  let v := VM [(1, VZ 31); (2, VL [VZ (-4096); VZ 4095; VZ (-1)])] in
  has_ty (norm s) v = true /\ res_val_sim (norm s) (py_decode s (wire s v)) (Ok v) = true /\
  wire s v = [31; 0; 254; 191; 255; 15].
Proof. vm_compute. repeat split; reflexivity. Qed.
