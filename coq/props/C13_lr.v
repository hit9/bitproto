(* C13 <-> the real LALR tables (PARTIAL, bounded): what ConstExpr.pretty prints for an expression
   tree is parsed by the tables ply builds from /repo's grammar and precedence declarations back
   to THAT tree (the reductions are its post-order), for every tree of LRFacts.expr_domain
   (4141 trees of depth <= 3 over + - * /).  C13_parse_eval proves that the precedence-climbing
   model evaluates `pretty e` to `denote e`; this closes, on the bounded domain, the gap between
   that model and the tables the compiler really uses.  (For every tree over the four operators with
   integer leaves: LRExprC13.c13_expr_all.) *)
From Coq Require Import List.
From BP Require Import LR LRConcrete LRFacts LRExprC13.
Import ListNotations.

Theorem C13_lr_pretty_parsed_partial : forall e, In e expr_domain ->
  exists rs, parse (ctx_pre_t ++ map tok_id (ConstExpr.pretty (embed e)) ++ ctx_post_t) = Accept rs /\
             rs = (fst ctx_reds ++ snd (lr_tr e) ++ snd ctx_reds)%list.
Proof. exact c13_expr_pointwise. Qed.
Print Assumptions C13_lr_pretty_parsed_partial.

Example C13_lr_domain_size : List.length expr_domain = 4141.
Proof. vm_compute. reflexivity. Qed.
