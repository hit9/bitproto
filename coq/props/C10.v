(* C10 — every accepted schema yields code the target toolchains accept (PARTIAL by nature:
   that gcc / g++ / CPython accept a text is the toolchains' semantics; what is proved here is
   about the ORDER and the NAMES of what the renderers emit, for every elaborated schema).

   [render_items s i t flt] is the list of include/import statements and declarations the
   renderer of target t writes for file i of schema s (Emit.v; order and name templates come
   from gen/GenC10.v, re-translated from /repo on every run).  [wf] is what the parser
   guarantees about references, [pre] the property's own precondition, the [g_*] guards are the
   complements of the regions refuted below (DESIGN §5 keys). *)
From Coq Require Import String Ascii List ZArith Bool Arith.
From BP Require Import EmitBase Emit EmitSpec EmitCheck EmitProofs EmitDbu EmitDbuMain EmitDbuPy EmitUnique EmitUnique2 EmitWitness.
From BPGen Require Import GenC10.
Import ListNotations.
Open Scope string_scope.
Open Scope list_scope.
Open Scope nat_scope.

(* declared before use: every generated name a declaration mentions is declared earlier in
   the same output, or comes from an earlier #include / import (Python: module-level and
   class-level code is "eager", method bodies may refer to any name of the module; Go: package
   level names are visible in the whole file) *)
Theorem C10_declared_before_use :
  forall (s : schema) (i : nat) (t : target) (flt : list string),
    wf s = true -> i < length s -> g_qualify (lang_of t) s i = true ->
    dbu_b s t flt (render_items s i t flt) = true.
Proof.
  intros s i t flt Hwf Hi Hq. destruct t; cbn [lang_of] in Hq.
  - apply dbu_TgH; assumption.
  - apply dbu_TgC; assumption.
  - apply dbu_TgHO; assumption.
  - apply dbu_TgCO; assumption.
  - apply dbu_TgPy; assumption.
  - apply dbu_TgGo; assumption.
Qed.
Print Assumptions C10_declared_before_use.

(* outside the guard: a type nested in a message of an imported file (lib.Outer.Inner), or
   reached through two imports (lib.base.Id), is emitted unqualified / with the wrong
   qualifier in Python and Go; C, which flattens all names, is not affected  [py-nested-import] *)
Theorem C10_declared_before_use_refuted :
  inside_pre w_nested = true /\ inside_pre w_twohop = true /\
  dbu w_nested 0 TgPy = false /\ dbu w_nested 0 TgGo = false /\ dbu w_twohop 0 TgPy = false /\
  dbu w_nested 0 TgH = true /\ dbu w_nested 0 TgC = true /\ dbu w_twohop 0 TgH = true.
Proof.
  exact (conj (inside_pre_witness w_nested ltac:(cbv [witnesses In]; auto 20)) (conj (inside_pre_witness w_twohop ltac:(cbv [witnesses In]; auto 20)) nested_import_refuted)).
Qed.
Print Assumptions C10_declared_before_use_refuted.

(* an include / import statement names the file the compiler generates for that schema *)
Theorem C10_import_refers_to_generated_file :
  forall (s : schema) (i : nat) (t : target) (flt : list string),
    g_import (lang_of t) s i = true -> imports_ok_b s t (render_items s i t flt) = true.
Proof. exact import_refers_to_generated_file. Qed.
Print Assumptions C10_import_refers_to_generated_file.

(* `proto lib` in shared.bitproto: included as lib_bp.h / imported as lib_bp, generated as
   shared_bp.h / shared_bp.py  [import-filename] *)
Theorem C10_import_refers_to_generated_file_refuted :
  inside_pre w_import = true /\
  imports_ok_b w_import TgH (render_items w_import 0 TgH []) = false /\
  imports_ok_b w_import TgPy (render_items w_import 0 TgPy []) = false.
Proof. exact (conj (inside_pre_witness w_import ltac:(cbv [witnesses In]; auto 20)) import_filename_refuted). Qed.
Print Assumptions C10_import_refers_to_generated_file_refuted.

(* Python default-value expressions exist, for EVERY schema (no guard: fix of [empty-enum]):
   the renderer does not raise, every field has
   a default, and the default of an enum-typed field is <Enum>.<first member> or the literal 0 *)
Theorem C10_py_defaults_exist :
  forall (s : schema) (i : nat) (flt : list string),
    (exists its, render s i TgPy flt = Some its) /\
    (forall fl, exists us, py_field_default s (fl_ty fl) = Some us) /\
    (forall r eager, r_k r = RkEnum ->
       match enum_members s r with
       | Some (_ :: _) => py_defval s eager (TRef r) = Some [mkUse NsMod (ref_qual LPy r) (ref_name s LPy r) eager]
       | _ => py_defval s eager (TRef r) = Some []
       end).
Proof. exact py_defaults_exist. Qed.
Print Assumptions C10_py_defaults_exist.

(* string constants: the characters that end or corrupt a double-quoted literal (quote,
   backslash, LF, CR) are all in the escape table translated from Formatter.escape_str_value,
   which the three format_str_value apply (checked by the translator); no guard: fix of
   [str-escape] *)
Theorem C10_string_constants_escaped : forall (s : schema) (i : nat), str_consts_ok s i = true.
Proof. exact string_constants_escaped. Qed.
Print Assumptions C10_string_constants_escaped.

(* regression: the witnesses of the two fixed findings pass every check of the model *)
Theorem C10_fixed_findings_regression :
  inside_pre w_empty_enum = true /\ inside_pre w_empty_enum_unused = true /\ inside_pre w_str = true /\
  render w_empty_enum 0 TgPy [] <> None /\
  forallb (fun t => Z.eqb (verdict w_empty_enum 0 t []) 0) [TgH; TgC; TgPy; TgGo] = true /\
  forallb (fun t => Z.eqb (verdict w_empty_enum_unused 0 t []) 0) [TgH; TgC; TgPy; TgGo] = true /\
  forallb (fun t => Z.eqb (verdict w_str 0 t []) 0) [TgH; TgC; TgPy; TgGo] = true.
Proof.
  destruct empty_enum_fixed as [Hr [He Hu]].
  exact (conj (inside_pre_witness w_empty_enum ltac:(cbv [witnesses In]; auto 20)) (conj (inside_pre_witness w_empty_enum_unused ltac:(cbv [witnesses In]; auto 20))
         (conj (inside_pre_witness w_str ltac:(cbv [witnesses In]; auto 20)) (conj Hr (conj He (conj Hu str_escape_fixed)))))).
Qed.
Print Assumptions C10_fixed_findings_regression.

(* no two generated declarations share a name, for EVERY target.  For C the translation
   unit (header ++ source) is taken, in standard mode and in -O mode with any -F list: defining
   declarations (macros, struct tags, typedefs, function definitions - internal helpers included)
   are pairwise distinct per C name space, and so are the prototypes.  For Python the module-level
   names (classes, bp_processor_* / bp_default_factory_* functions, constants, enum member aliases,
   value-to-name maps); for Go the package-level names (types, consts, size consts, the two vars)
   and the methods per receiver type (name space NsMember T).  Guards: [g_helper] and [g_derived]
   for C, [g_derived] for Python and Go - the complements of the refuted regions below. *)
Theorem C10_names_unique :
  forall (s : schema) (i : nat) (flt : list string),
    wf s = true -> i < length s ->
    (pre LC s i = true -> g_helper s i = true -> g_derived LC s i = true ->
       unique_b (decls_of (render_items s i TgH flt ++ render_items s i TgC flt)) = true /\
       unique_b (decls_of (render_items s i TgHO flt ++ render_items s i TgCO flt)) = true) /\
    (pre LPy s i = true -> g_derived LPy s i = true -> unique_b (decls_of (render_items s i TgPy flt)) = true) /\
    (pre LGo s i = true -> g_derived LGo s i = true -> unique_b (decls_of (render_items s i TgGo flt)) = true).
Proof.
  intros s i flt Hwf Hi. split; [|split].
  - intros Hp Hh Hd. split; [apply names_unique_C | apply names_unique_CO]; assumption.
  - intros Hp Hd. apply names_unique_Py; assumption.
  - intros Hp Hd. apply names_unique_Go; assumption.
Qed.
Print Assumptions C10_names_unique.

(* names inside one class / struct: the attributes of a Python dataclass (BYTES_LENGTH, the
   fields, _enum_field_proxy__<f>, __post_init__, dict_factory, _get_<f> / _set_<f>, the seven
   methods), the members of a Python IntEnum class, and the fields + methods of a Go struct are
   pairwise distinct.  Python needs the guard [g_py_attrs] (no field name starts with "_"). *)
Theorem C10_member_names_unique :
  forall (s : schema) (i : nat) (fd : fdef), In fd (flat_file (getf s i)) ->
    (pre LPy s i = true -> g_py_attrs s i = true -> NoDup (py_class_attrs fd)) /\
    (pre LGo s i = true -> NoDup (go_struct_members fd)).
Proof.
  intros s i fd Hfd. split.
  - intros Hp Hg. apply (py_attrs_unique s i Hp Hg fd Hfd).
  - intros Hp. apply (go_members_unique s i fd Hp Hfd).
Qed.
Print Assumptions C10_member_names_unique.

(* a field called _get_mode next to an enum-typed field mode: the dataclass gets two attributes
   _get_mode (confirmed on CPython: the class instantiates, its default for _get_mode is the getter
   function and encode() raises TypeError)  [py-attr-collision] *)
Theorem C10_member_names_unique_refuted :
  inside_pre w_attr = true /\ g_py_attrs w_attr 0 = false /\
  forallb (fun fd => nodup_str (py_class_attrs fd)) (flat_file (getf w_attr 0)) = false.
Proof. exact (conj (inside_pre_witness w_attr ltac:(cbv [witnesses In]; auto 20)) attr_collision_refuted). Qed.
Print Assumptions C10_member_names_unique_refuted.

(* C helper names: message name ++ field number without separator  [helper-collision];
   generated function names vs user typedef names  [derived-name-collision] *)
Theorem C10_names_unique_refuted :
  inside_pre w_helper = true /\ inside_pre w_helper_alias = true /\ inside_pre w_derived = true /\
  tu_unique w_helper 0 TgC = false /\ tu_unique w_helper_alias 0 TgC = false /\ tu_unique w_derived 0 TgC = false.
Proof.
  destruct helper_collision_refuted as [H1 H2].
  exact (conj (inside_pre_witness w_helper ltac:(cbv [witnesses In]; auto 20)) (conj (inside_pre_witness w_helper_alias ltac:(cbv [witnesses In]; auto 20))
         (conj (inside_pre_witness w_derived ltac:(cbv [witnesses In]; auto 20)) (conj H1 (conj H2 derived_collision_refuted))))).
Qed.
Print Assumptions C10_names_unique_refuted.

(* Go: an import whose only use was a constant  [go-unused-import] *)
Theorem C10_go_imports_used_refuted :
  inside_pre w_go_unused = true /\ go_imports_used_b (render_items w_go_unused 0 TgGo []) = false.
Proof. exact (conj (inside_pre_witness w_go_unused ltac:(cbv [witnesses In]; auto 20)) go_unused_import_refuted). Qed.
Print Assumptions C10_go_imports_used_refuted.

(* a message without fields: struct of size 0 in C, 1 in C++  [empty-struct] *)
Theorem C10_toolchain_regions_refuted :
  inside_pre w_empty_struct = true /\ structs_nonempty_b (render_items w_empty_struct 0 TgH []) = false.
Proof. exact (conj (inside_pre_witness w_empty_struct ltac:(cbv [witnesses In]; auto 20)) empty_struct_refuted). Qed.
Print Assumptions C10_toolchain_regions_refuted.

(* the alignment written into `__attribute__((packed, aligned(n)))` is 0 (no attribute) or a
   power of two, for EVERY accepted schema: the validator of c.struct_packing_alignment translated
   from options.py implies it for every integer (no guard: fix of [align-nonpow2]); the witness
   of that finding (alignment 3) is not well-formed *)
Theorem C10_struct_alignment_pow2 :
  (forall v : Z, align_valid v = true -> align_ok v = true) /\
  (forall (s : schema) (i : nat), wf s = true -> i < length s -> g_align s i = true) /\
  wf w_align = false.
Proof.
  split; [exact align_valid_pow2 | split; [exact align_of_wf | exact (proj1 align_rejected)]].
Qed.
Print Assumptions C10_struct_alignment_pow2.

(* non-vacuity: a schema with imports (with and without as-name), nesting, aliases, arrays,
   a name prefix and an alignment option satisfies [wf], [pre] and every guard, and every check
   of the model passes for every target *)
Example C10_hypotheses_satisfiable :
  wf ok_schema = true /\ all_guards ok_schema 0 = true /\
  forallb (fun t => Z.eqb (verdict ok_schema 0 t []) 0) all_targets = true.
Proof. exact ok_schema_ok. Qed.
