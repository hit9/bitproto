(* C17 — -O and -F restrict what is generated without altering it.
   Model: BP.Main (decide / parse traversal / emit), tied to /repo by gen/GenCli.v (T0) and
   by real CLI runs evaluated against the model (T2, tools/props/c17.py). *)
From Coq Require Import ZArith List String Bool.
From BP Require Import CliBase Main MainProofs.
From BPGen Require Import GenCli.
Import ListNotations.
Open Scope string_scope.
Open Scope Z_scope.

(* Traditional mode (-O outside -c) rejects a file set iff an extensible marker occurs in
   ANY file of it (root or imported, at any depth) - given no other error comes first -
   and non-traditional parsing never rejects because of a marker. *)
Theorem C17_traditional_rejects_any_marker : forall root,
  any_bad root = false ->
  ((exists f l, parse_files true root = Some (PEExtensible, f, l)) <-> any_marker root = true) /\
  parse_files false root = None.
Proof. exact traditional_rejects_iff. Qed.
Print Assumptions C17_traditional_rejects_any_marker.

(* ... the diagnostic cites file and line of the FIRST marker in parse order *)
Theorem C17_traditional_cites_first_marker : forall root,
  any_bad root = false -> parse_files true root = ext_err (first_marker_list 0 root).
Proof. intros root H. exact (parse_files_no_bad root true H). Qed.
Print Assumptions C17_traditional_cites_first_marker.

(* ... and with or without other errors a marker anywhere makes the -O compilation fail *)
Theorem C17_marker_never_accepted : forall root,
  any_marker root = true -> parse_files true root <> None.
Proof. exact parse_files_marker. Qed.
Print Assumptions C17_marker_never_accepted.

(* the flag handed to the parser is exactly `-O and not -c` *)
Theorem C17_traditional_flag : forall a p1 p2 lint render,
  p1 (enable_optimize a && negb (check a)) = p2 (enable_optimize a && negb (check a)) ->
  decide a p1 lint render = decide a p2 lint render.
Proof. exact decide_parse_only_flag. Qed.
Print Assumptions C17_traditional_flag.

(* languages without optimization mode are refused with the renderer's diagnostic; on the
   current tree that is exactly Python *)
Theorem C17_lang_refused : forall a parse lint io l,
  enable_optimize a = true -> check a = false -> parse true = POk ->
  lang_ a = Some l -> lang_supports_opt l = false ->
  decide a parse lint (render_model io) = AFatal MsgErrorColored 1.
Proof. exact decide_lang_refused. Qed.
Print Assumptions C17_lang_refused.

Theorem C17_lang_refused_which : forall l, lang_supports_opt l = false <-> l = LPy.
Proof. exact lang_refused_iff. Qed.
Print Assumptions C17_lang_refused_which.

Theorem C17_F_without_O_refused : forall a parse lint render,
  enable_optimize a = false -> check a = false -> truthy_list (filter_messages a) = true ->
  parse false = POk -> truthy_opt (lang_ a) = true ->
  decide a parse lint render = AFatal (MsgLit "-F not available in non-optimization mode.") 1.
Proof. exact decide_F_without_O_msg. Qed.
Print Assumptions C17_F_without_O_refused.

(* each refusal: non-zero exit status and nothing is rendered *)
Theorem C17_refusal_exit_nonzero : forall a root lint io,
  check a = false -> refusal a root ->
  exit_code (decide a (parse_of root) lint (render_model io)) <> 0 /\
  rendered_of (decide a (parse_of root) lint (render_model io)) = None.
Proof. exact refusals_nonzero. Qed.
Print Assumptions C17_refusal_exit_nonzero.

(* no refusal condition: the renderers are called with -O, -F and --endian handed over
   unchanged, and the exit status is 0 *)
Theorem C17_accepts : forall a parse lint l,
  check a = false -> parse (enable_optimize a && negb (check a)) = POk -> lang_ a = Some l ->
  (enable_optimize a = true -> lang_supports_opt l = true) ->
  (enable_optimize a = false -> truthy_list (filter_messages a) = false) ->
  decide a parse lint (render_model true) =
  AReturn (Some (mkReq (Some l) (enable_optimize a) (filter_messages a) (endian_ a))).
Proof. exact decide_accepts. Qed.
Print Assumptions C17_accepts.

(* -F names: for each output file (C source, C header, Go) the encoder/decoder function
   blocks emitted are EXACTLY those emitted without -F whose owning message is selected,
   in the same order.  An emitted item is (block class, owning definition): its text is a
   function of these and of --endian only, so "same item" = "same body" (the filter is read
   at no other place: GenCli.filter_readers, stated in C17_nonvacuous_filter below).
   NOTE: `selected` looks at d_name, the UNQUALIFIED name of the message (d.name in the
   renderers): nested messages with the same simple name are selected together. *)
Theorem C17_filter_exact : forall t f defs,
  funcs (emit t f defs) = filter (selected f) (funcs (emit t None defs)).
Proof. exact filter_exact. Qed.
Print Assumptions C17_filter_exact.

Theorem C17_filter_membership : forall t f defs e,
  In e (funcs (emit t f defs)) <-> In e (funcs (emit t None defs)) /\ selected f e = true.
Proof. exact filter_membership. Qed.
Print Assumptions C17_filter_membership.

(* all type / constant / size declarations (everything that is not an encoder/decoder
   function) are emitted unchanged *)
Theorem C17_decls_kept : forall t f defs, decls (emit t f defs) = decls (emit t None defs).
Proof. exact decls_kept. Qed.
Print Assumptions C17_decls_kept.

Theorem C17_filter_unqualified : forall f b1 b2 d1 d2,
  d_name d1 = d_name d2 -> selected f (b1, Some d1) = selected f (b2, Some d2).
Proof. exact selected_unqualified. Qed.
Print Assumptions C17_filter_unqualified.

(* only messages of the rendered proto own encoder/decoder functions *)
Theorem C17_funcs_belong_to_messages : forall t defs e,
  In e (funcs (emit t None defs)) -> exists d, snd e = Some d /\ In d defs /\ d_kind d = KMessage.
Proof. exact funcs_owner_message. Qed.
Print Assumptions C17_funcs_belong_to_messages.

(* a marker two imports deep: rejected under -O with its own file and line cited, accepted
   otherwise *)
Definition ex_root : list ftree :=
  [FFlag false 3; FImport 1 [FFlag false 2; FImport 2 [FFlag false 4; FFlag true 7]]; FFlag true 9].
Example C17_nonvacuous_traditional :
  any_bad ex_root = false /\ any_marker ex_root = true /\
  parse_files true ex_root = Some (PEExtensible, 2, 7) /\ parse_files false ex_root = None.
Proof. vm_compute. repeat split; reflexivity. Qed.

Definition ex_args (O : bool) (F : option (list string)) (l : language) : args :=
  mkArgs (Some l) false false O F EBig.
Example C17_nonvacuous_cli :
  exit_code (decide (ex_args true None LC) (parse_of ex_root) 0 (render_model true)) = 1 /\
  decide (ex_args true (Some ["A"]) LPy) (fun _ => POk) 0 (render_model true) = AFatal MsgErrorColored 1 /\
  exit_code (decide (ex_args false (Some ["A"]) LGo) (fun _ => POk) 0 (render_model true)) = 1 /\
  decide (ex_args true (Some ["A"]) LC) (fun _ => POk) 3 (render_model true)
    = AReturn (Some (mkReq (Some LC) true (Some ["A"]) EBig)).
Proof. vm_compute. repeat split; reflexivity. Qed.

(* Inner, Outer.Inner (nested, same simple name), Outer, an enum and a constant *)
Definition ex_defs : list bdef :=
  [ mkDef KConstant "N" 0; mkDef KEnum "Color" 1; mkDef KMessage "Inner" 2;
    mkDef KMessage "Inner" 3; mkDef KMessage "Outer" 4 ].
Example C17_nonvacuous_filter :
  map owner_uid (funcs (emit TCSrc (Some ["Inner"]) ex_defs)) = [2; 2; 3; 3] /\
  map owner_uid (funcs (emit TCSrc None ex_defs)) = [2; 2; 3; 3; 4; 4] /\
  map owner_uid (funcs (emit TGo (Some ["Outer"; "Nope"]) ex_defs)) = [4; 4] /\
  List.length (decls (emit TCHdr (Some ["Inner"]) ex_defs)) = 12%nat /\
  filter_readers = [ "c_hdr:BlockFunctionDeclarationsForUserListOpMode.dispatch";
                     "c_src:BlockBoundDefinitionListOpMode.dispatch";
                     "go:BlockMessageOpMode.blocks" ].
Proof. vm_compute. repeat split; reflexivity. Qed.
