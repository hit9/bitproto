(* C20 — Lint is advisory and diagnostics point at the right line.
   Models: BP.Main (decide), BP.Lint (rules, naming helpers, positions), tied to /repo by
   gen/GenCli.v (T0) and by real runs (T2, tools/props/c20.py). *)
From Coq Require Import ZArith List String Ascii Bool.
From BP Require Import CliBase Main MainProofs Lint LintSpec LintProofs.
From BPGen Require Import GenCli.
Import ListNotations.
Open Scope string_scope.
Open Scope Z_scope.

(* Outside check mode neither the number of warnings nor -q influences the action: same
   exit status, same diagnostics, same arguments handed to the renderers. *)
Theorem C20_lint_advisory : forall a b parse l1 l2 render,
  same_but_linter a b -> check a = false ->
  decide a parse l1 render = decide b parse l2 render.
Proof. exact decide_lint_advisory. Qed.
Print Assumptions C20_lint_advisory.

(* In check mode a parse error is reported as such whatever the linter would say, and
   nothing is ever rendered. *)
Theorem C20_check_error_independent_of_lint : forall a parse lint render,
  check a = true -> parse false <> POk ->
  exists m, decide a parse lint render = AFatal m 1 /\ m <> MsgNone \/
            exists e, decide a parse lint render = AUncaught e.
Proof. exact decide_check_parse. Qed.
Print Assumptions C20_check_error_independent_of_lint.

Theorem C20_check_never_renders : forall a parse lint render,
  check a = true -> rendered_of (decide a parse lint render) = None.
Proof. exact decide_check_never_renders. Qed.
Print Assumptions C20_check_never_renders.

(* check-only mode exits non-zero exactly on an error or (lint enabled and) >= 1 warning *)
Theorem C20_check_exit : forall a parse lint render,
  check a = true ->
  (exit_code (decide a parse lint render) <> 0 <->
   parse false <> POk \/ (disable_linter a = false /\ (0 < lint)%nat)).
Proof. exact decide_check_exit. Qed.
Print Assumptions C20_check_exit.

(* ... and so does the process status the caller sees (the low 8 bits of the exit code: the
   code is 0 or 1, never a warning count that could wrap around to 0) *)
Theorem C20_check_status : forall a parse lint render,
  check a = true ->
  (process_status (decide a parse lint render) <> 0 <->
   parse false <> POk \/ (disable_linter a = false /\ (0 < lint)%nat)).
Proof. exact decide_check_status. Qed.
Print Assumptions C20_check_status.

(* style-guide-conforming names are fixed points of the naming helpers ... *)
Theorem C20_pascal_conforming : forall s, pascal_ok s = true -> pascal_case s = s.
Proof. exact pascal_ok_fixed. Qed.
Print Assumptions C20_pascal_conforming.
Theorem C20_snake_conforming : forall s, snake_ok s = true -> snake_case s = s.
Proof. exact snake_ok_fixed. Qed.
Print Assumptions C20_snake_conforming.
Theorem C20_upper_conforming : forall s, upper_ok s = true -> py_isupper s = true.
Proof. exact upper_ok_isupper. Qed.
Print Assumptions C20_upper_conforming.

(* ... so a file whose definitions all follow the style guide (names, 4 spaces per nesting
   level, a zero member in every enum) produces no warning at all *)
Theorem C20_style_clean_no_warning : forall defs, Forall conforming defs -> lint defs = [].
Proof. exact style_clean. Qed.
Print Assumptions C20_style_clean_no_warning.

(* each clear violation (underscore or lower-case initial in a Pascal name, lower-case letter
   in an UPPER name, upper-case letter in a snake name, enum without 0) produces its warning,
   citing the line recorded for that definition *)
Theorem C20_violation_warns : forall defs d w,
  In d defs -> In w (clear_violations d) -> In (w, l_line d) (lint defs).
Proof. exact violation_warns. Qed.
Print Assumptions C20_violation_warns.

Theorem C20_warning_cites_definition : forall defs w l,
  In (w, l) (lint defs) -> exists d, In d defs /\ l = l_line d.
Proof. exact warning_cites_definition. Qed.
Print Assumptions C20_warning_cites_definition.

(* column of a token: the 1-based column, on every line (/repo fix 0c86660: line 1 is no exception) *)
Theorem C20_col : forall text pos,
  (pos <= String.length text)%nat -> col_of text pos = snd (linecol text pos).
Proof. exact col_correct. Qed.
Print Assumptions C20_col.

(* the indent attribute: 0-based offset of the first token in its line, on every line *)
Theorem C20_indent : forall text pos,
  (pos <= String.length text)%nat -> indent_of text pos = snd (linecol text pos) - 1.
Proof. exact indent_correct. Qed.
Print Assumptions C20_indent.

(* line numbers: given the structural facts of lexer.py that the translator establishes on
   every run (C20_lexer_structure), a token's lineno is 1 + the number of newlines before it *)
Theorem C20_lexer_structure : lexer_structure_ok = true.
Proof. exact lexer_structure. Qed.
Print Assumptions C20_lexer_structure.

Theorem C20_lineno : forall ps k L,
  forallb piece_ok ps = true -> (k < List.length ps)%nat ->
  nth k (lex_linenos ps L) 0 = L + count_nl (sconcat (map p_text (firstn k ps))).
Proof. exact lineno_counts_newlines. Qed.
Print Assumptions C20_lineno.

Theorem C20_line_is_newline_count : forall pos s line col,
  fst (linecol_from s pos line col) = line + count_nl (prefix pos s).
Proof. exact linecol_line. Qed.
Print Assumptions C20_line_is_newline_count.

Theorem C20_rules_target_bound_definitions :
  forallb (fun r => negb (String.eqb (r_target r) "Proto") && negb (String.eqb (r_target r) "Definition")) lint_rules = true.
Proof. exact rules_target_bound_definitions. Qed.
Print Assumptions C20_rules_target_bound_definitions.

(* the regular expressions the hand-written snake_case model stands for are the ones in utils.py *)
Theorem C20_naming_regexes :
  re_camel_b1 = "(.)([A-Z][a-z]+)" /\ re_camel_b2 = "([a-z0-9])([A-Z])" /\
  re_alpha_to_digit = "([A-Za-z])([0-9])" /\ re_digit_to_alpha = "([0-9])([A-Za-z])" /\
  re_multi_us = "__+" /\ re_upper_or_digits = "^[A-Z0-9]+$" /\
  re_mixed_case = "[A-Z].*[a-z]|[a-z].*[A-Z]" /\ re_leading_us = "^_+" /\
  re_trailing_us = "_+$" /\
  snakecase_regex_names = ["re_alpha_to_digit"; "re_camel_b1"; "re_camel_b2"; "re_digit_to_alpha"; "re_leading_us";
                           "re_mixed_case"; "re_multi_us"; "re_trailing_us"; "re_upper_or_digits"].
Proof. exact naming_regexes_pinned. Qed.
Print Assumptions C20_naming_regexes.

Definition ex_clean : list ldef :=
  [ mkL KConstant "MAX_SIZE_2" 3 0 1 []; mkL KAlias "Timestamp64" 4 0 1 [];
    mkL KEnumField "COLOR_RED" 7 4 2 []; mkL KEnum "Color" 6 0 1 [0; 1];
    mkL KMessageField "pixel_count_2" 11 8 3 []; mkL KMessage "InnerMsg" 10 4 2 [];
    mkL KMessage "Pen" 9 0 1 []; mkL KOption "c.struct_packing_alignment" 2 0 1 [] ].
Example C20_nonvacuous_clean : Forall conforming ex_clean /\ lint ex_clean = [].
Proof.
  split; [|vm_compute; reflexivity].
  repeat constructor; try (vm_compute; reflexivity); try (intro H; discriminate H); try (vm_compute; discriminate).
Qed.

Definition ex_dirty : list ldef :=
  [ mkL KConstant "maxSize" 3 0 1 []; mkL KEnumField "red" 7 4 2 []; mkL KEnum "my_color" 6 0 1 [1; 2];
    mkL KMessageField "pixelCount" 11 5 2 []; mkL KMessage "pen" 9 0 1 [] ].
Example C20_nonvacuous_dirty :
  lint ex_dirty = [ ("ConstantNameNotUpper", 3); ("EnumNameNotPascal", 6); ("EnumHasNoFieldValue0", 6);
                    ("EnumFieldNameNotUpper", 7); ("MessageNameNotPascal", 9);
                    ("MessageFieldNameNotSnake", 11); ("IndentWarning", 11) ] /\
  clear_violations (mkL KEnum "my_color" 6 0 1 [1; 2]) = ["EnumNameNotPascal"; "EnumHasNoFieldValue0"].
Proof. vm_compute. split; reflexivity. Qed.

Example C20_nonvacuous_positions :
  let text := String "010" "message Foo {" ++ String "010" "    uint3 x = 1" in
  linecol text 9 = (2, 9) /\ col_of text 9 = 9 /\ indent_of text 19 = 4 /\ linecol text 19 = (3, 5) /\
  col_of "message A {" 8 = 9 /\ indent_of "message A {" 0 = 0 /\ indent_of "    const A = 1" 4 = 4 /\
  lex_linenos [mkPiece "t_IDENTIFIER" "proto"; mkPiece "t_newline" (String "010" ""); mkPiece "t_COMMENT" "// x";
               mkPiece "t_newline" (String "010" ""); mkPiece "t_IDENTIFIER" "message"] 1 = [1; 1; 2; 2; 3].
Proof. vm_compute. repeat split; reflexivity. Qed.

Example C20_nonvacuous_check_exit :
  exit_code (decide (mkArgs None false true true None EBoth) (fun _ => POk) 2 (render_model true)) = 1 /\
  exit_code (decide (mkArgs None true true true None EBoth) (fun _ => POk) 2 (render_model true)) = 0 /\
  exit_code (decide (mkArgs None false true true None EBoth) (fun _ => POk) 0 (render_model true)) = 0.
Proof. vm_compute. repeat split; reflexivity. Qed.
