(* C15 — Generated API names follow the documented scheme.
   Statements only; the general ones are closed by [exact] of a lemma of theories/NamesProofs.v,
   the witnesses and examples by evaluation.  The model (theories/Names.v) takes its character
   classes, case-style tables and literal templates from gen/GenNames.v, which is re-translated
   from compiler/bitproto on every run.

   Name languages (theories/NamesSpec.v), as boolean recognisers on strings:
     is_pascal        ([A-Z][a-z]+)+            message / enum / alias names
     is_lower_snake   [a-z]+(_[a-z]+)*          message field names
     is_upper_snake   [A-Z]+(_[A-Z]+)*          constants and enum members
     go_tag_ok        lower_snake without two adjacent one-letter words
     is_prefix        "" or (W_)+, W in [a-z]+ | [A-Z][a-z]* | [A-Z]+, without two adjacent
                      one-letter words
   Names with digits are outside these sets on purpose: see the [_refuted] statements. *)
From Coq Require Import List NArith String.
From BP Require Import NamesBase Names NamesSpec NamesProofs.
From BPGen Require Import GenNames.
Import ListNotations.
Open Scope list_scope.

Theorem C15_pascal_case_identity : forall s, is_pascal s = true -> pascal_case s = s.
Proof. exact pascal_case_identity. Qed.
Print Assumptions C15_pascal_case_identity.

Theorem C15_snake_case_identity : forall s, is_lower_snake s = true -> snake_case s = s.
Proof. exact snake_case_identity. Qed.
Print Assumptions C15_snake_case_identity.

Theorem C15_upper_case_identity : forall s, is_upper_snake s = true ->
  upper_case s = s /\ upper_case (snake_case s) = s.
Proof. exact upper_snake_identity. Qed.
Print Assumptions C15_upper_case_identity.

(* snake_case splits a Pascal name into its humps *)
Theorem C15_snake_case_of_pascal : forall s, is_pascal s = true ->
  snake_case s = join_us (map lower (humps s)).
Proof. exact snake_case_of_pascal. Qed.
Print Assumptions C15_snake_case_of_pascal.

(* for ANY tokens made of letters only: the regular-expression passes of snake_case amount
   to one local three-character-window rule (ins3), then lower-casing *)
Theorem C15_snake_case_letters : forall ts, ts <> [] -> forallb letters ts = true ->
  snake_case (join_us ts) = lower (join_us (map ins3 ts)).
Proof. exact snake_case_letters. Qed.
Print Assumptions C15_snake_case_letters.

(* style_ok k n: n is in the style-guide language of kind k.  In every language and for every
   kind the generated name is the schema name, except Go struct fields (PascalCase). *)
Theorem C15_top_level_identity : forall l k n, style_ok k n = true ->
  def_name l k [] [] n = match l, k with LGo, KMessageField => pascal_case n | _, _ => n end.
Proof. exact top_level_identity. Qed.
Print Assumptions C15_top_level_identity.

(* Go struct fields are the capitalised words concatenated; the JSON tag is the schema name *)
Theorem C15_go_field_and_tag : forall n, go_tag_ok n = true ->
  field_name LGo n = List.concat (map cap (words n)) /\ go_tag (field_name LGo n) = n.
Proof. exact go_field_and_tag. Qed.
Print Assumptions C15_go_field_and_tag.

(* nesting: enclosing names first, in order; holds for ALL names the linter accepts as PascalCase
   (pascal_case w = w) *)
Theorem C15_nested_concat : forall p encl n,
  (forall w, In w (encl ++ [n]) -> pascal_case w = w) ->
  (forall k, pascal_kind LC k = true -> def_name LC k [] encl n = List.concat (encl ++ [n])) /\
  (forall k, pascal_kind LGo k = true -> def_name LGo k p encl n = List.concat (encl ++ [n])) /\
  def_name LGo KEnum p encl n = join_us (encl ++ [n]) /\
  (forall k, keep_kind LPy k = true -> def_name LPy k p encl n = join_us (encl ++ [n])).
Proof. exact nested_names. Qed.
Print Assumptions C15_nested_concat.

(* enum members: prefix, humps of the enclosing message names, member name — upper case,
   joined by "_" *)
Theorem C15_nested_enum_member : forall l p encl m,
  is_prefix p = true -> forallb is_pascal encl = true -> is_upper_snake m = true ->
  def_name l KEnumField p encl m =
  upper (name_prefix l p) ++ join_us (map upper (flat_map humps encl) ++ words m).
Proof. exact enum_member_name. Qed.
Print Assumptions C15_nested_enum_member.

Theorem C15_api_names : forall n,
  c_encode_fn n = Str "Encode" ++ n /\ c_decode_fn n = Str "Decode" ++ n /\
  c_json_fn n = Str "Json" ++ n /\
  size_const LC n = Str "BYTES_LENGTH_" ++ upper_case (snake_case n) /\
  size_const LGo n = Str "BYTES_LENGTH_" ++ upper_case (snake_case n) /\
  (Str go_encode_method, Str go_decode_method, Str go_size_method) = (Str "Encode", Str "Decode", Str "Size") /\
  size_const LPy n = Str "BYTES_LENGTH" /\
  (Str py_encode_method, Str py_decode_method, Str py_to_json_method, Str py_to_dict_method) =
  (Str "encode", Str "decode", Str "to_json", Str "to_dict").
Proof. exact api_names. Qed.
Print Assumptions C15_api_names.

(* they are among the identifiers the model declares for a message (Json only in standard
   mode) *)
Theorem C15_api_names_declared : forall p n fields,
  (forall opt, In (IFunc, Str "Encode" ++ n) (message_idents LC opt (model_namer LC p) n fields) /\
               In (IFunc, Str "Decode" ++ n) (message_idents LC opt (model_namer LC p) n fields) /\
               In (IMacro, size_const LC n) (message_idents LC opt (model_namer LC p) n fields) /\
               In (IStruct, n) (message_idents LC opt (model_namer LC p) n fields)) /\
  In (IFunc, Str "Json" ++ n) (message_idents LC false (model_namer LC p) n fields) /\
  (forall opt, In (IMethod n, Str "Encode") (message_idents LGo opt (model_namer LGo p) n fields) /\
               In (IMethod n, Str "Decode") (message_idents LGo opt (model_namer LGo p) n fields) /\
               In (IMethod n, Str "Size") (message_idents LGo opt (model_namer LGo p) n fields) /\
               In (IConst, size_const LGo n) (message_idents LGo opt (model_namer LGo p) n fields) /\
               In (IType, n) (message_idents LGo opt (model_namer LGo p) n fields)) /\
  (forall opt, In (IMethod n, Str "encode") (message_idents LPy opt (model_namer LPy p) n fields) /\
               In (IMethod n, Str "decode") (message_idents LPy opt (model_namer LPy p) n fields) /\
               In (IMethod n, Str "to_json") (message_idents LPy opt (model_namer LPy p) n fields) /\
               In (IMethod n, Str "to_dict") (message_idents LPy opt (model_namer LPy p) n fields) /\
               In (IAttr n, Str "BYTES_LENGTH") (message_idents LPy opt (model_namer LPy p) n fields) /\
               In (IClass, n) (message_idents LPy opt (model_namer LPy p) n fields)).
Proof. exact api_names_declared. Qed.
Print Assumptions C15_api_names_declared.

(* BYTES_LENGTH_<UPPER_SNAKE_NAME>: prefix, then the humps of all names in upper case *)
Theorem C15_size_constant : forall l p encl n,
  pascal_kind l KMessage = true -> lang_eqb l LPy = false ->
  is_prefix p = true -> forallb is_pascal (encl ++ [n]) = true ->
  size_const l (def_name l KMessage p encl n) =
  Str size_const_prefix ++ upper (name_prefix l p) ++
  join_us (map upper (flat_map humps (encl ++ [n]))).
Proof. exact size_const_name. Qed.
Print Assumptions C15_size_constant.

Theorem C15_cross_proto_reference : forall l k p encl n alias,
  ref_name l k p encl n true (Some alias) =
  (if supports_import l then alias ++ Str "." ++ def_name l k p encl n else def_name l k p encl n) /\
  ref_name l k p encl n false (Some alias) = def_name l k p encl n /\
  (forall b, ref_name l k p encl n b None = def_name l k p encl n) /\
  (supports_import LC, supports_import LGo, supports_import LPy) = (false, true, true).
Proof. exact cross_proto_reference. Qed.
Print Assumptions C15_cross_proto_reference.

(* the qualifier is the key the imported proto is registered under in the importing proto (its
   `as` name, else its own name), found by identity: other imports' names play no role, even
   when one of them equals the imported proto's own name *)
Theorem C15_import_name_is_key : forall members k id own,
  In (k, id) members -> NoDup (map snd members) -> definition_name members id own = k.
Proof. exact definition_name_is_key. Qed.
Print Assumptions C15_import_name_is_key.

Theorem C15_out_files : forall base ext,
  forallb is_dot base = false ->     (* the base name has a character other than '.' *)
  out_filename (base ++ Str ".bitproto") ext = base ++ Str "_bp" ++ Str ext.
Proof. exact out_filename_of_bitproto_file. Qed.
Print Assumptions C15_out_files.

Theorem C15_out_file_extensions :
  (out_suffix, ext_c_h, ext_c_c, ext_go, ext_py) = ("_bp", ".h", ".c", ".go", ".py")%string.
Proof. exact out_file_constants. Qed.
Print Assumptions C15_out_file_extensions.

(* option c.name_prefix: a prefix ending in "_" goes, PascalCased, in front of every type name
   (hence of every function name built from it); upper-cased in front of every constant *)
Theorem C15_prefix_on_types : forall k q encl n, pascal_kind LC k = true ->
  def_name LC k (q ++ [us]) encl n = pascal_case (q ++ [us]) ++ def_name LC k [] encl n.
Proof. exact prefix_on_types. Qed.
Print Assumptions C15_prefix_on_types.

Theorem C15_prefix_on_constants : forall p encl n,
  def_name LC KConstant p encl n = upper p ++ def_name LC KConstant [] encl n.
Proof. exact prefix_on_constants. Qed.
Print Assumptions C15_prefix_on_constants.

Theorem C15_prefix_on_enum_members : forall p encl m,
  is_prefix p = true -> forallb is_pascal encl = true -> is_upper_snake m = true ->
  def_name LC KEnumField p encl m = upper p ++ def_name LC KEnumField [] encl m.
Proof. exact prefix_on_enum_members. Qed.
Print Assumptions C15_prefix_on_enum_members.

Theorem C15_prefix_on_size_const : forall p encl n,
  is_prefix p = true -> forallb is_pascal (encl ++ [n]) = true ->
  size_const LC (def_name LC KMessage p encl n) =
  Str size_const_prefix ++ upper p ++
  skipn (List.length (Str size_const_prefix)) (size_const LC (def_name LC KMessage [] encl n)).
Proof. exact prefix_on_size_const. Qed.
Print Assumptions C15_prefix_on_size_const.

(* ... and changes nothing else: Go and Python identifiers do not depend on it, nor do the
   member names of the C structs (the model has no other input: field numbers and types are
   read from the schema) *)
Theorem C15_prefix_only_prefix_other_languages : forall l opt p q ds, lang_eqb l LC = false ->
  proto_idents l opt {| p_prefix := p; p_decls := ds |} =
  proto_idents l opt {| p_prefix := q; p_decls := ds |}.
Proof. exact proto_idents_prefix_irrelevant. Qed.
Print Assumptions C15_prefix_only_prefix_other_languages.

Theorem C15_prefix_only_prefix_field_names : forall l opt p q ds,
  field_names_of (proto_idents l opt {| p_prefix := p; p_decls := ds |}) =
  field_names_of (proto_idents l opt {| p_prefix := q; p_decls := ds |}).
Proof. exact proto_field_names_prefix_irrelevant. Qed.
Print Assumptions C15_prefix_only_prefix_field_names.

(* where the documented scheme does NOT hold on the current tree (finding digit-names) *)

(* an enum member in the style guide's own form, accepted by the linter, is renamed *)
Theorem C15_enum_member_digits_refuted : exists m,
  sg_upper m = true /\ lint_upper m = true /\
  def_name LC KEnumField [] [] m <> m /\ def_name LGo KEnumField [] [] m <> m /\
  def_name LPy KEnumField [] [] m <> m.
Proof.
  exists (Str "COLOR_RGB2HSV").
  assert (E : forall l, def_name l KEnumField [] [] (Str "COLOR_RGB2HSV") = Str "COLOR_RGB_2_HSV")
    by (intros []; vm_compute; reflexivity).
  repeat split; try (vm_compute; reflexivity); rewrite E; vm_compute; discriminate.
Qed.
Print Assumptions C15_enum_member_digits_refuted.

(* a field name the linter accepts whose Go JSON tag is not the schema name *)
Theorem C15_go_tag_refuted : exists n,
  sg_lower n = true /\ lint_snake n = true /\ go_tag (field_name LGo n) <> n.
Proof.
  exists (Str "a_b"). repeat split; try (vm_compute; reflexivity).
  assert (E : go_tag (field_name LGo (Str "a_b")) = Str "ab") by (vm_compute; reflexivity).
  rewrite E. vm_compute. discriminate.
Qed.
Print Assumptions C15_go_tag_refuted.

(* a message name with a digit: the size constant splits around the digit *)
Theorem C15_size_constant_digits_refuted : exists n,
  sg_pascal_noacr n = true /\ lint_pascal n = true /\
  size_const LC (def_name LC KMessage [] [] n) <> Str size_const_prefix ++ upper_snake_of_pascal n.
Proof.
  exists (Str "Rgb2Hsv"). repeat split; try (vm_compute; reflexivity).
  assert (E : size_const LC (def_name LC KMessage [] [] (Str "Rgb2Hsv")) = Str "BYTES_LENGTH_RGB_2_HSV")
    by (vm_compute; reflexivity).
  rewrite E. vm_compute. discriminate.
Qed.
Print Assumptions C15_size_constant_digits_refuted.

Example C15_nonvacuous_converters :
  is_pascal (Str "ZooMonkey") = true /\ is_lower_snake (Str "tail_len") = true /\
  is_upper_snake (Str "KIND_BIG_CAT") = true /\ go_tag_ok (Str "is_a_wild_cat") = true /\
  is_prefix (Str "my_prefix_") = true /\
  snake_case (Str "ZooMonkey") = Str "zoo_monkey" /\
  humps (Str "ZooMonkey") = [Str "Zoo"; Str "Monkey"] /\
  field_name LGo (Str "is_a_wild_cat") = Str "IsAWildCat" /\
  go_tag (field_name LGo (Str "is_a_wild_cat")) = Str "is_a_wild_cat".
Proof. vm_compute. repeat split; reflexivity. Qed.

Example C15_nonvacuous_names :
  let encl := [Str "Zoo"; Str "BigCat"] in
  (forall w, In w (encl ++ [Str "Tail"]) -> pascal_case w = w) /\
  forallb is_pascal (encl ++ [Str "Tail"]) = true /\
  def_name LC KMessage (Str "my_prefix_") encl (Str "Tail") = Str "MyPrefixZooBigCatTail" /\
  def_name LGo KMessage (Str "my_prefix_") encl (Str "Tail") = Str "ZooBigCatTail" /\
  def_name LPy KMessage (Str "my_prefix_") encl (Str "Tail") = Str "Zoo_BigCat_Tail" /\
  def_name LGo KEnum [] encl (Str "Mood") = Str "Zoo_BigCat_Mood" /\
  def_name LC KEnumField (Str "my_prefix_") encl (Str "MOOD_OK") = Str "MY_PREFIX_ZOO_BIG_CAT_MOOD_OK" /\
  size_const LC (def_name LC KMessage (Str "my_prefix_") encl (Str "Tail")) =
    Str "BYTES_LENGTH_MY_PREFIX_ZOO_BIG_CAT_TAIL" /\
  c_encode_fn (def_name LC KMessage (Str "my_prefix_") encl (Str "Tail")) = Str "EncodeMyPrefixZooBigCatTail" /\
  out_filename (Str "zoo.v2.bitproto") ext_c_h = Str "zoo.v2_bp.h" /\
  forallb is_dot (Str "zoo.v2") = false.
Proof.
  cbv zeta. split.
  - intros w [H|[H|[H|[]]]]; subst w; vm_compute; reflexivity.
  - vm_compute. repeat split; reflexivity.
Qed.

(* `import bb "base.bitproto"` (proto base) next to `import base "other.bitproto"`; a capitalised
   prefix sharing its letters with the message it prefixes *)
Example C15_nonvacuous_import_and_prefix :
  let members := [(Str "bb", 0%N); (Str "base", 1%N)] in
  NoDup (map snd members) /\
  definition_name members 0%N (Str "base") = Str "bb" /\
  definition_name members 1%N (Str "other") = Str "base" /\
  is_prefix (Str "Lib_") = true /\ is_prefix (Str "MY_Li_") = true /\
  def_name LC KMessage (Str "Lib_") [Str "Link"] (Str "Bit") = Str "LibLinkBit" /\
  def_name LC KEnumField (Str "Lib_") [Str "Link"] (Str "LEVEL_HIGH") = Str "LIB_LINK_LEVEL_HIGH" /\
  size_const LC (def_name LC KMessage (Str "MY_Li_") [Str "Link"] (Str "Bit")) = Str "BYTES_LENGTH_MY_LI_LINK_BIT".
Proof.
  cbv zeta. split; [repeat constructor; cbn; intuition discriminate|].
  vm_compute. repeat split; reflexivity.
Qed.

Example C15_nonvacuous_idents :
  let ds := [DEnum (Str "Kind") [Str "KIND_UNKNOWN"];
             DMessage (Str "Zoo") [DMessage (Str "Monkey") [] [{| f_name := Str "is_wild"; f_number := 2; f_type := TBase |}]]
                      [{| f_name := Str "monkey"; f_number := 1;
                          f_type := TNamed KMessage (Str "my_") [Str "Zoo"] (Str "Monkey") None |}]] in
  field_names_of (proto_idents LC false {| p_prefix := Str "my_"; p_decls := ds |}) = [Str "is_wild"; Str "monkey"] /\
  In (IStruct, Str "MyZooMonkey") (proto_idents LC false {| p_prefix := Str "my_"; p_decls := ds |}) /\
  In (IFieldType (Str "MyZoo"), Str "monkey:struct MyZooMonkey")
     (proto_idents LC false {| p_prefix := Str "my_"; p_decls := ds |}) /\
  In (ITag (Str "Zoo"), Str "Monkey:monkey") (proto_idents LGo false {| p_prefix := Str "my_"; p_decls := ds |}).
Proof. vm_compute. repeat split; tauto. Qed.
