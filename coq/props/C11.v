(* C11 — names resolve to the innermost visible earlier definition.
   Only statements, each closed by [exact] of a lemma proved in theories/FrontProofs.v or FrontScope.v, followed
   by Print Assumptions; plus Examples showing the hypotheses are satisfiable.

   The scope stack [st] is innermost first: scope 0 is the scope being defined, the last one is
   the file (imports are members of the file scope under their own or their `as` name; a
   definition enters its parent only when it is complete: Front.proc_item). *)
From Coq Require Import ZArith List Bool String.
From BP Require Import Schema Front FrontProofs FrontScope.
Import ListNotations.
Open Scope Z_scope.

(* WHAT THE CODE DOES: lookup returns d iff d is what the WHOLE dotted path resolves to in
   some scope k, and in no scope inside k the whole path resolves *)
Theorem C11_innermost : forall st p d,
  lookup st p = Some d <->
  exists k, resolves_in st k p d /\ forall k', (k' < k)%nat -> resolves_none st k' p.
Proof. exact lookup_innermost. Qed.
Print Assumptions C11_innermost.

(* for an undotted name this IS "the innermost enclosing scope that declares it" *)
Theorem C11_innermost_simple_name : forall st n d,
  lookup st [n] = Some d <->
  exists k f, first_declaring st k n /\ nth_error st k = Some f /\ assoc n (fmem f) = Some d.
Proof. exact lookup_simple_name. Qed.
Print Assumptions C11_innermost_simple_name.

(* for a dotted name the two readings coincide whenever the innermost scope declaring the first
   component contains the rest of the path *)
Theorem C11_innermost_first_component : forall st n rest k d,
  first_declaring st k n -> resolves_in st k (n :: rest) d -> lookup st (n :: rest) = Some d.
Proof. exact lookup_first_component. Qed.
Print Assumptions C11_innermost_first_component.

(* in every case the answering scope declares the first component *)
Theorem C11_answering_scope_declares : forall st n rest d,
  lookup st (n :: rest) = Some d ->
  exists k f, nth_error st k = Some f /\ declares f n = true /\ get_member (fmem f) (n :: rest) = Some d.
Proof. exact lookup_declares. Qed.
Print Assumptions C11_answering_scope_declares.

(* ... but they do NOT coincide in general: when the innermost declaration of the first
   component lacks the rest of the path, the code falls through to an outer scope instead of
   reporting an undefined name (replayed on the real parser: corpus/C11/fallthrough.json) *)
Definition ex_fall : files :=
  [("r"%string,
    [IProto 1 "r";
     IMsg 2 "A" false [IMsg 3 "B" false [IField 3 (XSingle (SUint 3)) "x" 1]];
     IMsg 4 "Outer" false
       [IMsg 5 "A" false [IField 5 (XSingle SBool) "y" 1];
        IMsg 6 "Inner" false [IField 6 (XSingle (SRef ["A"; "B"])) "f" 1;
                              IField 6 (XSingle (SRef ["A"])) "g" 2]]]%string)].

Theorem C11_first_component_reading_refuted :
  exists st n rest k f d,
    first_declaring st k n /\ nth_error st k = Some f /\ get_member (fmem f) (n :: rest) = None /\
    lookup st (n :: rest) = Some d.
Proof. exact first_component_reading_refuted. Qed.
Print Assumptions C11_first_component_reading_refuted.

(* the same through the whole front end: field f (line 6) gets the top-level A.B of line 3
   (3 bits), field g the inner A of line 5 (1 bit) *)
Example C11_fallthrough_end_to_end :
  let rows := snd (observe (check ex_fall "r" false)) in
  existsb (row_eqb ("Outer.Inner.f"%string, [7; 6; 1; 3; 3], "r"%string)) rows &&
  existsb (row_eqb ("Outer.Inner.g"%string, [7; 6; 2; 1; 5], "r"%string)) rows = true.
Proof. vm_compute. reflexivity. Qed.

(* ONLY EARLIER DEFINITIONS: [reach ... st ps it] says that, while file [items] is parsed,
   statement [it] is processed against stack [st], and [ps] lists scope by scope the
   statements that textually precede it ([FrontProofs.reach_error]: the relation describes the
   run).  Whatever a name resolves to, its first component was declared by one of those. *)
Theorem C11_only_earlier : forall pc kf trad file fstack items st ps it n rest d,
  reach pc kf trad file fstack [] [] (mkframe (FProto None) []) items st ps it ->
  lookup st (n :: rest) = Some d ->
  exists k pre it0, nth_error ps k = Some pre /\ In it0 pre /\ binds pc it0 n.
Proof. exact lookup_only_earlier. Qed.
Print Assumptions C11_only_earlier.

(* a use before (or without) a definition is rejected with ReferencedTypeNotDefined at the
   line of the use, whatever follows it in the file *)
Theorem C11_use_before_definition_rejected : forall pc kf trad file fstack items f st' ps l n rest name num,
  reach pc kf trad file fstack [] [] (mkframe (FProto None) []) items (f :: st') ps
        (IField l (XSingle (SRef (n :: rest))) name num) ->
  is_proto_frame f = false ->
  (forall pre it0, In pre ps -> In it0 pre -> ~ binds pc it0 n) ->
  proc_items pc kf trad file fstack [] (mkframe (FProto None) []) items = Err KRefTypeNotDefined file l.
Proof. exact use_before_definition_rejected. Qed.
Print Assumptions C11_use_before_definition_rejected.

Example C11_later_definition_rejected :
  check [("r"%string, [IProto 1 "r"; IMsg 2 "M" false [IField 3 (XSingle (SRef ["N"])) "x" 1];
                       IMsg 5 "N" false []]%string)] "r" false
  = Err KRefTypeNotDefined "r" 3.
Proof. vm_compute. reflexivity. Qed.

(* THE RESOLVED DEFINITION IS THE ONE USED: the member pushed for a field carries the type of
   exactly the definition lookup returns (so its width, members and encoding are that
   definition's: Spec.wire is a function of this [ty]) and records where that definition is *)
Theorem C11_type_used : forall pc kf trad file fstack outer cur l p name num cur',
  proc_item pc kf trad file fstack outer cur (IField l (XSingle (SRef p)) name num) = Ok cur' ->
  exists d t,
    lookup (cur :: outer) p = Some d /\ def_type d = Some t /\
    fmem cur' = (name, DField (mkloc file l) num t (Some (def_loc d))) :: fmem cur.
Proof. exact field_type_used. Qed.
Print Assumptions C11_type_used.

Theorem C11_array_type_used : forall pc kf trad file fstack outer cur l p c ext name num cur',
  proc_item pc kf trad file fstack outer cur (IField l (XArr (SRef p) c ext) name num) = Ok cur' ->
  exists d t n,
    lookup (cur :: outer) p = Some d /\ def_type d = Some t /\
    resolve_cap file (cur :: outer) l c = Ok n /\
    fmem cur' = (name, DField (mkloc file l) num (TArr ext (Z.to_nat n) t) (Some (def_loc d))) :: fmem cur.
Proof. exact field_array_type_used. Qed.
Print Assumptions C11_array_type_used.

(* and the message's elaborated type is made of exactly those field members *)
Theorem C11_message_type_of_members : forall a ext f d,
  close_msg a ext f = Ok d -> d = DMsg a (TMsg ext (msg_fields (rev (fmem f)))) (rev (fmem f)).
Proof. exact close_msg_fields. Qed.
Print Assumptions C11_message_type_of_members.

(* non-vacuity: shadowing at three depths plus an import under an `as` name *)
Definition ex_shadow : files :=
  [("r"%string,
    [IProto 1 "r"; IImport 2 (Some "L") "lib";
     IEnum 3 "X" (SUint 2) [IEnumField 3 "A" 0];
     IMsg 4 "M" false
       [IEnum 5 "X" (SUint 5) [IEnumField 5 "A" 0];
        IMsg 6 "N" false
          [IField 7 (XSingle (SRef ["X"])) "a" 1;
           IEnum 8 "X" (SUint 7) [IEnumField 8 "A" 0];
           IField 9 (XSingle (SRef ["X"])) "b" 2;
           IField 10 (XSingle (SRef ["L"; "X"])) "c" 3;
           IField 11 (XArr (SRef ["X"]) (CapLit 2) false) "d" 4]];
     IMsg 13 "P" false
       [IField 14 (XSingle (SRef ["M"; "X"])) "e" 1;
        IField 15 (XSingle (SRef ["M"; "N"; "X"])) "g" 2;
        IField 16 (XSingle (SRef ["X"])) "h" 3]]%string);
   ("lib"%string, [IProto 1 "lib"; IEnum 2 "X" (SUint 11) [IEnumField 2 "A" 0]]%string)].

Example C11_shadowing_example :
  let rows := snd (observe (check ex_shadow "r" false)) in
  existsb (row_eqb ("M.N.a"%string, [7; 7; 1; 5; 5], "r"%string)) rows &&      (* M.X, 5 bits *)
  existsb (row_eqb ("M.N.b"%string, [7; 9; 2; 7; 8], "r"%string)) rows &&      (* M.N.X, 7 bits *)
  existsb (row_eqb ("M.N.c"%string, [7; 10; 3; 11; 2], "lib"%string)) rows &&  (* lib's X, 11 bits *)
  existsb (row_eqb ("M.N.d"%string, [7; 11; 4; 14; 8], "r"%string)) rows &&     (* array of M.N.X *)
  existsb (row_eqb ("P.e"%string, [7; 14; 1; 5; 5], "r"%string)) rows &&
  existsb (row_eqb ("P.g"%string, [7; 15; 2; 7; 8], "r"%string)) rows &&
  existsb (row_eqb ("P.h"%string, [7; 16; 3; 2; 3], "r"%string)) rows = true.
Proof. vm_compute. reflexivity. Qed.
