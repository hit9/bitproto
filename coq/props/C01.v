(* C01 — Python encoder emits exactly the specified bit layout.
   Only statements, each closed by [exact] of a lemma proved elsewhere, followed by
   Print Assumptions; plus Examples showing the hypotheses are satisfiable. *)
From Coq Require Import ZArith List.
From BP Require Import Schema Spec PyRt PyEncProofs PyEncTop.
Import ListNotations.
Open Scope Z_scope.

(* the model of the generated Msg.encode() over bitprotolib returns Spec.wire, for every
   schema tree and every in-range value *)
Theorem C01_encode_is_wire : forall t v,
  is_msg t = true -> wf (norm t) = true -> has_ty (norm t) v = true ->
  py_encode t v = Ok (wire t v).
Proof. exact py_encode_is_wire. Qed.
Print Assumptions C01_encode_is_wire.

(* exactly ceil(N/8) bytes *)
Theorem C01_length : forall t v,
  wf (norm t) = true -> has_ty (norm t) v = true ->
  Z.of_nat (length (wire t v)) = (nbits t + 7) / 8.
Proof. exact wire_length. Qed.
Print Assumptions C01_length.

(* N = number of stream bits = sum of widths + 16 per extensible node *)
Theorem C01_nbits_sum : forall t v,
  wf (norm t) = true -> has_ty (norm t) v = true ->
  Z.of_nat (length (enc_bits (norm t) v)) = nbits t.
Proof. exact enc_bits_nbits. Qed.
Print Assumptions C01_nbits_sum.

(* stream bit k is stored in byte k div 8 at bit position k mod 8 *)
Theorem C01_bit_k : forall t v k,
  0 <= k ->
  Z.testbit (nth (Z.to_nat (k / 8)) (wire t v) 0) (k mod 8) =
  nth (Z.to_nat k) (enc_bits (norm t) v) false.
Proof. exact wire_bit. Qed.
Print Assumptions C01_bit_k.

(* all padding bits after bit N-1 are zero *)
Theorem C01_padding_zero : forall t v k,
  wf (norm t) = true -> has_ty (norm t) v = true -> nbits t <= k ->
  Z.testbit (nth (Z.to_nat (k / 8)) (wire t v) 0) (k mod 8) = false.
Proof. exact wire_padding_zero. Qed.
Print Assumptions C01_padding_zero.

(* fields are laid out in ascending field-number order (enc_bits walks the list in order,
   concatenating with no gap: see Spec.enc_bits) *)
Theorem C01_field_order : forall x fs fs',
  norm (TMsg x fs) = TMsg x fs' -> sorted_keys fs'.
Proof. exact norm_msg_sorted. Qed.
Print Assumptions C01_field_order.

(* non-vacuity: a permuted, extensible, nested example meets every hypothesis, and the
   theorem's conclusion computes *)
Definition ex_t : ty :=
  TMsg true [ (3, TAlias (TArr true 3 (TUint 3)));
              (1, TEnum 3 [0; 1; 5]);
              (2, TAlias (TInt 13));
              (5, TMsg false [(2, TUint 5); (1, TBool)]);
              (7, TArr false 2 TByte);
              (9, TInt 32) ].
Definition ex_v : val :=
  VM [ (3, VL [VZ 1; VZ 7; VZ 2]); (1, VZ 5); (2, VZ (-171));
       (5, VM [(2, VZ 19); (1, VB true)]); (7, VL [VZ 255; VZ 1]); (9, VZ (-2)) ].
Example C01_nonvacuous :
  is_msg ex_t = true /\ wf (norm ex_t) = true /\ has_ty (norm ex_t) ex_v = true /\
  py_encode ex_t ex_v = Ok (wire ex_t ex_v) /\ length (wire ex_t ex_v) = 14%nat.
Proof. vm_compute. repeat split; reflexivity. Qed.
