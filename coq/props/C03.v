(* C03 — C standard mode writes/reads the same bytes as the specification and Python. *)
From Coq Require Import ZArith List Bool.
From BP Require Import Bits Schema Spec PyRt CMem CRt CCopyProofs CBaseProofs CEncProofs CDecProofs CBatchProofs CTop.
Import ListNotations.
Open Scope Z_scope.

(* BpCopyBufferBits (all five branches, either build) copies exactly bits [si, si+n) of the
   source to bits [di, di+n) of the destination and leaves every other destination bit as
   it was, under the precondition its callers establish (destination bits at and after the
   cursor are zero); it terminates within n iterations (1 <= c <= n each time: fuel n
   suffices) and performs no access outside the exact-size buffers.  [cfg_ok B E]: the word
   fast paths are compiled in only on a little-endian host. *)
Theorem C03_copy_bits : forall B E n dm dp sm sp di si,
  cfg_ok B E ->
  0 <= n -> bytes_ok dm -> bytes_ok sm -> 0 <= dp -> 0 <= sp -> 0 <= di -> 0 <= si ->
  0 <= bufZ dm < 2 ^ (8 * dp + di) ->
  8 * dp + di + n <= 8 * Z.of_nat (length dm) ->
  8 * sp + si + n <= 8 * Z.of_nat (length sm) ->
  exists dm',
    copy_bits B E (copy_fuel n) n dm dp sm sp di si = COk dm' /\
    length dm' = length dm /\ bytes_ok dm' /\
    forall k, 0 <= k ->
      Z.testbit (bufZ dm') k =
      if (8 * dp + di <=? k) && (k <? 8 * dp + di + n)
      then Z.testbit (bufZ sm) (8 * sp + si + (k - (8 * dp + di)))
      else Z.testbit (bufZ dm) k.
Proof. exact copy_bits_bits. Qed.
Print Assumptions C03_copy_bits.

Example C03_copy_nonvacuous :
  cfg_ok LE LE /\ cfg_ok BE BE /\ cfg_ok BE LE /\
  copy_bits LE LE (copy_fuel 45) 45 [5; 0; 0; 0; 0; 0; 0] 0 [171; 205; 239; 18; 52; 86; 120] 0 3 5
    = COk [109; 243; 187; 4; 141; 21; 0].
Proof.
  split; [intros _; reflexivity|]. split; [intros H; discriminate H|]. split; [intros H; discriminate H|].
  vm_compute. reflexivity.
Qed.

(* Encode<Msg> of the generated code over the runtime (model: descriptors of the renderer
   model, bitproto.c line by line, little-endian build and host) writes exactly Spec.wire,
   for every schema tree the compiler accepts and every in-range value laid out in storage
   as [store] does (two's complement in the storage width) *)
Theorem C03_encode : forall t v,
  c_schema t -> has_ty (norm t) v = true ->
  c_encode_ty LE LE t (store LE (norm t) v) = COk (wire t v).
Proof. exact c_encode_le. Qed.
Print Assumptions C03_encode.

(* hence the C encoder and the Python encoder (C01) emit the same bytes *)
Theorem C03_interop_encode : forall t v,
  c_schema t -> has_ty (norm t) v = true ->
  exists bs, c_encode_ty LE LE t (store LE (norm t) v) = COk bs /\ py_encode t v = Ok bs.
Proof. exact c_encode_eq_py_encode. Qed.
Print Assumptions C03_interop_encode.

(* Decode<Msg>, given the specified bytes and a zero-initialised struct, reconstructs exactly
   the stored value: every integer two's complement in its storage width, i.e. signed
   widths sign-extended *)
Theorem C03_decode : forall t v,
  c_schema t -> has_ty (norm t) v = true ->
  c_decode_ty LE LE t (wire t v) = COk (store LE (norm t) v).
Proof. exact c_decode_le. Qed.
Print Assumptions C03_decode.

(* a C peer decodes what a Python peer encoded (with C01) *)
Theorem C03_interop_decode : forall t v,
  c_schema t -> has_ty (norm t) v = true ->
  exists bs, py_encode t v = Ok bs /\ c_decode_ty LE LE t bs = COk (store LE (norm t) v).
Proof. exact c_decode_of_py_encode. Qed.
Print Assumptions C03_interop_decode.

(* the contiguous batch copy for arrays of 8/16/32/64-bit integers equals the per-element
   loop, in both directions *)
Theorem C03_batch_eq_loop_encode : forall ext cap e o x,
  wf (TArr ext cap e) = true -> cwf (TArr ext cap e) = true ->
  batch_pred LE (nbits e) (d_flag (render e)) (d_to_flag (render e)) = true ->
  shape_ok (TArr ext cap e) o -> cenc_pre x (nbits (TArr ext cap e)) ->
  endecode_array LE LE (call_processor LE LE true) true ext (Z.of_nat cap) (render e) x o
  = endecode_array_loop_only LE LE (call_processor LE LE true) true ext (Z.of_nat cap) (render e) x o.
Proof. exact batch_eq_loop_encode. Qed.
Print Assumptions C03_batch_eq_loop_encode.

Theorem C03_batch_eq_loop_decode : forall ext cap e v x,
  wf (TArr ext cap e) = true -> cwf (TArr ext cap e) = true ->
  batch_pred LE (nbits e) (d_flag (render e)) (d_to_flag (render e)) = true ->
  has_ty (TArr ext cap e) v = true -> dec_pre x (nbits (TArr ext cap e)) ->
  seg (xs x) (xi x) (nbits (TArr ext cap e)) = Z_of_bits (enc_bits (TArr ext cap e) v) ->
  endecode_array LE LE (call_processor LE LE false) false ext (Z.of_nat cap) (render e) x (zero_obj (TArr ext cap e))
  = endecode_array_loop_only LE LE (call_processor LE LE false) false ext (Z.of_nat cap) (render e) x (zero_obj (TArr ext cap e)).
Proof. exact batch_eq_loop_decode. Qed.
Print Assumptions C03_batch_eq_loop_decode.

Definition ex_t : ty :=
  TMsg true [ (3, TAlias (TArr true 3 (TUint 3))); (1, TEnum 3 [0; 1; 5]); (2, TAlias (TInt 13));
              (5, TMsg false [(2, TUint 5); (1, TBool)]); (7, TArr false 2 TByte); (9, TInt 32);
              (10, TArr true 2 (TMsg false [(2, TUint 5); (1, TBool)])); (11, TArr false 3 (TInt 16));
              (12, TArr false 2 (TAlias (TArr false 2 (TInt 7)))) ].
Definition ex_v : val :=
  VM [ (3, VL [VZ 1; VZ 7; VZ 2]); (1, VZ 5); (2, VZ (-171)); (5, VM [(2, VZ 19); (1, VB true)]);
       (7, VL [VZ 255; VZ 1]); (9, VZ (-2));
       (10, VL [VM [(2, VZ 3); (1, VB true)]; VM [(2, VZ 30); (1, VB false)]]);
       (11, VL [VZ (-1); VZ 2; VZ (-32768)]); (12, VL [VL [VZ (-64); VZ 63]; VL [VZ (-1); VZ 5]]) ].
Example C03_encode_nonvacuous :
  c_schema ex_t /\ has_ty (norm ex_t) ex_v = true /\
  c_encode_ty LE LE ex_t (store LE (norm ex_t) ex_v) = COk (wire ex_t ex_v) /\ length (wire ex_t ex_v) = 27%nat /\
  c_decode_ty LE LE ex_t (wire ex_t ex_v) = COk (store LE (norm ex_t) ex_v) /\
  batch_pred LE (nbits (TInt 16)) (d_flag (render (TInt 16))) (d_to_flag (render (TInt 16))) = true.
Proof. vm_compute. repeat split; reflexivity. Qed.
