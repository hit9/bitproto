(* C04 — optimization mode (-O) changes how, never what, is encoded (C and Go).

   Reading guide.  [stmts L enc t] is the statement list the formatter emits for Encode/Decode of
   message type t in target L (CLE: C byte-pointer statements, CBE: C value-based statements, GO);
   its generator (OpMode.leaves / plan_loop / item / post) imports the loop step, masks, shifts and
   constants from BPGen.GenOpMode, which is re-translated from the compiler on every run, and is
   compared statement by statement with the emitted code of every generated schema (tie T1).
   [run_encode l t v] executes l under the C resp. Go semantics of OpMode.exec on the struct memory
   [store (norm t) v] and a zeroed buffer of [nbytes t] bytes; [run_decode l t s] executes l on
   buffer s and a zeroed struct.  "What standard mode produces" is Spec.wire. *)
From Coq Require Import ZArith List.
From BP Require Import Bits Schema Spec OpMode OpModeLeaf OpModeLeafDec OpModeList OpModeProofs.
(* qualified: OpMode and CMem / CRt each have an [endian], [rd], [wr], [store] of their own *)
From BP Require OpModeStd CMem CRt CTop.
Import ListNotations.
Open Scope Z_scope.

(* C, --endian little (and the default output without BP_BIG_ENDIAN) *)
Theorem C04_c_le_enc : forall t v,
  opmode_ok (norm t) = true -> wf (norm t) = true -> has_ty (norm t) v = true ->
  run_encode (c_le_body true t) t v = Some (wire t v).
Proof. exact c_le_encode. Qed.
Print Assumptions C04_c_le_enc.

Theorem C04_c_le_dec : forall t v,
  opmode_ok (norm t) = true -> wf (norm t) = true -> has_ty (norm t) v = true ->
  run_decode (c_le_body false t) t (wire t v) = Some (store (norm t) v).
Proof. exact c_le_decode. Qed.
Print Assumptions C04_c_le_dec.

(* C, --endian big (and the default output with BP_BIG_ENDIAN): memset + value statements *)
Theorem C04_c_be_enc : forall t v,
  opmode_ok (norm t) = true -> wf (norm t) = true -> has_ty (norm t) v = true ->
  run_encode (c_be_body true t) t v = Some (wire t v).
Proof. exact c_be_encode. Qed.
Print Assumptions C04_c_be_enc.

Theorem C04_c_be_dec : forall t v,
  opmode_ok (norm t) = true -> wf (norm t) = true -> has_ty (norm t) v = true ->
  run_decode (c_be_body false t) t (wire t v) = Some (store (norm t) v).
Proof. exact c_be_decode. Qed.
Print Assumptions C04_c_be_dec.

(* Go (statement semantics modelled, never executed) *)
Theorem C04_go_enc : forall t v,
  opmode_ok (norm t) = true -> wf (norm t) = true -> has_ty (norm t) v = true ->
  run_encode (go_body true t) t v = Some (wire t v).
Proof. exact go_encode. Qed.
Print Assumptions C04_go_enc.

Theorem C04_go_dec : forall t v,
  opmode_ok (norm t) = true -> wf (norm t) = true -> has_ty (norm t) v = true ->
  run_decode (go_body false t) t (wire t v) = Some (store (norm t) v).
Proof. exact go_decode. Qed.
Print Assumptions C04_go_dec.

(* every --endian setting x BP_BIG_ENDIAN defined or not selects a branch with that result *)
Theorem C04_endian_select : forall t v,
  opmode_ok (norm t) = true -> wf (norm t) = true -> has_ty (norm t) v = true ->
  forall (e : endian) (macro_defined : bool),
  run_encode (select macro_defined (c_body e true t)) t v = Some (wire t v) /\
  run_decode (select macro_defined (c_body e false t)) t (wire t v) = Some (store (norm t) v).
Proof. exact endian_select. Qed.
Print Assumptions C04_endian_select.

(* which statements each setting compiles: little -> byte-pointer; big -> value-based;
   both -> byte-pointer unless BP_BIG_ENDIAN is defined *)
Theorem C04_endian_branch : forall e m enc t,
  select m (c_body e enc t) =
  match branch_of e m with CBE => c_be_body enc t | _ => c_le_body enc t end.
Proof. exact select_branch. Qed.
Print Assumptions C04_endian_branch.

(* one scalar field at an arbitrary bit offset (also the op-mode part of C14): all widths
   1..64, all storage sizes, bool/byte/uint/int/enum, aliased or not, every offset i0, every
   object content u, every language *)
Theorem C04_single_field_enc : forall L lf ch M u i0 s,
  leaf_ok lf -> pat_ok lf u -> mem_get M ch = Some (mkcell (leaf_cty lf) u) ->
  0 <= i0 -> bytes_ok s -> 0 <= bufZ s < 2 ^ i0 ->
  i0 + leaf_bits lf <= 8 * Z.of_nat (length s) ->
  exists s',
    run (leaf_stmts L true (ch, lf) i0) (mkst s M) = Some (mkst s' M) /\
    bytes_ok s' /\ length s' = length s /\
    bufZ s' = bufZ s + 2 ^ i0 * (u mod 2 ^ leaf_bits lf).
Proof. exact leaf_encode. Qed.
Print Assumptions C04_single_field_enc.

Theorem C04_single_field_dec : forall L lf ch M0 S i0,
  leaf_ok lf -> mem_get M0 ch = Some (mkcell (leaf_cty lf) 0) ->
  0 <= i0 -> bytes_ok S -> i0 + leaf_bits lf <= 8 * Z.of_nat (length S) ->
  run (leaf_stmts L false (ch, lf) i0) (mkst S M0) =
  Some (mkst S (mem_set M0 ch (dec_pat lf (bufZ S / 2 ^ i0)))).
Proof. exact leaf_decode. Qed.
Print Assumptions C04_single_field_dec.

(* what the decoder rebuilds from the field's own bits is the stored pattern of the value *)
Theorem C04_single_field_value : forall lf v X,
  cell_ty_ok (lf, v) ->
  X mod 2 ^ leaf_bits lf = leaf_pat lf v mod 2 ^ leaf_bits lf ->
  dec_pat lf X = leaf_pat lf v.
Proof. exact dec_pat_ok. Qed.
Print Assumptions C04_single_field_value.

(* "the same field values": the stored pattern read at its declared type is the value *)
Theorem C04_store_is_value : forall lf v,
  cell_ty_ok (lf, v) ->
  sval (leaf_cty lf) (leaf_pat lf v) =
  match lk lf with KBool => (match v with VB true => 1 | _ => 0 end) | _ => zof v end.
Proof. exact store_value. Qed.
Print Assumptions C04_store_is_value.

Theorem C04_store_in_range : forall t v,
  wf (norm t) = true -> opmode_ok (norm t) = true -> has_ty (norm t) v = true ->
  Forall cell_ty_ok (map snd (cells (norm t) v)).
Proof. exact store_cells_ok. Qed.
Print Assumptions C04_store_in_range.

(* the statement list is the plan: the emitted statements mention the leaves of the sorted
   message in order, and struct memory has one object per leaf with pairwise distinct chains *)
Theorem C04_leaves_of_store : forall t v, map lview (cells t v) = leaves t.
Proof. exact cells_leaves. Qed.
Print Assumptions C04_leaves_of_store.

Theorem C04_chains_distinct : forall t v, wf t = true -> NoDup (map fst (cells t v)).
Proof. exact cells_nodup. Qed.
Print Assumptions C04_chains_distinct.

(* non-vacuity: a nested, aliased, permuted traditional schema meets every hypothesis and
   all six runs compute to the stated results *)
Definition ex_inner : ty := TMsg false [(2, TUint 5); (1, TBool)].
Definition ex_t : ty :=
  TMsg false [ (11, TAlias (TArr false 2 (TInt 5)));
               (1, TEnum 3 [0; 5]);
               (2, TAlias (TInt 13));
               (5, ex_inner);
               (7, TArr false 2 TByte);
               (10, TAlias TBool);
               (14, TArr false 2 ex_inner);
               (12, TInt 63);
               (9, TUint 24) ].
Definition ex_v : val :=
  VM [ (11, VL [VZ (-3); VZ 7]); (1, VZ 5); (2, VZ (-171));
       (5, VM [(2, VZ 19); (1, VB true)]); (7, VL [VZ 255; VZ 1]); (10, VB true);
       (14, VL [VM [(2, VZ 1); (1, VB false)]; VM [(2, VZ 31); (1, VB true)]]);
       (12, VZ (-12345678901234)); (9, VZ 11259375) ].

Example C04_nonvacuous :
  opmode_ok (norm ex_t) = true /\ wf (norm ex_t) = true /\ has_ty (norm ex_t) ex_v = true /\
  length (wire ex_t ex_v) = 19%nat /\
  run_encode (c_le_body true ex_t) ex_t ex_v = Some (wire ex_t ex_v) /\
  run_encode (c_be_body true ex_t) ex_t ex_v = Some (wire ex_t ex_v) /\
  run_encode (go_body true ex_t) ex_t ex_v = Some (wire ex_t ex_v) /\
  run_decode (c_le_body false ex_t) ex_t (wire ex_t ex_v) = Some (store (norm ex_t) ex_v) /\
  run_decode (c_be_body false ex_t) ex_t (wire ex_t ex_v) = Some (store (norm ex_t) ex_v) /\
  run_decode (go_body false ex_t) ex_t (wire ex_t ex_v) = Some (store (norm ex_t) ex_v) /\
  length (stmts CLE false ex_t) = 45%nat.
Proof. vm_compute. repeat split; reflexivity. Qed.

(* the single-field hypotheses are satisfiable: int13 at bit offset 5 *)
Example C04_single_nonvacuous :
  let lf := mkleaf (KInt 13) true in
  leaf_ok lf /\ pat_ok lf 65365 /\ cell_ty_ok (lf, VZ (-171)) /\ leaf_pat lf (VZ (-171)) = 65365 /\
  run (leaf_stmts CBE true ([SF 2], lf) 5) (mkst [21; 0; 0] [([SF 2], mkcell (CS 16) 65365)]) =
    Some (mkst [181; 234; 3] [([SF 2], mkcell (CS 16) 65365)]) /\
  run (leaf_stmts GO false ([SF 2], lf) 5) (mkst [181; 234; 3] [([SF 2], mkcell (CS 16) 0)]) =
    Some (mkst [181; 234; 3] [([SF 2], mkcell (CS 16) 65365)]).
Proof. vm_compute. repeat split; try reflexivity; try (intro; discriminate). Qed.

(* optimization mode = standard mode: the emitted -O statements (C byte-pointer, C
   value-based, Go) and the C runtime driven by the standard-mode descriptors (C03) produce the
   same bytes, and all four decoders turn those bytes back into the stored value (each model in its
   own layout of v: [OpMode.store] one typed pattern per scalar, [CRt.store] the struct's bytes) *)

Theorem C04_eq_standard_enc : forall t v,
  OpMode.opmode_ok (norm t) = true -> CTop.c_schema t -> has_ty (norm t) v = true ->
  exists bs,
    OpMode.run_encode (OpMode.c_le_body true t) t v = Some bs /\
    OpMode.run_encode (OpMode.c_be_body true t) t v = Some bs /\
    OpMode.run_encode (OpMode.go_body true t) t v = Some bs /\
    CRt.c_encode_ty CMem.LE CMem.LE t (CRt.store CMem.LE (norm t) v) = CMem.COk bs.
Proof. exact OpModeStd.opmode_eq_standard_enc. Qed.
Print Assumptions C04_eq_standard_enc.

Theorem C04_eq_standard_dec : forall t v,
  OpMode.opmode_ok (norm t) = true -> CTop.c_schema t -> has_ty (norm t) v = true ->
  forall bs, CRt.c_encode_ty CMem.LE CMem.LE t (CRt.store CMem.LE (norm t) v) = CMem.COk bs ->
    OpMode.run_decode (OpMode.c_le_body false t) t bs = Some (OpMode.store (norm t) v) /\
    OpMode.run_decode (OpMode.c_be_body false t) t bs = Some (OpMode.store (norm t) v) /\
    OpMode.run_decode (OpMode.go_body false t) t bs = Some (OpMode.store (norm t) v) /\
    CRt.c_decode_ty CMem.LE CMem.LE t bs = CMem.COk (CRt.store CMem.LE (norm t) v).
Proof. exact OpModeStd.opmode_eq_standard_dec. Qed.
Print Assumptions C04_eq_standard_dec.
