(* C05 — Forward compatibility: an older schema decodes data from an extended one. *)
From Coq Require Import ZArith List.
From BP Require Import Schema Spec PyRt PyEncTop PyDecProofs Evolve PyEvolve PyEvolveTop GoHelpers.
From BP Require Import CMem CRt CEvolveProofs CTop.
From BPGen Require GenPy GenGo GenC.
Import ListNotations.
Open Scope Z_scope.

(* Python runtime: code generated from S1 decodes ANY buffer encoded with an evolved S2
   (fields appended to extensible messages, capacities of extensible arrays raised, at any
   depth, any number of steps) to exactly the projection of the value onto S1; in particular
   everything that follows an extended region is read from the right position.
   dec_guard excludes exactly the C02 known finding enum-default. *)
Theorem C05_py_forward_compat : forall t1 t2 v2,
  PyEncTop.is_msg t1 = true ->
  evolvesb (norm t1) (norm t2) = true ->
  wf (norm t1) = true -> wf (norm t2) = true -> dec_guard (norm t1) = true ->
  has_ty (norm t2) v2 = true ->
  py_decode t1 (wire t2 v2) = Ok (proj (norm t1) v2).
Proof. exact py_forward_compat. Qed.
Print Assumptions C05_py_forward_compat.

(* at every nesting depth and position: the old decoder leaves the cursor after the whole
   evolved node *)
Theorem C05_py_cursor : forall t1, ev_ok t1.
Proof. exact ev_ok_all. Qed.
Print Assumptions C05_py_cursor.

(* chains of versions S1 -> S2 -> ... collapse to one evolution step *)
Theorem C05_chain_refl : forall t, evolvesb t t = true.
Proof. exact evolvesb_refl. Qed.
Print Assumptions C05_chain_refl.

Theorem C05_chain_trans : forall a b c,
  evolvesb a b = true -> evolvesb b c = true -> evolvesb a c = true.
Proof. exact evolvesb_trans. Qed.
Print Assumptions C05_chain_trans.

(* Go runtime "by inspection of the same formula": the skip formulas and the skip test
   translated from lib/go/bitproto.go (typed 64-bit int arithmetic written out) equal the
   Python ones wherever a decoder can be: cursors below 2^40, prefix values 16-bit, at least
   the 16 prefix bits consumed.  The Python theorem above is about exactly these formulas.
   (The Go decoder model as a whole computes the same reader RdSpec.rd as Python's:
   GoDecProofs.go_rd.  RdSpec.rd_evolved therefore applies to it as well; the evolved statement
   is not written out for Go.) *)
Theorem C05_go_message_ito : forall i ahead,
  small i -> 0 <= ahead < 65536 -> GenGo.message_ito i ahead = GenPy.message_ito i ahead.
Proof. exact go_message_ito_eq. Qed.
Print Assumptions C05_go_message_ito.

Theorem C05_go_array_ito : forall i ahead cap ci,
  0 <= i < 2 ^ 40 -> 0 <= ahead < 65536 -> 0 < cap < 65536 -> i + 16 <= ci < 2 ^ 40 ->
  GenGo.array_ito i ahead cap ci = GenPy.array_ito i ahead cap ci.
Proof. exact go_array_ito_eq. Qed.
Print Assumptions C05_go_array_ito.

Theorem C05_go_ito_taken : forall ito ci, GenGo.ito_taken ito ci = GenPy.ito_taken ito ci.
Proof. exact go_ito_taken_eq. Qed.
Print Assumptions C05_go_ito_taken.

(* non-vacuity: both permitted steps at depth, followed by a field *)
Definition s1 : ty :=
  TMsg true [ (1, TArr true 2 (TUint 3));
              (2, TMsg true [(1, TInt 5)]);
              (3, TArr true 1 (TMsg true [(1, TBool)]));
              (4, TUint 7) ].
Definition s2 : ty :=
  TMsg true [ (1, TArr true 11 (TUint 3));
              (2, TMsg true [(1, TInt 5); (9, TUint 33)]);
              (3, TArr true 3 (TMsg true [(1, TBool); (2, TByte)]));
              (4, TUint 7);
              (200, TArr false 2 (TInt 17)) ].
Definition v2 : val :=
  VM [ (1, VL [VZ 1; VZ 2; VZ 3; VZ 4; VZ 5; VZ 6; VZ 7; VZ 0; VZ 1; VZ 2; VZ 3]);
       (2, VM [(1, VZ (-16)); (9, VZ 8589934591)]);
       (3, VL [VM [(1, VB true); (2, VZ 255)]; VM [(1, VB false); (2, VZ 1)]; VM [(1, VB true); (2, VZ 2)]]);
       (4, VZ 99); (200, VL [VZ (-65536); VZ 65535]) ].
Example C05_nonvacuous :
  evolvesb (norm s1) (norm s2) = true /\ wf (norm s1) = true /\ wf (norm s2) = true /\
  dec_guard (norm s1) = true /\ has_ty (norm s2) v2 = true /\
  py_decode s1 (wire s2 v2) =
    Ok (VM [ (1, VL [VZ 1; VZ 2]); (2, VM [(1, VZ (-16))]); (3, VL [VM [(1, VB true)]]); (4, VZ 99) ]).
Proof. vm_compute. repeat split; reflexivity. Qed.

(* C runtime (standard mode): the source-level model of lib/c/bitproto.c (CRt.v, skip
   formulas translated into BPGen.GenC) over the descriptors of the renderer model.
   Decode<S1>, given ANY buffer encoded with an evolved S2 and a zero-initialised struct,
   fills the struct with exactly the projection of the value onto S1 (every integer two's
   complement in its storage width) — in particular it never reads or writes out of bounds
   (COk: the buffer is ceil(nbits S2 / 8) bytes) and everything after an extended region
   is read from the right position. *)

Theorem C05_c_forward_compat : forall t1 t2 v2,
  c_schema t1 -> c_schema t2 -> evolvesb (norm t1) (norm t2) = true -> has_ty (norm t2) v2 = true ->
  c_decode_ty LE LE t1 (wire t2 v2) = COk (store LE (norm t1) (proj (norm t1) v2)).
Proof. exact (fun t1 t2 v2 => c_forward_compat LE LE t1 t2 v2 eq_refl). Qed.
Print Assumptions C05_c_forward_compat.

(* the same for the BP_BIG_ENDIAN build on a big-endian host (storage in big-endian order) *)
Theorem C05_c_forward_compat_be : forall t1 t2 v2,
  c_schema t1 -> c_schema t2 -> evolvesb (norm t1) (norm t2) = true -> has_ty (norm t2) v2 = true ->
  c_decode_ty BE BE t1 (wire t2 v2) = COk (store BE (norm t1) (proj (norm t1) v2)).
Proof. exact (fun t1 t2 v2 => c_forward_compat BE BE t1 t2 v2 eq_refl). Qed.
Print Assumptions C05_c_forward_compat_be.

(* cursor lemma, at every nesting depth and position: decoding node t1 at bit i of a stream
   that holds an evolved t2 node there leaves ctx->i = i + nbits t2 *)
Theorem C05_c_cursor : forall t1, cev_ok LE LE t1.
Proof. exact (cev_ok_all LE LE eq_refl). Qed.
Print Assumptions C05_c_cursor.

(* the skip formulas and skip tests translated from lib/c/bitproto.c (C `/` on ints = Z.quot)
   equal the Python ones on the decoder's domain (capacity positive, at least the 16 prefix
   bits consumed) *)
Theorem C05_c_formulas :
  (forall i ahead, GenC.ms_ito i ahead = GenPy.message_ito i ahead) /\
  (forall i ahead cap ci, 0 < cap -> i + 16 <= ci ->
     GenC.ar_ito i ahead ci cap = GenPy.array_ito i ahead cap ci) /\
  (forall ito ci, GenC.ms_ito_taken ito ci = GenPy.ito_taken ito ci) /\
  (forall ito ci, GenC.ar_ito_taken ito ci = GenPy.ito_taken ito ci).
Proof. exact c_formulas. Qed.
Print Assumptions C05_c_formulas.

Example C05_c_nonvacuous :
  c_schema s1 /\ c_schema s2 /\ evolvesb (norm s1) (norm s2) = true /\ has_ty (norm s2) v2 = true /\
  c_decode_ty LE LE s1 (wire s2 v2) = COk (store LE (norm s1) (proj (norm s1) v2)) /\
  c_decode_ty LE LE s1 (wire s2 v2) =
    COk (OS [ (1, OB [1; 2]); (2, OS [(1, OB [240])]); (3, OL [OS [(1, OB [1])]]); (4, OB [99]) ]).
Proof. vm_compute. repeat split; reflexivity. Qed.
