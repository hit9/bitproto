(* C08_lex.v — C08 (accepted iff documented), TEXT LEVEL: what the tokenizer makes of a text. *)
From Coq Require Import String ZArith List.
From BP Require Import TotalBase LexBase Lex LexSpec LexProofs LexClass LexMunch LexOrigin LexTyped LexValue.
From BPGen Require Import GenLexer.
Import ListNotations.

(* tiling: the lexemes and the skipped characters, in order, are exactly the input up to the point
   where the loop stopped (nothing dropped, reordered or read twice); on normal termination that
   is the whole input *)
Theorem C08_lex_tiling : forall uw s its e rem,
  lex_run uw s = (its, e, rem) -> items_text its ++ rem = s /\ (e = LDone -> rem = []).
Proof. exact lex_tiling. Qed.
Print Assumptions C08_lex_tiling.

(* only characters of t_ignore are skipped; every token has a non-empty lexeme; positions are consecutive *)
Theorem C08_lex_items_wellformed : forall uw s its e rem,
  lex_run uw s = (its, e, rem) -> pos_ok 0 its /\ line_ok 1 its.
Proof. intros uw s its e rem H. apply lex_run_inv in H. split; apply H. Qed.
Print Assumptions C08_lex_items_wellformed.

(* classification at one position of the master regex: a reserved word standing at word
   boundaries on both sides is matched by its own rule — not by t_IDENTIFIER — and the match
   ends exactly after the word *)
Theorem C08_lex_reserved_word_typed : forall uw fuel p post W,
  In W [W_bool; W_byte; W_true; W_false; W_yes; W_no] ->
  word_opt uw p = false -> word_opt uw (hd_error post) = false ->
  exists r s', first_rule uw fuel lex_rules (p, W ++ post) = Some (r, s')
               /\ cps_eqb (r_name r) T_IDENTIFIER = false /\ snd s' = post.
Proof. exact reserved_word_typed. Qed.
Print Assumptions C08_lex_reserved_word_typed.

(* ... and the guard is needed: directly after a digit there is no word boundary, "1bool" is
   INT_LITERAL 1 followed by IDENTIFIER "bool" (replayed on the implementation on every run:
   boundary catalogue `typeword-prefixed`) *)
Theorem C08_lex_reserved_word_never_identifier_refuted : forall uw,
  map (fun t => (t_type t, t_val t)) (fst (lex uw [49; 98; 111; 111; 108]%N))
  = [(T_INT_LITERAL, VInt 1); (T_IDENTIFIER, VText W_bool)].
Proof. exact reserved_word_identifier_witness. Qed.
Print Assumptions C08_lex_reserved_word_never_identifier_refuted.

(* whole runs, guarded form: an IDENTIFIER token spelled bool / byte / true / false / yes / no is glued to
   a word character directly before or directly after it (every token of a run comes from one
   consultation of the master regex in the context the input gives it: LexOrigin.lex_items_origins) *)
Theorem C08_lex_reserved_identifier_is_glued : forall uw s its e rem a t lx b,
  lex_run uw s = (its, e, rem) -> its = a ++ ITok t lx :: b ->
  cps_eqb (t_type t) T_IDENTIFIER = true -> In lx [W_bool; W_byte; W_true; W_false; W_yes; W_no] ->
  word_opt uw (lastc None (items_text a)) = true \/ word_opt uw (hd_error (items_text b ++ rem)) = true.
Proof. exact reserved_identifier_is_glued. Qed.
Print Assumptions C08_lex_reserved_identifier_is_glued.

(* uintN / intN for EVERY N: at word boundaries, `uint` / `int` + a run of digits is matched by t_UINT_TYPE /
   t_INT_TYPE with the whole run (the greedy [0-9]+ backtracks through shorter runs, none is at a boundary) *)
Theorem C08_lex_uint_typed : forall uw fuel p d0 ds post,
  word_opt uw p = false -> word_opt uw (hd_error post) = false ->
  ok_digit d0 = true -> forallb ok_digit ds = true -> (length (ds ++ post) <= fuel)%nat ->
  exists r, first_rule uw fuel lex_rules (p, W_uint ++ d0 :: ds ++ post) = Some (r, (lastc (Some d0) ds, post))
            /\ r_name r = T_UINT_TYPE.
Proof. exact uint_typed. Qed.
Print Assumptions C08_lex_uint_typed.

Theorem C08_lex_int_typed : forall uw fuel p d0 ds post,
  word_opt uw p = false -> word_opt uw (hd_error post) = false ->
  ok_digit d0 = true -> forallb ok_digit ds = true -> (length (ds ++ post) <= fuel)%nat ->
  exists r, first_rule uw fuel lex_rules (p, W_int ++ d0 :: ds ++ post) = Some (r, (lastc (Some d0) ds, post))
            /\ r_name r = T_INT_TYPE.
Proof. exact int_typed. Qed.
Print Assumptions C08_lex_int_typed.

Theorem C08_lex_width_identifier_is_glued : forall uw s its e rem a t lx b d0 ds,
  lex_run uw s = (its, e, rem) -> its = a ++ ITok t lx :: b ->
  cps_eqb (t_type t) T_IDENTIFIER = true ->
  (lx = W_uint ++ d0 :: ds \/ lx = W_int ++ d0 :: ds) -> ok_digit d0 = true -> forallb ok_digit ds = true ->
  word_opt uw (lastc None (items_text a)) = true \/ word_opt uw (hd_error (items_text b ++ rem)) = true.
Proof. exact width_identifier_is_glued. Qed.
Print Assumptions C08_lex_width_identifier_is_glued.

(* the 8 keywords never come out as IDENTIFIER (t_IDENTIFIER re-types them), in any context *)
Theorem C08_lex_keyword_retyped : forall name a lx line ty v l,
  a_kw a = true -> cps_mem lx lex_keywords = true ->
  run_action name (Some a) lx line = Ok (ty, v, l) -> ty = map cp_upper lx /\ cps_eqb ty T_IDENTIFIER = false.
Proof. exact keyword_retyped. Qed.
Print Assumptions C08_lex_keyword_retyped.

(* "//" starts a comment in every context; a "/" not followed by "/" is DIVIDE *)
Theorem C08_lex_slashes_comment : forall uw fuel p post,
  exists r s', first_rule uw fuel lex_rules (p, 47%N :: 47%N :: post) = Some (r, s') /\ r_name r = T_COMMENT.
Proof. exact slashes_comment. Qed.
Print Assumptions C08_lex_slashes_comment.

Theorem C08_lex_lone_slash_divide : forall uw fuel p post,
  match post with c :: _ => N.eqb c 47 = false | [] => True end ->
  first_rule uw fuel lex_rules (p, 47%N :: post) = Some (mkRule T_DIVIDE rx_t_DIVIDE None, (Some 47%N, post)).
Proof. exact lone_slash_divide. Qed.
Print Assumptions C08_lex_lone_slash_divide.

(* WHICH prefix the backtracking search returns (not the longest in general — here proved per rule):
   the greedy class rules take the maximal run ... *)
Theorem C08_lex_identifier_maximal : forall uw fuel p s, (length s <= S fuel)%nat ->
  rmatch uw fuel rx_t_IDENTIFIER (p, s)
  = match s with
    | c :: r => if ok_idstart c then Some (lastc (Some c) (fst (span ok_idchar r)), snd (span ok_idchar r)) else None
    | [] => None
    end.
Proof. exact identifier_maximal. Qed.
Print Assumptions C08_lex_identifier_maximal.

Theorem C08_lex_int_literal_maximal : forall uw fuel p s, (length s <= S fuel)%nat ->
  rmatch uw fuel rx_t_INT_LITERAL (p, s)
  = match s with
    | c :: r => if ok_digit c then Some (lastc (Some c) (fst (span ok_digit r)), snd (span ok_digit r)) else None
    | [] => None
    end.
Proof. exact int_literal_maximal. Qed.
Print Assumptions C08_lex_int_literal_maximal.

Theorem C08_lex_hex_literal_maximal : forall uw fuel p c r, (length r <= fuel)%nat ->
  rmatch uw fuel rx_t_HEX_LITERAL (p, 48%N :: 120%N :: c :: r)
  = if ok_hex c then Some (lastc (Some c) (fst (span ok_hex r)), snd (span ok_hex r)) else None.
Proof. exact hex_literal_maximal. Qed.
Print Assumptions C08_lex_hex_literal_maximal.

Theorem C08_lex_comment_maximal : forall uw fuel p r, (length r <= fuel)%nat ->
  rmatch uw fuel rx_t_COMMENT (p, 47%N :: 47%N :: r)
  = Some (lastc (Some 47%N) (fst (span ok_notnl r)), snd (span ok_notnl r)).
Proof. exact comment_maximal. Qed.
Print Assumptions C08_lex_comment_maximal.

(* ... and the lazy string rule ends at the FIRST double quote that is not escaped (LexSpec.str_close);
   there is no match — the quote becomes an invalid token — when the line or the input ends first *)
Theorem C08_lex_string_first_close : forall uw fuel p r, (length r <= fuel)%nat ->
  rmatch uw fuel rx_t_STRING_LITERAL (p, 34%N :: r) = close_result r.
Proof. exact string_literal_first_close. Qed.
Print Assumptions C08_lex_string_first_close.

Theorem C08_lex_str_close_split : forall r body rest,
  str_close r = Some (body, rest) -> r = body ++ 34%N :: rest /\ ~ In NL body.
Proof. exact str_close_split. Qed.
Print Assumptions C08_lex_str_close_split.

(* the value of a number token is the Horner value of its digits: int(t.value) / int(t.value, 16) *)
Theorem C08_lex_int_value : forall maxd ds z, npy_int 10 maxd ds = Ok z -> z = digits_val 10 ds.
Proof. exact npy_int_dec_value. Qed.
Print Assumptions C08_lex_int_value.

Theorem C08_lex_hex_value : forall maxd hs z,
  hs <> [] -> npy_int 16 maxd (48 :: 120 :: hs)%N = Ok z -> z = digits_val 16 hs.
Proof. exact npy_int_hex_value. Qed.
Print Assumptions C08_lex_hex_value.

(* the vocabulary of the direct scanner (LexSpec) is the one in lexer.py *)
Theorem C08_lex_vocabulary :
  lex_ignore = S_ignore /\ lex_literals = S_literals /\ lex_keywords = S_keywords
  /\ map (fun e => (fst e, snd e)) escaping_chars = map (fun e => (fst e, [snd e])) S_escapes
  /\ py_int_max_str_digits = S_max_digits.
Proof. repeat split. Qed.
Print Assumptions C08_lex_vocabulary.

(* non-vacuity / worked instances (the general statements behind these —
   equality with LexSpec.spec_lex on every input, the printer round trip — are evaluated per generated input
   against LexSpec.spec_lex on every run, not proved: partial) *)
Definition types_of (s : list N) := map t_type (fst (lex uni_word s)).
Definition vals_of (s : list N) := map t_val (fst (lex uni_word s)).

Example C08_lex_nonvacuous_tiling :
  let s := [117;105;110;116;56;32;120;61;34;97;92;34;98;34;47;47;99;10;48;120;49;70]%N in
  items_text (fst (fst (lex_run uni_word s))) = s.
Proof. vm_compute. reflexivity. Qed.

(* boolean / uint8x / protocol are single IDENTIFIERs; 0x1F is one HEX_LITERAL with value 31 *)
Example C08_lex_word_boundary_instances :
  types_of (cps_of_string "boolean uint8x protocol") = [T_IDENTIFIER; T_IDENTIFIER; T_IDENTIFIER]
  /\ types_of (cps_of_string "bool uint8 proto") = [T_BOOL_TYPE; T_UINT_TYPE; T_PROTO]
  /\ (types_of (cps_of_string "0x1F"), vals_of (cps_of_string "0x1F")) = ([T_HEX_LITERAL], [VInt 31])
  /\ types_of (cps_of_string "0xg") = [T_INT_LITERAL; T_IDENTIFIER].
Proof. vm_compute. repeat split. Qed.

(* printing a token list with single spaces and lexing it back: same types and values *)
Example C08_lex_roundtrip_instance :
  let s := cps_of_string "message M { uint3 a_b = 12 ; bool [ 4 ] c = 0x1F } const K = true" in
  types_of s = [T_MESSAGE; T_IDENTIFIER; [123%N]; T_UINT_TYPE; T_IDENTIFIER; [61%N]; T_INT_LITERAL; [59%N];
                T_BOOL_TYPE; [91%N]; T_INT_LITERAL; [93%N]; T_IDENTIFIER; [61%N]; T_HEX_LITERAL; [125%N];
                T_CONST; T_IDENTIFIER; [61%N]; T_BOOL_LITERAL]
  /\ snd (lex uni_word s) = LDone.
Proof. vm_compute. split; reflexivity. Qed.
